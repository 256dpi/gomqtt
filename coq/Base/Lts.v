(* Lts.v — deterministic monitors; induction over traces for an invariant, and for a scanner that
   follows a monitor step by step. *)
From Coq Require Import List.
Import ListNotations.

Section Lts.
  Variables (state event : Type).
  Variable step : state -> event -> option state.

  Fixpoint run (s : state) (es : list event) : option state :=
    match es with
    | [] => Some s
    | e :: es' => match step s e with
                  | Some s' => run s' es'
                  | None => None
                  end
    end.

  Lemma run_app s es1 es2 :
    run s (es1 ++ es2) = match run s es1 with Some s' => run s' es2 | None => None end.
  Proof.
    revert s; induction es1 as [|e es1 IH]; intros s; cbn [run app]; [reflexivity|].
    destruct (step s e) as [s'|]; [apply IH|reflexivity].
  Qed.

  Theorem invariant_all_traces (Inv : state -> Prop) (s0 : state) :
    Inv s0 ->
    (forall s e s', Inv s -> step s e = Some s' -> Inv s') ->
    forall es s, run s0 es = Some s -> Inv s.
  Proof.
    intros H0 Hstep es; revert s0 H0.
    induction es as [|e es IH]; intros s0 H0 s Hrun; cbn [run] in Hrun.
    - injection Hrun as <-; exact H0.
    - destruct (step s0 e) as [s1|] eqn:E; [|discriminate].
      eapply IH; [eapply Hstep; eassumption|exact Hrun].
  Qed.

  (* every prefix of an accepted trace is accepted *)
  Lemma run_prefix s es1 es2 s' :
    run s (es1 ++ es2) = Some s' -> exists s1, run s es1 = Some s1 /\ run s1 es2 = Some s'.
  Proof.
    rewrite run_app. destruct (run s es1) as [s1|]; [|discriminate].
    intros H; exists s1; split; [reflexivity|exact H].
  Qed.
End Lts.

Arguments run {state event} step s es.

Section Parts.
  Context {S E : Type} (f : S -> E -> option S).

  Lemma run_cons t e t' es r : f t e = Some t' -> run f t' es = r -> run f t (e :: es) = r.
  Proof. intros Ee R. cbn [run]. rewrite Ee. exact R. Qed.

  Lemma run_parts t0 t1 t2 pre mid post :
    run f t0 pre = Some t1 -> run f t1 mid = Some t2 ->
    run f t0 (pre ++ mid ++ post) = run f t2 post.
  Proof. intros E1 E2. rewrite run_app, E1. cbn beta iota. rewrite run_app, E2. reflexivity. Qed.
End Parts.

Section Sim.
  Context {S E X : Type} (step : S -> E -> option S).
  Variables (Inv : S -> Prop) (R : X -> S -> Prop).
  Hypothesis Inv_step : forall s e s', Inv s -> step s e = Some s' -> Inv s'.

  Lemma sim_run (f : X -> E -> option X) :
    (forall x s e s', Inv s -> R x s -> step s e = Some s' -> exists x', f x e = Some x' /\ R x' s') ->
    forall es x s s', Inv s -> R x s -> run step s es = Some s' -> exists x', run f x es = Some x' /\ R x' s'.
  Proof.
    intros Hf. induction es as [|e es IH]; intros x s s' Hi Hr Hrun; cbn [run] in *.
    - injection Hrun as <-. exists x. split; [reflexivity|exact Hr].
    - destruct (step s e) as [s1|] eqn:Hs; [|discriminate Hrun].
      destruct (Hf x s e s1 Hi Hr Hs) as (x1 & -> & Hr1). eauto.
  Qed.

  Lemma sim_fold (f : X -> E -> X) :
    (forall x s e s', Inv s -> R x s -> step s e = Some s' -> R (f x e) s') ->
    forall es x s s', Inv s -> R x s -> run step s es = Some s' -> R (fold_left f es x) s'.
  Proof.
    intros Hf. induction es as [|e es IH]; intros x s s' Hi Hr Hrun; cbn [run fold_left] in *.
    - injection Hrun as <-. exact Hr.
    - destruct (step s e) as [s1|] eqn:Hs; [|discriminate Hrun]. eauto.
  Qed.
End Sim.
