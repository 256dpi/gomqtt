(* TrieTopProofs.v — the statements of C04/C05 on topic strings and operation
   histories, assembled from TrieMatchProofs / TrieRefineProofs / TrieCanonProofs. *)
From Coq Require Import List Bool NArith Permutation Lia.
From Coq.Strings Require Import Byte.
From GM Require Import Topic.MatchSpec Topic.Levels Topic.Trie Topic.TrieProofs Topic.TrieMatchProofs
  Topic.TreeSpec Topic.TreeSpecProofs Topic.TrieRefineProofs Topic.TrieCanonProofs.
Import ListNotations.
Open Scope N_scope.

(* values only sit at paths that are splits of NUL-free topic strings *)
Definition stringy (t : tree) : Prop := forall p, tget p t <> [] -> path_ok p.

Lemma remove_val_nil : forall v, remove_val v [] = [].
Proof. reflexivity. Qed.

Lemma stringy_apply : forall t o, wf t -> op_ok o = true -> stringy t -> stringy (apply_trie t o).
Proof.
  intros t o Hw Hok Hs p Hp. rewrite tget_apply in Hp by exact Hw.
  assert (K : forall s (a : list N), no_nul s = true ->
              (if path_eq_dec p (walk s) then a else tget p t) <> [] -> path_ok p).
  { intros s a Hn H. rewrite (walk_is_split s Hn) in H.
    destruct (path_eq_dec p (split_levels s)) as [-> | _]; [apply split_path_ok; exact Hn | exact (Hs p H)]. }
  destruct o as [s v | s v | s v | s | v |]; simpl in Hok, Hp; try exact (K s _ Hok Hp).
  - apply Hs. intros E. rewrite E in Hp. exact (Hp eq_refl).
  - congruence.
Qed.

Lemma stringy_run : forall ops, forallb op_ok ops = true -> stringy (run_trie ops).
Proof.
  intros ops Hok.
  apply (fold_left_inv _ _ apply_trie (fun t => wf t /\ stringy t) (fun o => op_ok o = true)) with (ops := ops).
  - intros t o Ho [Hw Hs]. auto using wf_apply, stringy_apply.
  - apply forallb_forall. exact Hok.
  - split; [exact wf_empty|]. intros p Hp. unfold New in Hp. rewrite tget_empty_node in Hp. congruence.
Qed.

(* paths with values <-> NUL-free topic strings with values *)
Lemma stored_string : forall t (P : path -> bool) v, stringy t ->
  ((exists p, In v (tget p t) /\ P p = true) <->
   (exists s, no_nul s = true /\ In v (Get t s) /\ P (split_levels s) = true)).
Proof.
  intros t P v Hs. split.
  - intros [p [Hin HP]]. assert (Hok : path_ok p) by (apply Hs; intros E; rewrite E in Hin; destruct Hin).
    destruct (path_ok_string p Hok) as [s [Hn Hsp]]. exists s. unfold Get.
    rewrite (walk_is_split s Hn), Hsp. repeat split; assumption.
  - intros [s [Hn [Hin HP]]]. exists (split_levels s). unfold Get in Hin. rewrite (walk_is_split s Hn) in Hin.
    split; assumption.
Qed.

(* ------------------------------------------------------------------ C04 *)
Lemma match_strings : forall ops name v, forallb op_ok ops = true -> wildcard_free name = true ->
  (In v (Match (run_trie ops) name) <->
   exists f, no_nul f = true /\ In v (Get (run_trie ops) f) /\ topic_matches f name = true)
  /\ NoDup (Match (run_trie ops) name).
Proof.
  intros ops name v Hok Hn. split; [|apply clean_NoDup].
  unfold Match, tmatch. rewrite (walk_is_split name (wildcard_free_no_nul name Hn)).
  rewrite clean_In, (tmatch_raw_spec _ _ v (wildcard_free_name_ok name Hn)).
  apply (stored_string (run_trie ops) (fun f => matches f (split_levels name)) v). apply stringy_run. exact Hok.
Qed.

Lemma search_strings : forall ops f v, forallb op_ok ops = true -> valid_filter f = true ->
  (In v (Search (run_trie ops) f) <->
   exists name, no_nul name = true /\ In v (Get (run_trie ops) name) /\ topic_matches f name = true)
  /\ NoDup (Search (run_trie ops) f).
Proof.
  intros ops f v Hok Hf. split; [|apply clean_NoDup].
  unfold Search, tsearch. rewrite (walk_is_split f (valid_filter_no_nul f Hf)).
  rewrite clean_In, (tsearch_raw_spec _ _ v (wf_run ops) (valid_filter_hash_last f Hf)).
  apply (stored_string (run_trie ops) (fun n => matches (split_levels f) n) v). apply stringy_run. exact Hok.
Qed.

Lemma first_rel_iff : forall o l, first_rel o l -> (o = None <-> l = []) /\ (forall v, o = Some v -> In v l).
Proof.
  intros [w|] l H; simpl in H; split.
  - split; [discriminate | intros E; subst l; destruct H].
  - intros v E. inversion E; subst. exact H.
  - split; [intros _; exact H | reflexivity].
  - intros v E. discriminate.
Qed.

Lemma firsts_any_tree : forall (t : tree) (s : list byte),
  ((MatchFirst t s = None <-> Match t s = []) /\ (forall v, MatchFirst t s = Some v -> In v (Match t s))) /\
  ((SearchFirst t s = None <-> Search t s = []) /\ (forall v, SearchFirst t s = Some v -> In v (Search t s))).
Proof.
  intros t s. split; apply first_rel_iff; apply first_rel_clean; [apply tmatch_first_rel | apply tsearch_first_rel].
Qed.

Lemma stored_single : forall p v (P : path -> Prop),
  (exists q, In v (tget q (tset v p New)) /\ P q) <-> P p.
Proof.
  assert (G : forall p q v, tget q (tset v p New) = if path_eq_dec q p then [v] else []).
  { intros p q v. rewrite tget_tset. unfold New. rewrite tget_empty_node. reflexivity. }
  intros p v P. split.
  - intros [q [Hin HP]]. rewrite G in Hin. destruct (path_eq_dec q p) as [-> | _]; [exact HP | destruct Hin].
  - intros HP. exists p. rewrite G. destruct (path_eq_dec p p); [|congruence]. split; [left; reflexivity | exact HP].
Qed.

Lemma directions_agree : forall f name v, valid_filter f = true -> wildcard_free name = true ->
  (In v (Match (Set_ New f v) name) <-> topic_matches f name = true) /\
  (In v (Search (Set_ New name v) f) <-> topic_matches f name = true).
Proof.
  intros f name v Hf Hn.
  assert (Hfn := valid_filter_no_nul f Hf). assert (Hnn := wildcard_free_no_nul name Hn).
  split.
  - unfold Match, tmatch, Set_. rewrite (walk_is_split name Hnn), (walk_is_split f Hfn).
    rewrite clean_In, (tmatch_raw_spec _ _ v (wildcard_free_name_ok name Hn)).
    apply (stored_single _ v (fun p => matches p (split_levels name) = true)).
  - unfold Search, tsearch, Set_. rewrite (walk_is_split name Hnn), (walk_is_split f Hfn).
    rewrite clean_In, (tsearch_raw_spec _ _ v (wf_tset v _ New wf_empty) (valid_filter_hash_last f Hf)).
    apply (stored_single _ v (fun n => matches (split_levels f) n = true)).
Qed.

(* ------------------------------------------------------------------ C05 *)
Lemma refines_all : forall ops, forallb op_ok ops = true ->
  (forall p, Permutation (mget (abs (run_trie ops)) p) (mget (run_spec ops) p)) /\
  (forall q, query_ok q = true -> answer_ok (run_spec ops) q (answer_trie (run_trie ops) q)) /\
  Permutation (Shape (run_trie ops)) (s_shape (run_spec ops)).
Proof.
  intros ops Hok.
  assert (Hw := wf_run ops). assert (Hm := mwf_run ops). assert (Hr := refines_run ops Hok).
  split; [|split].
  - intros p. rewrite abs_get by exact Hw. apply Hr.
  - intros q Hq. apply answers_agree; assumption.
  - apply shape_refines; try assumption. apply pruned_run.
Qed.

Lemma canonical_abs : forall t1 t2, wf t1 -> wf t2 -> pruned t1 -> pruned t2 ->
  (forall p, Permutation (mget (abs t1) p) (mget (abs t2) p)) -> Permutation (Shape t1) (Shape t2).
Proof.
  intros t1 t2 H1 H2 P1 P2 He. apply shape_canonical; try assumption.
  intros q. rewrite <- (abs_get t1 q H1), <- (abs_get t2 q H2). apply He.
Qed.

(* two histories that leave the same map contents leave trees that print alike and answer alike *)
Lemma history_independent : forall ops1 ops2, forallb op_ok ops1 = true -> forallb op_ok ops2 = true ->
  (forall p, Permutation (mget (run_spec ops1) p) (mget (run_spec ops2) p)) ->
  Permutation (Shape (run_trie ops1)) (Shape (run_trie ops2)) /\
  (forall p, Permutation (tget p (run_trie ops1)) (tget p (run_trie ops2))).
Proof.
  intros ops1 ops2 H1 H2 He.
  assert (G : forall p, Permutation (tget p (run_trie ops1)) (tget p (run_trie ops2))).
  { intros p. eapply perm_trans; [apply (refines_run ops1 H1)|].
    eapply perm_trans; [apply He|]. apply Permutation_sym. apply (refines_run ops2 H2). }
  split; [|exact G].
  apply shape_canonical; try apply wf_run; try apply pruned_run. exact G.
Qed.
