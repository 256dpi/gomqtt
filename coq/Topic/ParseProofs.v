(* ParseProofs.v — topic.Parse (model Parse.parse) against its specification.

     parse_is_spec        NUL-free input: parse s allow = parse_spec s allow  (so: never OutOfFuel;
                          ErrZeroLength iff the collapsed and trimmed topic is empty; otherwise Ok of
                          that topic iff its levels are well-formed, else ErrWildcards)
     parse_ok_normal      a successful result has no adjacent slashes, no trailing slash, is non-empty,
                          NUL-free, and is a MatchSpec.valid_filter (wildcards allowed) resp.
                          MatchSpec.wildcard_free (not allowed)
     parse_idempotent     Parse of its own output returns it unchanged *)
From Coq Require Import List Bool Arith Lia.
From Coq.Strings Require Import Byte.
From GM Require Import Topic.MatchSpec Topic.Levels Topic.Parse.
Import ListNotations.

Lemma is_slash_eq : forall c, is_slash c = true <-> c = b_slash.
Proof. intros c. unfold is_slash. apply byte_eqb_eq. Qed.

(* ------------------------------------------------------------------ collapse *)
Lemma collapse_from_noadj : forall s b, has_adj_from b (collapse_from b s) = false.
Proof.
  induction s as [|c s IH]; intros b; simpl; [reflexivity|].
  destruct (is_slash c && b) eqn:E.
  - apply andb_true_iff in E. destruct E as [_ ->]. apply IH.
  - simpl. rewrite E. simpl. apply IH.
Qed.

Lemma collapse_from_id : forall s b, has_adj_from b s = false -> collapse_from b s = s.
Proof.
  induction s as [|c s IH]; intros b H; simpl in *; [reflexivity|].
  apply orb_false_iff in H. destruct H as [H1 H2]. rewrite H1. f_equal. apply IH. exact H2.
Qed.

Lemma collapse_from_In : forall s b x, In x (collapse_from b s) -> In x s.
Proof.
  induction s as [|c s IH]; intros b x H; simpl in *; [exact H|].
  destruct (is_slash c && b).
  - right. exact (IH _ _ H).
  - destruct H as [H | H]; [left; exact H | right; exact (IH _ _ H)].
Qed.

(* ------------------------------------------------------------------ trim_right *)
Lemma trim_right_noadj : forall s b, has_adj_from b s = false -> has_adj_from b (trim_right s) = false.
Proof.
  induction s as [|c s IH]; intros b H; simpl in *; [reflexivity|].
  apply orb_false_iff in H. destruct H as [H1 H2].
  destruct (trim_right s) as [|x t] eqn:E.
  - destruct (is_slash c) eqn:Ec; [reflexivity|]. simpl. rewrite Ec. reflexivity.
  - change (has_adj_from b (c :: x :: t)) with ((is_slash c && b) || has_adj_from (is_slash c) (x :: t)).
    rewrite H1. simpl orb. apply IH. exact H2.
Qed.

Lemma trim_right_no_trailing : forall s, ends_with_slash (trim_right s) = false.
Proof.
  induction s as [|c s IH]; simpl; [reflexivity|].
  destruct (trim_right s) as [|x t] eqn:E.
  - destruct (is_slash c) eqn:Ec; [reflexivity | simpl; exact Ec].
  - exact IH.
Qed.

Lemma trim_right_id : forall s, ends_with_slash s = false -> trim_right s = s.
Proof.
  induction s as [|c s IH]; intros H; [reflexivity|].
  destruct s as [|x s'].
  - simpl in *. rewrite H. reflexivity.
  - change (ends_with_slash (c :: x :: s')) with (ends_with_slash (x :: s')) in H.
    change (trim_right (c :: x :: s')) with (match trim_right (x :: s') with [] => if is_slash c then [] else [c] | t => c :: t end).
    rewrite (IH H). reflexivity.
Qed.

Lemma trim_right_In : forall s x, In x (trim_right s) -> In x s.
Proof.
  induction s as [|c s IH]; intros x H; simpl in *; [exact H|].
  destruct (trim_right s) as [|y t] eqn:E.
  - destruct (is_slash c); [destruct H|]. destruct H as [H | []]. left. exact H.
  - destruct H as [H | H]; [left; exact H | right; apply IH; exact H].
Qed.

Lemma norm_In : forall s x, In x (norm s) -> In x s.
Proof. intros s x H. unfold norm in H. apply trim_right_In in H. exact (collapse_from_In _ _ _ H). Qed.

Lemma norm_noadj : forall s, has_adjacent_slashes (norm s) = false.
Proof. intros s. unfold norm, has_adjacent_slashes. apply trim_right_noadj. apply collapse_from_noadj. Qed.

Lemma norm_no_trailing : forall s, ends_with_slash (norm s) = false.
Proof. intros s. apply trim_right_no_trailing. Qed.

Lemma norm_id : forall t, has_adjacent_slashes t = false -> ends_with_slash t = false -> norm t = t.
Proof.
  intros t H1 H2. unfold norm, collapse. rewrite (collapse_from_id t false H1). apply trim_right_id. exact H2.
Qed.

(* ------------------------------------------------------------------ levels *)
(* the loop's three checks, on a level and "this is the last level" *)
Definition level_bad (allow : bool) (l : level) (last : bool) : bool :=
  ((has_byte b_plus l || has_byte b_hash l) && (1 <? length l)) ||
  (negb allow && (is_hash l || is_plus l)) ||
  (is_hash l && negb last).

Fixpoint levels_okb (allow : bool) (ls : list level) : bool :=
  match ls with
  | [] => true
  | l :: ls' => negb (level_bad allow l (match ls' with [] => true | _ :: _ => false end)) && levels_okb allow ls'
  end.

Lemma is_end_topic_end : is_end topic_end = true.
Proof. reflexivity. Qed.

Lemma check_segments_split : forall fuel allow r, ~ In b_nul r -> length r + 2 <= fuel ->
  check_segments fuel allow r = Some (levels_okb allow (split_levels r)).
Proof.
  induction fuel as [|f IH]; intros allow r Hn Hf; [lia|].
  simpl check_segments. unfold segment_bad.
  destruct (seg_short_spec r) as [[H1 [H2 [H3 H4]]] | [H1 [H2 [H3 H4]]]].
  - rewrite H1, H2, H3. rewrite (is_end_no_nul r Hn). rewrite is_end_topic_end.
    simpl levels_okb. unfold level_bad. simpl negb.
    rewrite andb_false_r, orb_false_r, andb_true_r.
    destruct (_ || _) eqn:E; [reflexivity|].
    destruct f as [|f]; [lia|]. reflexivity.
  - assert (Hs : ~ In b_nul (segment r)) by (intros Hin; apply Hn; apply H4; exact Hin).
    assert (Hr : ~ In b_nul (shorten r)) by (intros Hin; apply Hn; apply H3; exact Hin).
    rewrite (is_end_no_nul _ Hs). rewrite H2. rewrite (is_end_no_nul _ Hr).
    destruct (split_levels (shorten r)) as [|l2 ls2] eqn:Es; [exfalso; exact (split_levels_nonempty _ Es)|].
    change (levels_okb allow (segment r :: l2 :: ls2)) with
      (negb (level_bad allow (segment r) false) && levels_okb allow (l2 :: ls2)).
    unfold level_bad. simpl negb.
    destruct (_ || _ || _) eqn:E; [reflexivity|].
    simpl andb. rewrite (IH allow (shorten r) Hr) by lia. rewrite Es. reflexivity.
Qed.

(* the possible shapes of a level with respect to the wildcard characters *)
Lemma level_cases : forall l : level,
  (has_byte b_plus l = false /\ has_byte b_hash l = false /\ is_plus l = false /\ is_hash l = false) \/
  (is_plus l = true /\ has_byte b_plus l = true /\ has_byte b_hash l = false /\ is_hash l = false /\ (1 <? length l) = false) \/
  (is_hash l = true /\ has_byte b_hash l = true /\ has_byte b_plus l = false /\ is_plus l = false /\ (1 <? length l) = false) \/
  ((has_byte b_plus l || has_byte b_hash l) = true /\ (1 <? length l) = true /\ is_plus l = false /\ is_hash l = false).
Proof.
  intros [|c [|d l]].
  - left. repeat split; reflexivity.
  - destruct (Byte.byte_eq_dec c b_plus) as [-> | Np]; [auto 10|].
    destruct (Byte.byte_eq_dec c b_hash) as [-> | Nh]; [auto 10 | left].
    assert (F : forall b, c <> b -> has_byte b [c] = false /\ level_eqb [c] [b] = false).
    { intros b Hb. split; [apply has_byte_false; intros [E | []]; congruence|].
      simpl. rewrite andb_true_r. apply byte_eqb_neq. exact Hb. }
    destruct (F _ Np), (F _ Nh). auto.
  - assert (Hp : is_plus (c :: d :: l) = false) by (unfold is_plus; simpl; apply andb_false_r).
    assert (Hh : is_hash (c :: d :: l) = false) by (unfold is_hash; simpl; apply andb_false_r).
    destruct (has_byte b_plus (c :: d :: l) || has_byte b_hash (c :: d :: l)) eqn:E.
    + right. right. right. repeat split; try assumption; reflexivity.
    + apply orb_false_iff in E. destruct E as [E1 E2]. left. repeat split; assumption.
Qed.

Lemma levels_okb_allow : forall ls, levels_okb true ls = valid_filter_levels ls.
Proof.
  induction ls as [|l ls IH]; [reflexivity|].
  simpl levels_okb. simpl valid_filter_levels. rewrite IH. unfold level_bad. simpl negb at 2. simpl andb at 2.
  destruct (level_cases l) as [[H1 [H2 [H3 H4]]] | [[H1 [H2 [H3 [H4 H5]]]] | [[H1 [H2 [H3 [H4 H5]]]] | [H1 [H2 [H3 H4]]]]]].
  - rewrite H1, H2, H3, H4. reflexivity.
  - rewrite H1, H2, H3, H4, H5. reflexivity.
  - rewrite H1, H2, H3, H4, H5. simpl. destruct ls; reflexivity.
  - rewrite H1, H2, H3, H4. simpl.
    destruct (has_byte b_hash l); simpl; [reflexivity|].
    simpl in H1. rewrite orb_false_r in H1. rewrite H1. reflexivity.
Qed.

Lemma levels_okb_deny : forall ls,
  levels_okb false ls = forallb (fun l => negb (has_byte b_plus l) && negb (has_byte b_hash l)) ls.
Proof.
  induction ls as [|l ls IH]; [reflexivity|].
  simpl levels_okb. simpl forallb. rewrite IH. unfold level_bad. simpl negb at 2. simpl andb at 2.
  destruct (level_cases l) as [[H1 [H2 [H3 H4]]] | [[H1 [H2 [H3 [H4 H5]]]] | [[H1 [H2 [H3 [H4 H5]]]] | [H1 [H2 [H3 H4]]]]]].
  - rewrite H1, H2, H3, H4. reflexivity.
  - rewrite H1, H2, H3, H4, H5. reflexivity.
  - rewrite H1, H2, H3, H4, H5. reflexivity.
  - rewrite H1, H2, H3, H4. simpl. apply orb_true_iff in H1.
    destruct H1 as [-> | ->]; [reflexivity | rewrite andb_false_r; reflexivity].
Qed.

Lemma split_levels_covers : forall s x, In x s -> x <> b_slash -> exists l, In l (split_levels s) /\ In x l.
Proof.
  induction s as [|c s IH]; intros x Hin Hne; [destruct Hin|]. simpl.
  destruct (Byte.eqb c b_slash) eqn:E.
  - apply byte_eqb_eq in E. destruct Hin as [Hin | Hin]; [congruence|].
    destruct (IH x Hin Hne) as [l [H1 H2]]. exists l. split; [right; exact H1 | exact H2].
  - destruct (split_levels s) as [|l0 ls] eqn:Es; [exfalso; exact (split_levels_nonempty s Es)|].
    destruct Hin as [<- | Hin].
    + exists (c :: l0). split; left; reflexivity.
    + destruct (IH x Hin Hne) as [l [[<- | H1] H2]].
      * exists (c :: l0). split; [left; reflexivity | right; exact H2].
      * exists l. split; [right; exact H1 | exact H2].
Qed.

Lemma has_byte_levels : forall x s, x <> b_slash ->
  has_byte x s = existsb (has_byte x) (split_levels s).
Proof.
  intros x s Hne. destruct (has_byte x s) eqn:E.
  - symmetry. apply has_byte_In in E. destruct (split_levels_covers s x E Hne) as [l [H1 H2]].
    apply existsb_exists. exists l. split; [exact H1 | apply has_byte_In; exact H2].
  - symmetry. destruct (existsb (has_byte x) (split_levels s)) eqn:E2; [|reflexivity].
    apply existsb_exists in E2. destruct E2 as [l [H1 H2]]. apply has_byte_In in H2.
    apply has_byte_false in E. exfalso. apply E. exact (split_levels_bytes s l x H1 H2).
Qed.

Lemma forallb_negb_existsb : forall (A : Type) (f : A -> bool) l, forallb (fun x => negb (f x)) l = negb (existsb f l).
Proof. induction l as [|a l IH]; simpl; [reflexivity|]. rewrite IH, negb_orb. reflexivity. Qed.

Lemma levels_okb_good : forall allow t, levels_okb allow (split_levels t) = topic_good allow t.
Proof.
  intros [|] t; unfold topic_good.
  - apply levels_okb_allow.
  - rewrite levels_okb_deny.
    assert (Hp : b_plus <> b_slash) by discriminate. assert (Hh : b_hash <> b_slash) by discriminate.
    rewrite (has_byte_levels b_plus t Hp), (has_byte_levels b_hash t Hh).
    rewrite <- !forallb_negb_existsb.
    induction (split_levels t) as [|l ls IH]; simpl; [reflexivity|]. rewrite IH.
    destruct (has_byte b_plus l), (has_byte b_hash l); simpl; try reflexivity;
      repeat rewrite andb_false_r; reflexivity.
Qed.

(* ------------------------------------------------------------------ the model is the specification *)
Lemma not_In_norm : forall s, ~ In b_nul s -> ~ In b_nul (norm s).
Proof. intros s H Hin. apply H. exact (norm_In _ _ Hin). Qed.

Theorem parse_is_spec : forall s allow, no_nul s = true -> parse s allow = parse_spec s allow.
Proof.
  intros s allow Hn. apply no_nul_In in Hn. unfold parse, parse_spec.
  destruct s as [|c s]; [reflexivity|].
  assert (E : trim_right (if has_adjacent_slashes (c :: s) then collapse (c :: s) else c :: s) = norm (c :: s)).
  { unfold norm. destruct (has_adjacent_slashes (c :: s)) eqn:Ea; [reflexivity|].
    unfold collapse. rewrite (collapse_from_id _ false Ea). reflexivity. }
  cbv zeta. rewrite E. destruct (norm (c :: s)) as [|x t] eqn:En; [reflexivity|].
  assert (Hnn : ~ In b_nul (x :: t)) by (rewrite <- En; apply not_In_norm; exact Hn).
  rewrite (check_segments_split _ allow (x :: t) Hnn) by lia.
  rewrite levels_okb_good. destruct (topic_good allow (x :: t)); reflexivity.
Qed.

Theorem parse_ok_normal : forall s allow t, no_nul s = true -> parse s allow = POk t ->
  t = norm s /\ normal_form allow t = true /\ no_nul t = true /\
  (allow = true -> valid_filter t = true) /\ (allow = false -> wildcard_free t = true).
Proof.
  intros s allow t Hn H. rewrite (parse_is_spec s allow Hn) in H. unfold parse_spec in H.
  destruct (norm s) as [|x r] eqn:En; [discriminate|].
  destruct (topic_good allow (x :: r)) eqn:Eg; [|discriminate]. inversion H; subst t. clear H.
  assert (Hnn : no_nul (x :: r) = true).
  { apply no_nul_In. rewrite <- En. apply not_In_norm. apply no_nul_In. exact Hn. }
  split; [reflexivity|]. split; [|split; [exact Hnn|split]].
  - unfold normal_form. rewrite <- En at 1 2. rewrite norm_noadj, norm_no_trailing, Eg. reflexivity.
  - intros ->. unfold valid_filter. rewrite Hnn. exact Eg.
  - intros ->. unfold wildcard_free. rewrite Hnn. unfold topic_good in Eg.
    apply andb_true_iff in Eg. destruct Eg as [E1 E2]. rewrite E1, E2. reflexivity.
Qed.

Theorem parse_idempotent : forall s allow t, no_nul s = true -> parse s allow = POk t -> parse t allow = POk t.
Proof.
  intros s allow t Hn H. destruct (parse_ok_normal s allow t Hn H) as [_ [Hnf [Hnt _]]].
  rewrite (parse_is_spec t allow Hnt). unfold parse_spec. unfold normal_form in Hnf.
  apply andb_true_iff in Hnf. destruct Hnf as [Hnf Hg]. apply andb_true_iff in Hnf. destruct Hnf as [Hnf Hne].
  apply andb_true_iff in Hnf. destruct Hnf as [Ha Ht]. apply negb_true_iff in Ha. apply negb_true_iff in Ht.
  rewrite (norm_id t Ha Ht). destruct t as [|x r]; [discriminate|]. rewrite Hg. reflexivity.
Qed.

(* when Parse fails *)
Theorem parse_failures : forall s allow, no_nul s = true ->
  (parse s allow = PErr ErrZeroLength <-> norm s = []) /\
  (parse s allow = PErr ErrWildcards <-> norm s <> [] /\ topic_good allow (norm s) = false) /\
  parse s allow <> POutOfFuel.
Proof.
  intros s allow Hn. rewrite (parse_is_spec s allow Hn). unfold parse_spec.
  destruct (norm s) as [|x r] eqn:En.
  - split; [split; reflexivity|]. split; [|discriminate]. split; [discriminate | intros [H _]; congruence].
  - destruct (topic_good allow (x :: r)) eqn:Eg.
    + split; [split; discriminate|]. split; [|discriminate]. split; [discriminate | intros [_ H]; discriminate].
    + split; [split; discriminate|]. split; [|discriminate]. split; [intros _; split; [discriminate | reflexivity] | reflexivity].
Qed.

(* ContainsWildcards after a Parse that does not allow wildcards *)
Theorem parse_deny_no_wildcards : forall s t, no_nul s = true -> parse s false = POk t -> contains_wildcards t = false.
Proof.
  intros s t Hn H. destruct (parse_ok_normal s false t Hn H) as [_ [_ [_ [_ Hw]]]].
  specialize (Hw eq_refl). unfold wildcard_free in Hw. apply andb_true_iff in Hw. destruct Hw as [Hw H2].
  apply andb_true_iff in Hw. destruct Hw as [_ H1]. apply negb_true_iff in H1. apply negb_true_iff in H2.
  unfold contains_wildcards. rewrite H1, H2. reflexivity.
Qed.
