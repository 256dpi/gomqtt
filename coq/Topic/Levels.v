(* Levels.v — how topic/tree.go walks a topic string.

   tree.go never splits a topic up front: every recursive call looks at the
   whole remaining string, takes `topicSegment(topic, "/")` (everything before
   the first separator, or the whole string) and continues with
   `topicShorten(topic, "/")` (everything after the first separator, or the
   sentinel "\x00" when there is none); the recursion stops when the remaining
   string equals the sentinel.  `segment`, `shorten`, `is_end` mirror these,
   `walk` iterates them (fuel = length + 2, never exhausted: `walk_fuel_enough`).

   Results: on a NUL-free string the walk visits exactly the plain split on
   '/' (`walk_is_split`), the split is injective (`split_levels_inj`, via
   `join`), and every non-empty list of slash-free levels is the split of its
   join (`split_join`). *)
From Coq Require Import List Bool Arith Lia.
From Coq.Strings Require Import Byte.
From GM Require Import Topic.MatchSpec.
Import ListNotations.

Definition topic_end : list byte := [b_nul].

(* topic == topicEnd *)
Definition is_end (s : list byte) : bool :=
  match s with
  | [c] => Byte.eqb c b_nul
  | _ => false
  end.

(* topicSegment: topic[:i] for the first separator, else topic *)
Fixpoint segment (s : list byte) : level :=
  match s with
  | [] => []
  | c :: s' => if Byte.eqb c b_slash then [] else c :: segment s'
  end.

(* topicShorten: topic[i+1:] for the first separator, else the sentinel *)
Fixpoint shorten (s : list byte) : list byte :=
  match s with
  | [] => topic_end
  | c :: s' => if Byte.eqb c b_slash then s' else shorten s'
  end.

Fixpoint walk_fuel (fuel : nat) (s : list byte) : list level :=
  match fuel with
  | O => []
  | S f => if is_end s then [] else segment s :: walk_fuel f (shorten s)
  end.

Definition walk (s : list byte) : list level := walk_fuel (S (S (length s))) s.

(* inverse of split_levels *)
Fixpoint join (p : list level) : list byte :=
  match p with
  | [] => []
  | l :: p' => match p' with [] => l | _ :: _ => l ++ b_slash :: join p' end
  end.

(* a list of levels that is the split of some NUL-free string *)
Definition level_ok (l : level) : Prop := ~ In b_slash l /\ ~ In b_nul l.
Definition path_ok (p : list level) : Prop := p <> [] /\ Forall level_ok p.

(* ------------------------------------------------------------------ facts *)

Lemma byte_eqb_eq : forall a b, Byte.eqb a b = true <-> a = b.
Proof.
  intros a b. split.
  - intros H. apply Byte.byte_dec_bl in H. exact H.
  - intros ->. apply Byte.byte_dec_lb. reflexivity.
Qed.

Lemma false_iff_not : forall (b : bool) (P : Prop), (b = true <-> P) -> (b = false <-> ~ P).
Proof.
  intros [|] P H; split; intros H1; try discriminate; try reflexivity.
  - destruct H1. apply H. reflexivity.
  - intros HP. apply H in HP. discriminate.
Qed.

Lemma byte_eqb_neq : forall a b, Byte.eqb a b = false <-> a <> b.
Proof. intros a b. apply false_iff_not. apply byte_eqb_eq. Qed.

Lemma level_eqb_eq : forall a b, level_eqb a b = true <-> a = b.
Proof.
  induction a as [|x a IH]; destruct b as [|y b]; simpl; split; try congruence; try reflexivity.
  - intros H. apply andb_true_iff in H. destruct H as [H1 H2].
    apply byte_eqb_eq in H1. apply IH in H2. subst. reflexivity.
  - intros H. inversion H; subst. apply andb_true_iff. split.
    + apply byte_eqb_eq. reflexivity.
    + apply IH. reflexivity.
Qed.

Lemma level_eqb_refl : forall a, level_eqb a a = true.
Proof. intros a. apply level_eqb_eq. reflexivity. Qed.

Lemma level_eqb_neq : forall a b, level_eqb a b = false <-> a <> b.
Proof.
  intros a b. split.
  - intros H E. apply level_eqb_eq in E. congruence.
  - intros H. destruct (level_eqb a b) eqn:E; [apply level_eqb_eq in E; contradiction | reflexivity].
Qed.

Lemma level_eqb_sym : forall a b, level_eqb a b = level_eqb b a.
Proof.
  intros a b. destruct (level_eqb a b) eqn:E.
  - apply level_eqb_eq in E. subst. symmetry. apply level_eqb_refl.
  - apply level_eqb_neq in E. symmetry. apply level_eqb_neq. congruence.
Qed.

Lemma level_eq_dec : forall a b : level, {a = b} + {a <> b}.
Proof. intros a b. destruct (level_eqb a b) eqn:E; [left; apply level_eqb_eq; exact E | right; apply level_eqb_neq; exact E]. Defined.

Lemma path_eq_dec : forall a b : list level, {a = b} + {a <> b}.
Proof. apply list_eq_dec. apply level_eq_dec. Defined.

Lemma has_byte_In : forall b l, has_byte b l = true <-> In b l.
Proof.
  intros b l. unfold has_byte. rewrite existsb_exists. split.
  - intros [x [Hin He]]. apply byte_eqb_eq in He. subst. exact Hin.
  - intros Hin. exists b. split; [exact Hin | apply byte_eqb_eq; reflexivity].
Qed.

Lemma has_byte_false : forall b l, has_byte b l = false <-> ~ In b l.
Proof. intros b l. apply false_iff_not. apply has_byte_In. Qed.

Lemma no_nul_In : forall s, no_nul s = true <-> ~ In b_nul s.
Proof.
  intros s. unfold no_nul. rewrite negb_true_iff. apply has_byte_false.
Qed.

Lemma split_levels_nonempty : forall s, split_levels s <> [].
Proof.
  induction s as [|c s IH]; simpl; [discriminate|].
  destruct (Byte.eqb c b_slash); [discriminate|].
  destruct (split_levels s); discriminate.
Qed.

(* one step of the walk against one step of the split *)
Lemma seg_short_spec : forall s,
  (segment s = s /\ shorten s = topic_end /\ split_levels s = [s] /\ ~ In b_slash s) \/
  (length (shorten s) < length s /\ split_levels s = segment s :: split_levels (shorten s) /\
   (forall b, In b (shorten s) -> In b s) /\ (forall b, In b (segment s) -> In b s)).
Proof.
  induction s as [|c s IH]; simpl.
  - left. repeat split; auto.
  - destruct (Byte.eqb c b_slash) eqn:E.
    + right. repeat split; auto; try lia. intros b [].
    + apply byte_eqb_neq in E.
      destruct IH as [[H1 [H2 [H3 H4]]] | [H1 [H2 [H3 H4]]]].
      * left. rewrite H1, H2, H3. repeat split; auto. intros [Hc | Hc]; [congruence | contradiction].
      * right. rewrite H2. repeat split; auto; try lia.
        intros b [Hb | Hb]; [left; exact Hb | right; apply H4; exact Hb].
Qed.

Lemma is_end_no_nul : forall s, ~ In b_nul s -> is_end s = false.
Proof.
  intros s H. destruct s as [|c [|d s]]; simpl; try reflexivity.
  apply byte_eqb_neq. intros ->. apply H. left. reflexivity.
Qed.

Lemma walk_fuel_split : forall f s, ~ In b_nul s -> length s + 2 <= f -> walk_fuel f s = split_levels s.
Proof.
  induction f as [|f IH]; intros s Hn Hf; [lia|].
  simpl. rewrite (is_end_no_nul s Hn).
  destruct (seg_short_spec s) as [[H1 [H2 [H3 H4]]] | [H1 [H2 [H3 H4]]]].
  - rewrite H1, H2, H3. destruct f as [|f]; [lia|]. reflexivity.
  - rewrite H2. f_equal. apply IH; [|lia]. intros Hin. apply Hn. apply H3. exact Hin.
Qed.

(* the walk of tree.go over a NUL-free topic visits exactly the levels of the plain split *)
Lemma walk_is_split : forall s, no_nul s = true -> walk s = split_levels s.
Proof.
  intros s H. apply no_nul_In in H. unfold walk. apply walk_fuel_split; [exact H | lia].
Qed.

(* the fuel of `walk` is never exhausted: more fuel gives the same walk, for every string *)
Lemma walk_fuel_enough : forall f s, length s + 2 <= f -> walk_fuel f s = walk s.
Proof.
  assert (G : forall f g s, length s + 2 <= f -> length s + 2 <= g -> walk_fuel f s = walk_fuel g s).
  { induction f as [|f IH]; intros g s Hf Hg; [lia|].
    destruct g as [|g]; [lia|]. simpl.
    destruct (is_end s) eqn:E; [reflexivity|]. f_equal.
    destruct (seg_short_spec s) as [[H1 [H2 _]] | [H1 _]].
    - rewrite H2. destruct f as [|f]; [lia|]. destruct g as [|g]; [lia|]. reflexivity.
    - apply IH; lia. }
  intros f s Hf. unfold walk. apply G; [exact Hf | lia].
Qed.

Lemma join_split : forall s, join (split_levels s) = s.
Proof.
  induction s as [|c s IH]; simpl; [reflexivity|].
  destruct (Byte.eqb c b_slash) eqn:E.
  - apply byte_eqb_eq in E. subst c.
    destruct (split_levels s) as [|l ls] eqn:Es; [exfalso; exact (split_levels_nonempty s Es)|].
    simpl. simpl in IH. rewrite IH. reflexivity.
  - destruct (split_levels s) as [|l ls] eqn:Es; [exfalso; exact (split_levels_nonempty s Es)|].
    simpl. simpl in IH. destruct ls as [|l2 ls]; simpl; simpl in IH; rewrite IH; reflexivity.
Qed.

(* different topic strings have different level lists: a map keyed by level lists is a map keyed by topics *)
Lemma split_levels_inj : forall s1 s2, split_levels s1 = split_levels s2 -> s1 = s2.
Proof.
  intros s1 s2 H. rewrite <- (join_split s1), <- (join_split s2), H. reflexivity.
Qed.

Lemma split_level_noslash : forall l, ~ In b_slash l -> split_levels l = [l].
Proof.
  induction l as [|c l IH]; intros H; simpl; [reflexivity|].
  destruct (Byte.eqb c b_slash) eqn:E.
  - apply byte_eqb_eq in E. exfalso. apply H. left. exact E.
  - rewrite IH; [reflexivity|]. intros Hin. apply H. right. exact Hin.
Qed.

Lemma split_app_slash : forall l s, ~ In b_slash l -> split_levels (l ++ b_slash :: s) = l :: split_levels s.
Proof.
  induction l as [|c l IH]; intros s H; simpl.
  - reflexivity.
  - destruct (Byte.eqb c b_slash) eqn:E.
    + apply byte_eqb_eq in E. exfalso. apply H. left. exact E.
    + rewrite IH; [reflexivity|]. intros Hin. apply H. right. exact Hin.
Qed.

Lemma split_join : forall p, path_ok p -> split_levels (join p) = p.
Proof.
  intros p [Hne Hok]. induction p as [|l p IH]; [congruence|].
  inversion Hok as [|? ? Hl Hp]; subst. destruct Hl as [Hs _].
  destruct p as [|l2 p].
  - simpl. apply split_level_noslash. exact Hs.
  - change (join (l :: l2 :: p)) with (l ++ b_slash :: join (l2 :: p)).
    rewrite split_app_slash by exact Hs. f_equal. apply IH; [discriminate | exact Hp].
Qed.

Lemma join_no_nul : forall p, Forall level_ok p -> ~ In b_nul (join p).
Proof.
  induction p as [|l p IH]; intros Hok; [intros []|].
  inversion Hok as [|? ? Hl Hp]; subst. destruct Hl as [_ Hn].
  destruct p as [|l2 p]; [exact Hn|].
  change (join (l :: l2 :: p)) with (l ++ b_slash :: join (l2 :: p)).
  intros Hin. apply in_app_or in Hin. destruct Hin as [Hin | [Hin | Hin]].
  - exact (Hn Hin).
  - discriminate Hin.
  - exact (IH Hp Hin).
Qed.

Lemma split_levels_bytes : forall s l b, In l (split_levels s) -> In b l -> In b s.
Proof.
  induction s as [|c s IH]; intros l b Hl Hb; simpl in Hl.
  - destruct Hl as [<- | []]. exact Hb.
  - destruct (Byte.eqb c b_slash) eqn:E.
    + destruct Hl as [<- | Hl]; [destruct Hb|]. right. exact (IH l b Hl Hb).
    + destruct (split_levels s) as [|l0 ls] eqn:Es; [exfalso; exact (split_levels_nonempty s Es)|].
      destruct Hl as [<- | Hl].
      * destruct Hb as [<- | Hb]; [left; reflexivity|]. right. apply (IH l0 b); [left; reflexivity | exact Hb].
      * right. apply (IH l b); [right; exact Hl | exact Hb].
Qed.

Lemma split_levels_noslash : forall s l, In l (split_levels s) -> ~ In b_slash l.
Proof.
  induction s as [|c s IH]; intros l Hl; simpl in Hl.
  - destruct Hl as [<- | []]. intros [].
  - destruct (Byte.eqb c b_slash) eqn:E.
    + destruct Hl as [<- | Hl]; [intros [] | exact (IH l Hl)].
    + apply byte_eqb_neq in E.
      destruct (split_levels s) as [|l0 ls] eqn:Es; [exfalso; exact (split_levels_nonempty s Es)|].
      destruct Hl as [<- | Hl].
      * intros [Hc | Hc]; [congruence|]. apply (IH l0); [left; reflexivity | exact Hc].
      * apply IH. right. exact Hl.
Qed.

Lemma split_path_ok : forall s, no_nul s = true -> path_ok (split_levels s).
Proof.
  intros s H. apply no_nul_In in H. split; [apply split_levels_nonempty|].
  apply Forall_forall. intros l Hl. split.
  - exact (split_levels_noslash s l Hl).
  - intros Hb. apply H. exact (split_levels_bytes s l _ Hl Hb).
Qed.

(* every well-formed path is the split of a NUL-free topic string *)
Lemma path_ok_string : forall p, path_ok p -> exists s, no_nul s = true /\ split_levels s = p.
Proof.
  intros p H. exists (join p). split.
  - apply no_nul_In. apply join_no_nul. exact (proj2 H).
  - apply split_join. exact H.
Qed.
