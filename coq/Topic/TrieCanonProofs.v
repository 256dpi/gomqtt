(* TrieCanonProofs.v — history independence: the printed structure of a tree without
   empty nodes is a function of its contents.

     shape_sem        wf, pruned t:  (p, n) ∈ tshape t  <->  p ≠ [] ∧ (∃ q, tget (p ++ q) t ≠ []) ∧ n = |tget p t|
     shape_canonical  two well-formed pruned trees with the same contents have the same shape (up to order)
     shape_refines    ... and it is the shape computed from the specification map alone (s_shape) *)
From Coq Require Import List Bool NArith Permutation Lia.
From Coq.Strings Require Import Byte.
From GM Require Import Topic.MatchSpec Topic.Levels Topic.Trie Topic.TrieProofs Topic.TrieMatchProofs
  Topic.TreeSpec Topic.TreeSpecProofs Topic.TrieRefineProofs.
Import ListNotations.
Open Scope N_scope.

(* the node reached by a path *)
Fixpoint tsub (p : path) (t : node) : option node :=
  match p with
  | [] => Some t
  | l :: p' => match find_kid l (kids_of t) with Some c => tsub p' c | None => None end
  end.

Lemma tget_app : forall p q t, tget (p ++ q) t = match tsub p t with Some c => tget q c | None => [] end.
Proof.
  induction p as [|l p IH]; intros q [vs ks]; [reflexivity|].
  simpl app. rewrite tget_cons. simpl tsub. destruct (find_kid l ks) as [c|]; [apply IH | reflexivity].
Qed.

Lemma tget_tsub : forall p t, tget p t = match tsub p t with Some c => vals_of c | None => [] end.
Proof.
  intros p t. rewrite <- (app_nil_r p) at 1. rewrite tget_app.
  destruct (tsub p t) as [[vs ks]|]; reflexivity.
Qed.

Lemma tshape_unfold : forall vs ks,
  tshape (Node vs ks) =
  flat_map (fun kc : level * node =>
              ([fst kc], N.of_nat (length (vals_of (snd kc)))) :: map (cons_path (fst kc)) (tshape (snd kc))) ks.
Proof. intros vs ks. simpl. apply flat_map_ext. intros [k c]. reflexivity. Qed.

Lemma tshape_In : forall t p n, wf t ->
  (In (p, n) (tshape t) <-> p <> [] /\ exists c, tsub p t = Some c /\ n = N.of_nat (length (vals_of c))).
Proof.
  intros t p n W. revert p n. induction W as [vs ks Hnd _ _ IH] using wf_ind_in. intros p n.
  rewrite tshape_unfold, in_flat_map. split.
  - intros [[k c] [Hkc [Hin | Hin]]]; simpl in Hin.
    + inversion Hin; subst. split; [discriminate|]. exists c. simpl.
      rewrite (In_find_kid _ _ _ Hnd Hkc). split; reflexivity.
    + apply in_map_iff in Hin. destruct Hin as [[p' n'] [Heq Hin]]. unfold cons_path in Heq. simpl in Heq.
      inversion Heq; subst. apply (IH k c Hkc p' n) in Hin.
      destruct Hin as [Hne [c' [Hs Hn]]]. split; [discriminate|]. exists c'. simpl.
      rewrite (In_find_kid _ _ _ Hnd Hkc). split; assumption.
  - intros [Hne [c' [Hs Hn]]]. destruct p as [|l p']; [congruence|]. simpl in Hs.
    destruct (find_kid l ks) as [c|] eqn:Ef; [|discriminate]. apply find_kid_In in Ef.
    exists (l, c). split; [exact Ef|]. simpl. destruct p' as [|l2 p2].
    + left. simpl in Hs. inversion Hs; subst. reflexivity.
    + right. apply in_map_iff. exists (l2 :: p2, n). split; [reflexivity|].
      apply (IH l c Ef (l2 :: p2) n). split; [discriminate|]. exists c'. split; assumption.
Qed.

Lemma tshape_NoDup_paths : forall t, wf t -> NoDup (map fst (tshape t)).
Proof.
  intros t W. induction W as [vs ks Hnd _ Hk IH] using wf_ind_in. rewrite tshape_unfold.
  apply NoDup_kids_paths; [exact Hnd|]. intros [k c] Hkc. simpl. split.
  - constructor.
    + intros Hin. rewrite map_map in Hin. apply in_map_iff in Hin. destruct Hin as [[p' n'] [He Hein]].
      apply (tshape_In c p' n' (Hk _ _ Hkc)) in Hein. destruct Hein as [Hne _].
      unfold cons_path in He. simpl in He. inversion He. congruence.
    + match goal with
      | |- NoDup ?x => replace x with (map (cons k) (map fst (tshape c))) by (rewrite !map_map; reflexivity)
      end.
      apply FinFun.Injective_map_NoDup; [|exact (IH k c Hkc)].
      intros a b E'. inversion E'. reflexivity.
  - intros e [He | He].
    + subst e. exists []. reflexivity.
    + apply in_map_iff in He. destruct He as [e0 [<- _]]. exists (fst e0). reflexivity.
Qed.

Lemma tshape_NoDup : forall t, wf t -> NoDup (tshape t).
Proof. intros t H. apply (NoDup_map_inv fst). apply tshape_NoDup_paths. exact H. Qed.

(* ------------------------------------------------------------------ pruned trees: nodes are witnessed by values *)
Lemma pruned_has_value : forall t, pruned t -> is_empty t = false -> exists q, tget q t <> [].
Proof.
  intros t. induction t as [vs ks IH] using node_ind_in. intros Hp He.
  destruct vs as [|v vs]; [|exists []; discriminate].
  destruct ks as [|[k c] ks]; [discriminate|].
  inversion Hp as [? ? Hk]; subst. destruct (Hk k c (or_introl eq_refl)) as [Hce Hcp].
  destruct (IH k c (or_introl eq_refl) Hcp Hce) as [q Hq].
  exists (k :: q). rewrite tget_cons. simpl. rewrite level_eqb_refl. exact Hq.
Qed.

Lemma pruned_tsub : forall p t c, pruned t -> p <> [] -> tsub p t = Some c -> is_empty c = false /\ pruned c.
Proof.
  induction p as [|l p IH]; intros [vs ks] c Hp Hne Hs; [congruence|].
  simpl in Hs. destruct (find_kid l ks) as [c1|] eqn:Ef; [|discriminate].
  apply find_kid_In in Ef. inversion Hp as [? ? Hk]; subst. destruct (Hk _ _ Ef) as [H1 H2].
  destruct p as [|l2 p2].
  - simpl in Hs. inversion Hs; subst. split; assumption.
  - apply (IH c1 c H2); [discriminate | exact Hs].
Qed.

Lemma node_iff_value : forall t p, pruned t -> p <> [] ->
  ((exists c, tsub p t = Some c) <-> exists q, tget (p ++ q) t <> []).
Proof.
  intros t p Hp Hne. split.
  - intros [c Hs]. destruct (pruned_tsub p t c Hp Hne Hs) as [H1 H2].
    destruct (pruned_has_value c H2 H1) as [q Hq]. exists q. rewrite tget_app, Hs. exact Hq.
  - intros [q Hq]. rewrite tget_app in Hq. destruct (tsub p t) as [c|]; [exists c; reflexivity | congruence].
Qed.

Lemma shape_sem : forall t p n, wf t -> pruned t ->
  (In (p, n) (tshape t) <->
   p <> [] /\ (exists q, tget (p ++ q) t <> []) /\ n = N.of_nat (length (tget p t))).
Proof.
  intros t p n Hw Hp. rewrite (tshape_In t p n Hw). split.
  - intros [Hne [c [Hs Hn]]]. split; [exact Hne|]. split.
    + apply (node_iff_value t p Hp Hne). exists c. exact Hs.
    + rewrite tget_tsub, Hs. exact Hn.
  - intros [Hne [Hq Hn]]. split; [exact Hne|].
    apply (node_iff_value t p Hp Hne) in Hq. destruct Hq as [c Hs]. exists c. split; [exact Hs|].
    rewrite tget_tsub, Hs in Hn. exact Hn.
Qed.

Lemma shape_sem_perm : forall (X Y : path -> list N) p (n : N), (forall q, Permutation (X q) (Y q)) ->
  p <> [] /\ (exists q, X (p ++ q) <> []) /\ n = N.of_nat (length (X p)) ->
  p <> [] /\ (exists q, Y (p ++ q) <> []) /\ n = N.of_nat (length (Y p)).
Proof.
  intros X Y p n He [Hne [[q Hq] Hn]]. split; [exact Hne|]. split.
  - exists q. intros E. apply Hq. apply Permutation_nil. rewrite <- E. apply Permutation_sym. apply He.
  - rewrite Hn. f_equal. apply Permutation_length. apply He.
Qed.

(* ------------------------------------------------------------------ the shape of the specification map *)
Lemma prefixes_In : forall key p, In p (prefixes key) <-> p <> [] /\ exists q, key = p ++ q.
Proof.
  induction key as [|l key IH]; intros p; simpl.
  - split; [intros [] | intros [Hne [q Hq]]]. destruct p; [congruence | discriminate].
  - split.
    + intros [H | H].
      * subst p. split; [discriminate|]. exists key. reflexivity.
      * apply in_map_iff in H. destruct H as [p' [<- Hin]]. apply IH in Hin. destruct Hin as [_ [q Hq]].
        split; [discriminate|]. exists q. simpl. rewrite Hq. reflexivity.
    + intros [Hne [q Hq]]. destruct p as [|l' p']; [congruence|]. simpl in Hq. inversion Hq; subst.
      destruct p' as [|l2 p2]; [left; reflexivity|]. right. apply in_map_iff. exists (l2 :: p2). split; [reflexivity|].
      apply IH. split; [discriminate|]. exists q. reflexivity.
Qed.

Lemma s_nodes_In : forall m p, mwf m -> (In p (s_nodes m) <-> p <> [] /\ exists q, mget m (p ++ q) <> []).
Proof.
  intros m p [Hnd Hne]. unfold s_nodes. rewrite nodup_In, in_flat_map. split.
  - intros [[key vs] [He Hin]]. simpl in Hin. apply prefixes_In in Hin. destruct Hin as [Hp [q Hq]].
    split; [exact Hp|]. exists q. rewrite <- Hq, (mget_In m key vs Hnd He).
    rewrite Forall_forall in Hne. exact (Hne _ He).
  - intros [Hp [q Hq]]. exists (p ++ q, mget m (p ++ q)). split; [apply mget_nonempty_In; exact Hq|].
    simpl. apply prefixes_In. split; [exact Hp|]. exists q. reflexivity.
Qed.

Lemma s_shape_In : forall m p n, mwf m ->
  (In (p, n) (s_shape m) <-> p <> [] /\ (exists q, mget m (p ++ q) <> []) /\ n = N.of_nat (length (mget m p))).
Proof.
  intros m p n Hm. unfold s_shape. rewrite in_map_iff. split.
  - intros [p' [Heq Hin]]. inversion Heq; subst. apply (s_nodes_In m p Hm) in Hin.
    destruct Hin as [H1 H2]. repeat split; assumption.
  - intros [H1 [H2 H3]]. exists p. split; [rewrite H3; reflexivity|]. apply (s_nodes_In m p Hm). split; assumption.
Qed.

Lemma s_shape_NoDup : forall m, NoDup (s_shape m).
Proof.
  intros m. apply (NoDup_map_inv fst). unfold s_shape. rewrite map_map. simpl. rewrite map_id.
  unfold s_nodes. apply NoDup_nodup.
Qed.

Lemma shape_refines : forall t m, wf t -> pruned t -> mwf m -> refines t m ->
  Permutation (tshape t) (s_shape m).
Proof.
  intros t m Hw Hp Hm Hr.
  apply NoDup_Permutation; [apply tshape_NoDup; exact Hw | apply s_shape_NoDup|].
  intros [p n]. rewrite (shape_sem t p n Hw Hp), (s_shape_In m p n Hm).
  split; [apply (shape_sem_perm (fun q => tget q t) (mget m)) | apply (shape_sem_perm (mget m) (fun q => tget q t))];
    intros q; [|apply Permutation_sym]; apply Hr.
Qed.

(* history independence: same contents, same printed structure *)
Lemma shape_canonical : forall t1 t2, wf t1 -> wf t2 -> pruned t1 -> pruned t2 ->
  (forall q, Permutation (tget q t1) (tget q t2)) -> Permutation (tshape t1) (tshape t2).
Proof.
  intros t1 t2 Hw1 Hw2 Hp1 Hp2 He.
  (* both are the shape of the contents of t1 *)
  assert (R : forall t, (forall q, Permutation (tget q t) (tget q t1)) -> refines t (abs t1)).
  { intros t H q. rewrite abs_get by exact Hw1. apply H. }
  apply (perm_trans (l' := s_shape (abs t1))); [|apply Permutation_sym];
    apply shape_refines; try assumption; try (apply abs_mwf; exact Hw1); apply R.
  - reflexivity.
  - intros q. apply Permutation_sym. apply He.
Qed.
