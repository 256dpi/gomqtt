(* TrieRefineProofs.v — the trie refines the map specification.

     refines t m        for every topic the trie holds a permutation of the map's value list
     refines_step       every operation preserves it          (NUL-free topics)
     abs_get            the contents list `abs t` is a map with lookup = tget   (so abs t ≡ m pointwise)
     answers_agree      every query of the scope is answered as the map allows
     pruned_apply       no operation leaves an empty non-root node *)
From Coq Require Import List Bool NArith Permutation Lia.
From Coq.Strings Require Import Byte.
From GM Require Import Topic.MatchSpec Topic.Levels Topic.Trie Topic.TrieProofs Topic.TrieMatchProofs
  Topic.TreeSpec Topic.TreeSpecProofs.
Import ListNotations.
Open Scope N_scope.

(* ------------------------------------------------------------------ one operation, seen through tget *)
Definition teffect (o : op) (q : path) (vs : list N) : list N :=
  match o with
  | OAdd s v => if path_eq_dec q (walk s) then add_val v vs else vs
  | OSet s v => if path_eq_dec q (walk s) then [v] else vs
  | ORemove s v => if path_eq_dec q (walk s) then remove_val v vs else vs
  | OEmpty s => if path_eq_dec q (walk s) then [] else vs
  | OClear v => remove_val v vs
  | OReset => []
  end.

Lemma tget_apply : forall t o q, wf t -> tget q (apply_trie t o) = teffect o q (tget q t).
Proof.
  intros t o q H. destruct o as [s v | s v | s v | s | v |]; unfold apply_trie, teffect.
  - unfold Add. rewrite tget_tadd. destruct (path_eq_dec q (walk s)); [subst|]; reflexivity.
  - unfold Set_. rewrite tget_tset. reflexivity.
  - unfold Remove. rewrite tget_tremove by exact H. destruct (path_eq_dec q (walk s)); [subst|]; reflexivity.
  - unfold Empty. rewrite tget_tremove by exact H. reflexivity.
  - unfold Clear. apply tget_tclear. exact H.
  - apply tget_empty_node.
Qed.

Lemma wf_apply : forall t o, wf t -> wf (apply_trie t o).
Proof.
  intros t o H. destruct o; cbv [apply_trie Add Set_ Remove Empty Clear Reset];
    auto using wf_tadd, wf_tset, wf_tremove, wf_tclear, wf_empty.
Qed.

Lemma wf_run_from : forall ops t, wf t -> wf (fold_left apply_trie ops t).
Proof.
  intros ops t. apply (fold_left_inv _ _ apply_trie wf (fun _ => True)); [|auto].
  intros s o _. apply wf_apply.
Qed.

Lemma wf_run : forall ops, wf (run_trie ops).
Proof. intros ops. apply wf_run_from. exact wf_empty. Qed.

(* ------------------------------------------------------------------ refinement *)
Definition refines (t : tree) (m : tmap) : Prop := forall q, Permutation (tget q t) (mget m q).

Lemma NoDup_sv_remove : forall v vs, NoDup vs -> NoDup (sv_remove v vs).
Proof. intros v vs H. unfold sv_remove. rewrite <- remove_alt. apply NoDup_filter. exact H. Qed.

Lemma remove_perm : forall v vs ws, NoDup vs -> Permutation vs ws ->
  Permutation (remove_val v vs) (sv_remove v ws).
Proof.
  intros v vs ws Hnd Hp.
  assert (Hnd2 : NoDup ws) by (apply (Permutation_NoDup Hp); exact Hnd).
  apply NoDup_Permutation; [apply remove_val_NoDup; exact Hnd | apply NoDup_sv_remove; exact Hnd2|].
  intros w. rewrite remove_val_In by exact Hnd. rewrite sv_remove_In. split.
  - intros [H1 H2]. split; [apply (Permutation_in _ Hp); exact H1 | exact H2].
  - intros [H1 H2]. split; [apply (Permutation_in _ (Permutation_sym Hp)); exact H1 | exact H2].
Qed.

Lemma add_perm : forall v vs ws, Permutation vs ws -> Permutation (add_val v vs) (sv_add v ws).
Proof.
  intros v vs ws Hp. unfold add_val, sv_add.
  destruct (mem_val v vs) eqn:E; destruct (in_dec N.eq_dec v ws) as [H | H].
  - exact Hp.
  - exfalso. apply H. apply (Permutation_in _ Hp). apply mem_val_In. exact E.
  - apply mem_val_false in E. exfalso. apply E. apply (Permutation_in _ (Permutation_sym Hp)). exact H.
  - apply Permutation_app_tail. exact Hp.
Qed.

Lemma effect_perm : forall o q vs ws, op_ok o = true -> NoDup vs -> Permutation vs ws ->
  Permutation (teffect o q vs) (effect o q ws).
Proof.
  intros o q vs ws Hok Hnd Hp. destruct o as [s v | s v | s v | s | v |]; simpl in *;
    try rewrite (walk_is_split s Hok); try destruct (path_eq_dec q (split_levels s));
    try exact Hp; try reflexivity; try (apply add_perm; exact Hp); apply remove_perm; assumption.
Qed.

Lemma refines_step : forall t m o, wf t -> mwf m -> op_ok o = true -> refines t m ->
  refines (apply_trie t o) (apply_spec m o).
Proof.
  intros t m o Ht Hm Hok Hr q. rewrite tget_apply by exact Ht. rewrite mget_apply by exact Hm.
  apply effect_perm; [exact Hok | apply tget_NoDup; exact Ht | apply Hr].
Qed.

Lemma refines_empty : refines New [].
Proof. intros q. unfold New. rewrite tget_empty_node. constructor. Qed.

Lemma refines_run_from : forall ops t m, forallb op_ok ops = true -> wf t -> mwf m -> refines t m ->
  refines (fold_left apply_trie ops t) (fold_left apply_spec ops m).
Proof.
  intros ops t m Hok Ht Hm Hr.
  apply (fold_left2_inv _ _ _ apply_trie apply_spec (fun t m => wf t /\ mwf m /\ refines t m)
                        (fun o => op_ok o = true)) with (ops := ops); auto.
  - intros t' m' o Ho (Ht' & Hm' & Hr'). auto using wf_apply, mwf_apply, refines_step.
  - apply forallb_forall. exact Hok.
Qed.

Lemma refines_run : forall ops, forallb op_ok ops = true -> refines (run_trie ops) (run_spec ops).
Proof.
  intros ops H. apply refines_run_from; [exact H | exact wf_empty | split; constructor | exact refines_empty].
Qed.

(* ------------------------------------------------------------------ abs *)
Lemma mkeys_cons_path : forall k (A : tmap), mkeys (map (cons_path k) A) = map (cons k) (mkeys A).
Proof. intros k A. unfold mkeys. rewrite !map_map. reflexivity. Qed.

Definition abs_kids (ks : list (level * node)) : tmap :=
  flat_map (fun kc : level * node => let '(k, c) := kc in map (cons_path k) (abs c)) ks.

Lemma abs_unfold : forall vs ks,
  abs (Node vs ks) = (match vs with [] => [] | _ :: _ => [([], vs)] end) ++ abs_kids ks.
Proof. reflexivity. Qed.

Lemma abs_In : forall t p ws, wf t -> (In (p, ws) (abs t) <-> ws <> [] /\ tget p t = ws).
Proof.
  intros t p ws W. revert p ws. induction W as [vs ks Hnd _ _ IH] using wf_ind_in. intros p ws.
  rewrite abs_unfold, in_app_iff. unfold abs_kids. rewrite in_flat_map. split.
  - intros [H | [[k c] [Hkc H]]].
    + destruct vs as [|v vs]; [destruct H|]. destruct H as [H | []]. inversion H; subst.
      split; [discriminate | reflexivity].
    + apply in_map_iff in H. destruct H as [[p' ws'] [E H]]. unfold cons_path in E. simpl in E. inversion E; subst.
      apply (IH k c Hkc) in H. destruct H as [Hne Hg]. split; [exact Hne|].
      rewrite tget_cons, (In_find_kid _ _ _ Hnd Hkc). exact Hg.
  - intros [Hne Hg]. destruct p as [|k p'].
    + left. simpl in Hg. subst ws. destruct vs; [congruence | left; reflexivity].
    + right. rewrite tget_cons in Hg. destruct (find_kid k ks) as [c|] eqn:Ef; [|congruence].
      apply find_kid_In in Ef. exists (k, c). split; [exact Ef|].
      apply in_map_iff. exists (p', ws). split; [reflexivity|]. apply (IH k c Ef). split; assumption.
Qed.

Lemma NoDup_app_intro : forall (A : Type) (l1 l2 : list A),
  NoDup l1 -> NoDup l2 -> (forall x, In x l1 -> ~ In x l2) -> NoDup (l1 ++ l2).
Proof.
  induction l1 as [|a l1 IH]; intros l2 H1 H2 Hd; simpl; [exact H2|].
  inversion H1 as [|? ? Hni Hnd]; subst. constructor.
  - intros Hin. apply in_app_or in Hin. destruct Hin as [Hin | Hin]; [contradiction|].
    apply (Hd a); [left; reflexivity | exact Hin].
  - apply IH; [exact Hnd | exact H2|]. intros x Hx. apply Hd. right. exact Hx.
Qed.

Lemma NoDup_kids_paths : forall (A : Type) (F : level * node -> list (path * A)) ks,
  NoDup (keys ks) ->
  (forall kc, In kc ks -> NoDup (map fst (F kc)) /\ forall e, In e (F kc) -> exists q, fst e = fst kc :: q) ->
  NoDup (map fst (flat_map F ks)).
Proof.
  induction ks as [|[k c] ks IH]; intros Hnd HF; [constructor|].
  simpl in Hnd. inversion Hnd as [|? ? Hni Hnd']; subst. simpl. rewrite map_app.
  destruct (HF (k, c) (or_introl eq_refl)) as [H1 H2].
  apply NoDup_app_intro; [exact H1 | apply IH; [exact Hnd' | intros kc Hkc; apply HF; right; exact Hkc]|].
  intros x Hx Hin. apply in_map_iff in Hx. destruct Hx as [e [He Hein]]. destruct (H2 e Hein) as [q Hq].
  apply in_map_iff in Hin. destruct Hin as [e' [He' Hein']]. apply in_flat_map in Hein'.
  destruct Hein' as [[k' c'] [Hkc' Hin']]. destruct (HF (k', c') (or_intror Hkc')) as [_ H3].
  destruct (H3 e' Hin') as [q' Hq']. simpl in Hq, Hq'.
  assert (E : k = k') by congruence. subst k'. apply Hni. exact (In_keys _ _ _ Hkc').
Qed.

Lemma abs_NoDup : forall t, wf t -> NoDup (mkeys (abs t)).
Proof.
  intros t W. induction W as [vs ks Hnd _ _ IH] using wf_ind_in.
  rewrite abs_unfold. unfold mkeys. rewrite map_app. apply NoDup_app_intro.
  - destruct vs; simpl; constructor; [intros [] | constructor].
  - apply NoDup_kids_paths; [exact Hnd|]. intros [k c] Hkc. split.
    + fold (mkeys (map (cons_path k) (abs c))). rewrite mkeys_cons_path.
      apply FinFun.Injective_map_NoDup; [|exact (IH k c Hkc)]. intros a b E. inversion E. reflexivity.
    + intros e He. apply in_map_iff in He. destruct He as [e0 [<- _]]. exists (fst e0). reflexivity.
  - (* the root's own entry has the empty path, those of the children do not *)
    intros x Hx Hin. destruct vs; simpl in Hx; [destruct Hx|]. destruct Hx as [<- | []].
    apply in_map_iff in Hin. destruct Hin as [e [He Hin]]. apply in_flat_map in Hin.
    destruct Hin as [[k c] [_ Hin]]. apply in_map_iff in Hin. destruct Hin as [e0 [<- _]]. discriminate He.
Qed.

Lemma abs_mwf : forall t, wf t -> mwf (abs t).
Proof.
  intros t W. split; [apply abs_NoDup; exact W|].
  apply Forall_forall. intros [p ws] Hin. exact (proj1 (proj1 (abs_In t p ws W) Hin)).
Qed.

(* lookup in the contents list is tget *)
Lemma abs_get : forall t q, wf t -> mget (abs t) q = tget q t.
Proof.
  intros t q W. destruct (tget q t) as [|v vs] eqn:E.
  - destruct (mget (abs t) q) as [|w ws] eqn:E2; [reflexivity | exfalso].
    assert (Hin : In (q, mget (abs t) q) (abs t)) by (apply mget_nonempty_In; rewrite E2; discriminate).
    apply (abs_In t q _ W) in Hin. destruct Hin as [_ Hg]. rewrite E, E2 in Hg. discriminate.
  - apply mget_In; [apply abs_NoDup; exact W|]. apply abs_In; [exact W|]. split; [discriminate | exact E].
Qed.

(* ------------------------------------------------------------------ count *)
Lemma s_count_app : forall A B, s_count (A ++ B) = s_count A + s_count B.
Proof.
  induction A as [|e A IH]; intros B; simpl; [reflexivity|].
  unfold s_count in *. simpl. rewrite IH. lia.
Qed.

Lemma s_count_cons_path : forall k A, s_count (map (cons_path k) A) = s_count A.
Proof.
  induction A as [|e A IH]; [reflexivity|]. unfold s_count in *. simpl. rewrite IH. reflexivity.
Qed.

Lemma tcount_abs : forall t, tcount t = s_count (abs t).
Proof.
  intros t. induction t as [vs ks IH] using node_ind_in.
  rewrite abs_unfold, s_count_app. simpl tcount.
  assert (Hk : fold_right N.add 0 (map (fun kc : level * node => let '(_, c) := kc in tcount c) ks) = s_count (abs_kids ks)).
  { induction ks as [|[k c] ks IHk]; [reflexivity|].
    unfold abs_kids. simpl. fold (abs_kids ks).
    rewrite s_count_app, s_count_cons_path, (IHk (fun k' c' H => IH k' c' (or_intror H))), (IH k c (or_introl eq_refl)).
    reflexivity. }
  rewrite Hk. destruct vs as [|v vs].
  - change (s_count []) with 0. simpl length. lia.
  - change (s_count [([], v :: vs)]) with (N.of_nat (length (v :: vs)) + 0). lia.
Qed.

Lemma m_del_notin : forall p m, ~ In p (mkeys m) -> m_del p m = m.
Proof.
  induction m as [|[k vs] m IH]; intros H; simpl; [reflexivity|].
  rewrite path_eqb_dec. destruct (path_eq_dec p k) as [E | E].
  - exfalso. apply H. left. symmetry. exact E.
  - rewrite IH; [reflexivity|]. intros Hin. apply H. right. exact Hin.
Qed.

Lemma s_count_del : forall p m, NoDup (mkeys m) ->
  s_count m = N.of_nat (length (mget m p)) + s_count (m_del p m).
Proof.
  induction m as [|[k vs] m IH]; intros Hnd; [reflexivity|].
  simpl in Hnd. inversion Hnd as [|? ? Hni Hnd']; subst.
  change (s_count ((k, vs) :: m)) with (N.of_nat (length vs) + s_count m).
  simpl mget. simpl m_del.
  rewrite (path_eqb_dec p k). destruct (path_eq_dec p k) as [E | E].
  - subst k. rewrite (m_del_notin p m Hni). reflexivity.
  - change (s_count ((k, vs) :: m_del p m)) with (N.of_nat (length vs) + s_count (m_del p m)).
    rewrite (IH Hnd'). lia.
Qed.

(* the sum of the list lengths depends only on the lookups *)
Lemma s_count_equiv : forall m1 m2, mwf m1 -> mwf m2 ->
  (forall q, length (mget m1 q) = length (mget m2 q)) -> s_count m1 = s_count m2.
Proof.
  induction m1 as [|[k vs] m1 IH]; intros m2 H1 H2 He.
  - destruct m2 as [|[k2 vs2] m2]; [reflexivity|]. exfalso.
    destruct H2 as [_ H2]. inversion H2 as [|? ? Hne _]; subst. simpl in Hne.
    specialize (He k2). simpl in He. rewrite path_eqb_dec in He. destruct (path_eq_dec k2 k2); [|congruence].
    destruct vs2; [congruence | discriminate].
  - destruct H1 as [Hnd1 Hne1]. simpl in Hnd1. inversion Hnd1 as [|? ? Hni Hnd1']; subst.
    inversion Hne1 as [|? ? Hvs Hne1']; subst. simpl in Hvs.
    rewrite (s_count_del k m2 (proj1 H2)).
    assert (Hk : length (mget m2 k) = length vs).
    { rewrite <- He. simpl. rewrite path_eqb_dec. destruct (path_eq_dec k k); [reflexivity | congruence]. }
    rewrite Hk. unfold s_count at 1. simpl. fold (s_count m1). f_equal.
    apply IH; [split; assumption | apply mwf_del; exact H2|].
    intros q. rewrite mget_del. destruct (path_eq_dec q k) as [E | E].
    + subst q. rewrite (mget_notin m1 k Hni). reflexivity.
    + rewrite <- He. simpl. rewrite path_eqb_dec. destruct (path_eq_dec q k); [congruence | reflexivity].
Qed.

Lemma count_refines : forall t m, wf t -> mwf m -> refines t m -> tcount t = s_count m.
Proof.
  intros t m Ht Hm Hr. rewrite tcount_abs. apply s_count_equiv; [apply abs_mwf; exact Ht | exact Hm|].
  intros q. rewrite abs_get by exact Ht. apply Permutation_length. apply Hr.
Qed.

(* ------------------------------------------------------------------ all *)
Lemma tall_raw_unfold : forall vs ks,
  tall_raw (Node vs ks) = flat_map (fun kc : level * node => tall_raw (snd kc)) ks ++ vs.
Proof. intros vs ks. simpl. f_equal. apply flat_map_ext. intros [k c]. reflexivity. Qed.

Lemma tall_raw_spec : forall t v, wf t -> (In v (tall_raw t) <-> exists p, In v (tget p t)).
Proof.
  intros t v W. induction W as [vs ks Hnd _ _ IH] using wf_ind_in.
  rewrite tall_raw_unfold, in_app_iff, in_flat_map. split.
  - intros [[[k c] [Hkc Hin]] | Hin]; [|exists []; exact Hin].
    apply (IH k c Hkc) in Hin. destruct Hin as [p Hp].
    exists (k :: p). apply tget_child; [exact Hnd|]. exists c. auto.
  - intros [[|k p] Hp]; [right; exact Hp | left].
    apply tget_child in Hp; [|exact Hnd]. destruct Hp as [c [Hkc Hp]].
    exists (k, c). split; [exact Hkc|]. apply (IH k c Hkc). exists p. exact Hp.
Qed.

(* ------------------------------------------------------------------ queries *)
Lemma in_spec_flat : forall (m : tmap) (g : path -> bool) v, NoDup (mkeys m) ->
  (In v (flat_map (fun e : path * list N => if g (fst e) then snd e else []) m) <->
   exists p, In v (mget m p) /\ g p = true).
Proof.
  intros m g v Hnd. rewrite in_flat_map. split.
  - intros [[p vs] [He Hin]]. simpl in Hin. destruct (g p) eqn:E; [|destruct Hin].
    exists p. rewrite (mget_In m p vs Hnd He). split; [exact Hin | exact E].
  - intros [p [Hin Hg]]. exists (p, mget m p). split.
    + apply mget_nonempty_In. intros E. rewrite E in Hin. destruct Hin.
    + simpl. rewrite Hg. exact Hin.
Qed.

Lemma first_rel_perm : forall o l l', first_rel o l -> Permutation l l' -> first_ok o l'.
Proof.
  intros [v|] l l' H Hp; simpl in *.
  - apply (Permutation_in _ Hp). exact H.
  - subst l. apply Permutation_nil. exact Hp.
Qed.

Lemma clean_perm_nodup : forall raw spec, (forall v, In v raw <-> In v spec) ->
  Permutation (clean raw) (nodup N.eq_dec spec).
Proof.
  intros raw spec H. apply NoDup_Permutation; [apply clean_NoDup | apply NoDup_nodup|].
  intros v. rewrite clean_In, nodup_In. apply H.
Qed.

Lemma stored_refines : forall t m (P : path -> Prop) v, refines t m ->
  ((exists p, In v (tget p t) /\ P p) <-> (exists p, In v (mget m p) /\ P p)).
Proof.
  intros t m P v Hr. split; intros [p [Hin HP]]; exists p; (split; [|exact HP]).
  - exact (Permutation_in _ (Hr p) Hin).
  - exact (Permutation_in _ (Permutation_sym (Hr p)) Hin).
Qed.

Lemma match_refines : forall t m name, wf t -> mwf m -> refines t m -> name_ok name ->
  Permutation (tmatch name t) (s_match m name).
Proof.
  intros t m name Ht [Hm _] Hr Hn. apply clean_perm_nodup. intros v.
  rewrite (tmatch_raw_spec name t v Hn), (in_spec_flat m (fun f => matches f name) v Hm).
  apply stored_refines. exact Hr.
Qed.

Lemma search_refines : forall t m f, wf t -> mwf m -> refines t m -> hash_last f ->
  Permutation (tsearch f t) (s_search m f).
Proof.
  intros t m f Ht [Hm _] Hr Hf. apply clean_perm_nodup. intros v.
  rewrite (tsearch_raw_spec t f v Ht Hf), (in_spec_flat m (fun n => matches f n) v Hm).
  apply stored_refines. exact Hr.
Qed.

Lemma all_refines : forall t m, wf t -> mwf m -> refines t m -> Permutation (tall t) (s_all m).
Proof.
  intros t m Ht [Hm _] Hr. apply clean_perm_nodup. intros v.
  rewrite (tall_raw_spec t v Ht), (in_spec_flat m (fun _ => true) v Hm : In v (flat_map snd m) <-> _).
  destruct (stored_refines t m (fun _ => true = true) v Hr) as [H1 H2]. split.
  - intros [p Hin]. apply H1. exists p. auto.
  - intros H. destruct (H2 H) as [p [Hin _]]. exists p. exact Hin.
Qed.

Lemma answers_agree : forall t m q, wf t -> mwf m -> refines t m -> query_ok q = true ->
  answer_ok m q (answer_trie t q).
Proof.
  intros t m q Ht Hm Hr Hq. destruct q as [s | s | s | s | s | |]; simpl in *.
  - unfold Get. rewrite (walk_is_split s Hq). apply Hr.
  - unfold Match. rewrite (walk_is_split s (wildcard_free_no_nul s Hq)).
    apply match_refines; try assumption. apply wildcard_free_name_ok. exact Hq.
  - unfold MatchFirst. rewrite (walk_is_split s (wildcard_free_no_nul s Hq)).
    apply (first_rel_perm _ (tmatch (split_levels s) t)).
    + apply first_rel_clean. apply tmatch_first_rel.
    + apply match_refines; try assumption. apply wildcard_free_name_ok. exact Hq.
  - unfold Search. rewrite (walk_is_split s (valid_filter_no_nul s Hq)).
    apply search_refines; try assumption. apply valid_filter_hash_last. exact Hq.
  - unfold SearchFirst. rewrite (walk_is_split s (valid_filter_no_nul s Hq)).
    apply (first_rel_perm _ (tsearch (split_levels s) t)).
    + apply first_rel_clean. apply tsearch_first_rel.
    + apply search_refines; try assumption. apply valid_filter_hash_last. exact Hq.
  - apply all_refines; assumption.
  - apply count_refines; assumption.
Qed.

(* ------------------------------------------------------------------ pruning *)
Inductive pruned : node -> Prop :=
| pruned_node : forall vs ks,
    (forall k c, In (k, c) ks -> is_empty c = false /\ pruned c) -> pruned (Node vs ks).

Lemma pruned_empty : pruned empty_node.
Proof. constructor. intros k c []. Qed.

Lemma pruned_kid_or_new : forall l vs ks, pruned (Node vs ks) -> pruned (kid_or_new l ks).
Proof.
  intros l vs ks H. inversion H as [? ? Hk]; subst. unfold kid_or_new.
  destruct (find_kid l ks) as [c|] eqn:E; [|exact pruned_empty].
  apply find_kid_In in E. exact (proj2 (Hk _ _ E)).
Qed.

Lemma pruned_put : forall l c vs ks, pruned (Node vs ks) -> is_empty c = false -> pruned c ->
  pruned (Node vs (put_kid l c ks)).
Proof.
  intros l c vs ks H He Hc. inversion H as [? ? Hk]; subst. constructor.
  intros k c' Hin. destruct (In_put_kid _ _ _ _ _ Hin) as [[_ ->] | Hin']; [split; assumption | exact (Hk _ _ Hin')].
Qed.

Lemma put_kid_nonempty : forall l c ks, put_kid l c ks <> [].
Proof. intros l c [|[k c0] ks]; simpl; [discriminate|]. destruct (level_eqb l k); discriminate. Qed.

Lemma tupd_nonempty : forall f, (forall vs, f vs <> []) -> forall p t, is_empty (tupd f p t) = false.
Proof.
  intros f Hf [|l p] [vs ks]; simpl.
  - destruct (f vs) eqn:E; [exfalso; exact (Hf vs E) | reflexivity].
  - destruct (put_kid l (tupd f p (kid_or_new l ks)) ks) eqn:E; [exfalso; exact (put_kid_nonempty _ _ _ E)|].
    destruct vs; reflexivity.
Qed.

Lemma pruned_tupd : forall f, (forall vs, f vs <> []) -> forall p t, pruned t -> pruned (tupd f p t).
Proof.
  intros f Hf. induction p as [|l p IH]; intros [vs ks] H; simpl.
  - inversion H; subst. constructor. assumption.
  - apply pruned_put; [exact H | apply tupd_nonempty; exact Hf | apply IH; exact (pruned_kid_or_new l vs ks H)].
Qed.

Lemma pruned_tadd : forall v p t, pruned t -> pruned (tadd v p t).
Proof. intros v p t. rewrite tadd_tupd. apply pruned_tupd. apply add_val_nonempty. Qed.

Lemma pruned_tset : forall v p t, pruned t -> pruned (tset v p t).
Proof. intros v p t. rewrite tset_tupd. apply pruned_tupd. discriminate. Qed.

Lemma pruned_tremove : forall v p t, pruned t -> pruned (tremove v p t).
Proof.
  induction p as [|l p IH]; intros [vs ks] H; simpl.
  - inversion H; subst. constructor. assumption.
  - destruct (find_kid l ks) as [c|] eqn:E; [|exact H].
    inversion H as [? ? Hk]; subst. apply find_kid_In in E.
    destruct (is_empty (tremove v p c)) eqn:Ee.
    + constructor. intros k c' Hin. exact (Hk _ _ (In_del_kid _ _ _ _ Hin)).
    + apply pruned_put; [exact H | exact Ee | apply IH; exact (proj2 (Hk _ _ E))].
Qed.

Lemma pruned_tclear : forall v t, pruned (tclear v t).
Proof.
  intros v t. induction t as [vs ks IH] using node_ind_in. simpl. constructor.
  intros k c' Hin. destruct (In_filter_map _ _ _ _ _ Hin) as [c [Hc [-> Hg]]]. simpl in Hg.
  split; [apply negb_true_iff; exact Hg | exact (IH k c Hc)].
Qed.

Lemma pruned_apply : forall t o, pruned t -> pruned (apply_trie t o).
Proof.
  intros t o H. destruct o; cbv [apply_trie Add Set_ Remove Empty Clear Reset];
    auto using pruned_tadd, pruned_tset, pruned_tremove, pruned_tclear, pruned_empty.
Qed.

Lemma pruned_run : forall ops, pruned (run_trie ops).
Proof.
  intros ops. apply (fold_left_inv _ _ apply_trie pruned (fun _ => True)); [|auto | exact pruned_empty].
  intros s o _. apply pruned_apply.
Qed.

Lemma prunedb_iff : forall t, prunedb t = true <-> pruned t.
Proof.
  intros t. induction t as [vs ks IH] using node_ind_in. simpl. rewrite forallb_forall. split.
  - intros H. constructor. intros k c Hin. specialize (H (k, c) Hin). simpl in H.
    apply andb_true_iff in H. destruct H as [H1 H2]. split; [apply negb_true_iff; exact H1|].
    apply (IH k c Hin). exact H2.
  - intros H [k c] Hin. inversion H as [? ? Hk]; subst. destruct (Hk _ _ Hin) as [H1 H2].
    apply andb_true_iff. split; [apply negb_true_iff; exact H1 | apply (IH k c Hin); exact H2].
Qed.

Lemma pruned_run_both : forall ops, pruned (run_trie ops) /\ prunedb (run_trie ops) = true.
Proof. intros ops. split; [exact (pruned_run ops) | exact (proj2 (prunedb_iff _) (pruned_run ops))]. Qed.
