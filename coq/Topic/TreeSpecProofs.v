(* TreeSpecProofs.v — facts about the map specification alone:
   lookups after every operation (`mget_apply`), the invariant `mwf` (one entry
   per topic, no empty entry), the boolean answer checker is exactly the
   relation (`answer_okb_iff`), and independent operations commute (`spec_commute`). *)
From Coq Require Import List Bool NArith Permutation Lia.
From Coq.Strings Require Import Byte.
From GM Require Import Topic.MatchSpec Topic.Levels Topic.Trie Topic.TreeSpec.
Import ListNotations.
Open Scope N_scope.

Lemma path_eqb_eq : forall a b, path_eqb a b = true <-> a = b.
Proof.
  induction a as [|x a IH]; destruct b as [|y b]; simpl; split; try congruence; try reflexivity.
  - intros H. apply andb_true_iff in H. destruct H as [H1 H2].
    apply level_eqb_eq in H1. apply IH in H2. subst. reflexivity.
  - intros H. inversion H; subst. apply andb_true_iff. split; [apply level_eqb_refl | apply IH; reflexivity].
Qed.

Lemma path_eqb_dec : forall a b, path_eqb a b = if path_eq_dec a b then true else false.
Proof.
  intros a b. destruct (path_eq_dec a b) as [E | E].
  - apply path_eqb_eq. exact E.
  - destruct (path_eqb a b) eqn:H; [apply path_eqb_eq in H; contradiction | reflexivity].
Qed.

Lemma fold_left2_inv : forall (S1 S2 O : Type) (f1 : S1 -> O -> S1) (f2 : S2 -> O -> S2)
                              (R : S1 -> S2 -> Prop) (Q : O -> Prop),
  (forall s1 s2 o, Q o -> R s1 s2 -> R (f1 s1 o) (f2 s2 o)) ->
  forall ops s1 s2, (forall o, In o ops -> Q o) -> R s1 s2 -> R (fold_left f1 ops s1) (fold_left f2 ops s2).
Proof.
  intros S1 S2 O f1 f2 R Q Step. induction ops as [|o ops IH]; intros s1 s2 HQ HR; simpl; [exact HR|].
  apply IH; [intros o' Ho'; apply HQ; right; exact Ho'|].
  apply Step; [apply HQ; left; reflexivity | exact HR].
Qed.

Lemma fold_left_inv : forall (S O : Type) (f : S -> O -> S) (P : S -> Prop) (Q : O -> Prop),
  (forall s o, Q o -> P s -> P (f s o)) ->
  forall ops s, (forall o, In o ops -> Q o) -> P s -> P (fold_left f ops s).
Proof.
  intros S O f P Q Step ops s. exact (fold_left2_inv S S O f f (fun s _ => P s) Q (fun s1 _ => Step s1) ops s s).
Qed.

Definition mkeys (m : tmap) : list path := map fst m.
Definition mwf (m : tmap) : Prop := NoDup (mkeys m) /\ Forall (fun e : path * list N => snd e <> []) m.

Lemma mget_notin : forall m p, ~ In p (mkeys m) -> mget m p = [].
Proof.
  induction m as [|[q vs] m IH]; intros p H; simpl; [reflexivity|].
  rewrite path_eqb_dec. destruct (path_eq_dec p q) as [E | E].
  - exfalso. apply H. left. symmetry. exact E.
  - apply IH. intros Hin. apply H. right. exact Hin.
Qed.

Lemma mget_In : forall m p vs, NoDup (mkeys m) -> In (p, vs) m -> mget m p = vs.
Proof.
  induction m as [|[q ws] m IH]; intros p vs Hnd Hin; [destruct Hin|].
  simpl in Hnd. inversion Hnd as [|? ? Hni Hnd']; subst. simpl. rewrite path_eqb_dec.
  destruct Hin as [Heq | Hin].
  - inversion Heq; subst. destruct (path_eq_dec p p); [reflexivity | congruence].
  - destruct (path_eq_dec p q) as [E | E].
    + subst q. exfalso. apply Hni. change p with (fst (p, vs)). apply in_map. exact Hin.
    + apply IH; assumption.
Qed.

Lemma mget_nonempty_In : forall m p, mget m p <> [] -> In (p, mget m p) m.
Proof.
  induction m as [|[q ws] m IH]; intros p H; simpl in *; [congruence|].
  rewrite path_eqb_dec in *. destruct (path_eq_dec p q) as [E | E].
  - subst. left. reflexivity.
  - right. apply IH. exact H.
Qed.

Lemma mkeys_del : forall p m q, In q (mkeys (m_del p m)) <-> In q (mkeys m) /\ q <> p.
Proof.
  induction m as [|[k vs] m IH]; intros q; simpl; [tauto|].
  rewrite path_eqb_dec. destruct (path_eq_dec p k) as [E | E]; simpl; rewrite IH; intuition congruence.
Qed.

Lemma mwf_del : forall p m, mwf m -> mwf (m_del p m).
Proof.
  intros p m [Hnd Hne]. induction m as [|[k vs] m IH]; simpl; [split; constructor|].
  simpl in Hnd. inversion Hnd as [|? ? Hni Hnd']; subst. inversion Hne as [|? ? H1 H2]; subst.
  destruct (IH Hnd' H2) as [IH1 IH2].
  destruct (path_eqb p k); [split; assumption|].
  split; simpl.
  - constructor; [|exact IH1]. intros Hin. apply mkeys_del in Hin. apply Hni. exact (proj1 Hin).
  - constructor; assumption.
Qed.

Lemma mwf_set : forall p vs m, mwf m -> mwf (m_set p vs m).
Proof.
  intros p vs m H. unfold m_set. destruct vs as [|v vs]; [apply mwf_del; exact H|].
  destruct (mwf_del p m H) as [H1 H2]. split; simpl.
  - constructor; [|exact H1]. intros Hin. apply mkeys_del in Hin. destruct Hin as [_ Hin]. congruence.
  - constructor; [discriminate | exact H2].
Qed.

Lemma mget_del : forall p m q, mget (m_del p m) q = if path_eq_dec q p then [] else mget m q.
Proof.
  induction m as [|[k vs] m IH]; intros q; simpl.
  - destruct (path_eq_dec q p); reflexivity.
  - rewrite (path_eqb_dec p k). destruct (path_eq_dec p k) as [E | E].
    + subst k. rewrite IH, (path_eqb_dec q p). destruct (path_eq_dec q p); reflexivity.
    + simpl. rewrite IH, (path_eqb_dec q k).
      destruct (path_eq_dec q k) as [E1 | E1]; [|reflexivity].
      destruct (path_eq_dec q p) as [E2 | E2]; [congruence | reflexivity].
Qed.

Lemma mget_set : forall p vs m q, mget (m_set p vs m) q = if path_eq_dec q p then vs else mget m q.
Proof.
  intros p vs m q. unfold m_set. destruct vs as [|v vs].
  - apply mget_del.
  - simpl. rewrite (path_eqb_dec q p), mget_del. destruct (path_eq_dec q p); reflexivity.
Qed.

Lemma mkeys_clear : forall v m q, In q (mkeys (s_clear v m)) -> In q (mkeys m).
Proof.
  induction m as [|[k vs] m IH]; intros q H; simpl in *; [exact H|].
  destruct (sv_remove v vs); simpl in H.
  - right. apply IH. exact H.
  - destruct H as [H | H]; [left; exact H | right; apply IH; exact H].
Qed.

Lemma mwf_clear : forall v m, mwf m -> mwf (s_clear v m).
Proof.
  intros v m [Hnd Hne]. induction m as [|[k vs] m IH]; simpl; [split; constructor|].
  simpl in Hnd. inversion Hnd as [|? ? Hni Hnd']; subst. inversion Hne as [|? ? H1 H2]; subst.
  destruct (IH Hnd' H2) as [IH1 IH2].
  destruct (sv_remove v vs) eqn:E; [split; assumption|].
  split; simpl.
  - constructor; [|exact IH1]. intros Hin. apply Hni. exact (mkeys_clear _ _ _ Hin).
  - constructor; [discriminate | exact IH2].
Qed.

Lemma mget_clear : forall v m q, NoDup (mkeys m) -> mget (s_clear v m) q = sv_remove v (mget m q).
Proof.
  induction m as [|[k vs] m IH]; intros q Hnd; simpl; [reflexivity|].
  simpl in Hnd. inversion Hnd as [|? ? Hni Hnd']; subst.
  rewrite (path_eqb_dec q k). destruct (sv_remove v vs) eqn:E; simpl.
  - destruct (path_eq_dec q k) as [E1 | E1]; [|apply IH; exact Hnd'].
    subst q. rewrite E. apply mget_notin. intros Hin. apply Hni. exact (mkeys_clear _ _ _ Hin).
  - rewrite (path_eqb_dec q k). destruct (path_eq_dec q k) as [E1 | E1]; [congruence | apply IH; exact Hnd'].
Qed.

(* the effect of one operation on the values of one topic *)
Definition effect (o : op) (q : path) (vs : list N) : list N :=
  match o with
  | OAdd s v => if path_eq_dec q (split_levels s) then sv_add v vs else vs
  | OSet s v => if path_eq_dec q (split_levels s) then [v] else vs
  | ORemove s v => if path_eq_dec q (split_levels s) then sv_remove v vs else vs
  | OEmpty s => if path_eq_dec q (split_levels s) then [] else vs
  | OClear v => sv_remove v vs
  | OReset => []
  end.

Lemma mget_apply : forall m o q, mwf m -> mget (apply_spec m o) q = effect o q (mget m q).
Proof.
  intros m o q [Hnd _]. destruct o as [s v | s v | s v | s | v |]; unfold apply_spec, effect.
  - unfold s_add. rewrite mget_set. destruct (path_eq_dec q (split_levels s)); [subst|]; reflexivity.
  - unfold s_set. rewrite mget_set. reflexivity.
  - unfold s_remove. rewrite mget_set. destruct (path_eq_dec q (split_levels s)); [subst|]; reflexivity.
  - unfold s_empty. rewrite mget_del. reflexivity.
  - apply mget_clear. exact Hnd.
  - reflexivity.
Qed.

Lemma mwf_apply : forall m o, mwf m -> mwf (apply_spec m o).
Proof.
  intros m o H. destruct o as [s v | s v | s v | s | v |]; simpl.
  - apply mwf_set. exact H.
  - apply mwf_set. exact H.
  - apply mwf_set. exact H.
  - apply mwf_del. exact H.
  - apply mwf_clear. exact H.
  - split; constructor.
Qed.

Lemma mwf_run_from : forall ops m, mwf m -> mwf (fold_left apply_spec ops m).
Proof.
  intros ops m. apply (fold_left_inv _ _ apply_spec mwf (fun _ => True)); [|auto].
  intros s o _. apply mwf_apply.
Qed.

Lemma mwf_run : forall ops, mwf (run_spec ops).
Proof. intros ops. apply mwf_run_from. split; constructor. Qed.

(* ------------------------------------------------------------------ the boolean checker *)
Lemma remove_one_perm : forall v l r, remove_one v l = Some r -> Permutation l (v :: r).
Proof.
  induction l as [|x l IH]; intros r H; simpl in H; [discriminate|].
  destruct (N.eqb x v) eqn:E.
  - apply N.eqb_eq in E. inversion H; subst. reflexivity.
  - destruct (remove_one v l) as [r'|]; [|discriminate]. inversion H; subst.
    eapply perm_trans; [apply perm_skip; apply IH; reflexivity | apply perm_swap].
Qed.

Lemma remove_one_In : forall v l, In v l -> exists r, remove_one v l = Some r.
Proof.
  induction l as [|x l IH]; intros H; [destruct H|]. simpl.
  destruct (N.eqb x v) eqn:E; [eexists; reflexivity|].
  apply N.eqb_neq in E. destruct H as [H | H]; [congruence|].
  destruct (IH H) as [r Hr]. rewrite Hr. eexists; reflexivity.
Qed.

Lemma permb_iff : forall l1 l2, permb l1 l2 = true <-> Permutation l1 l2.
Proof.
  induction l1 as [|x l1 IH]; intros l2; simpl.
  - destruct l2; split; intros H.
    + constructor.
    + reflexivity.
    + discriminate.
    + apply Permutation_nil in H. discriminate.
  - split.
    + intros H. destruct (remove_one x l2) as [r|] eqn:E; [|discriminate].
      apply IH in H. apply remove_one_perm in E.
      eapply perm_trans; [apply perm_skip; exact H | apply Permutation_sym; exact E].
    + intros H. assert (Hin : In x l2) by (apply (Permutation_in _ H); left; reflexivity).
      destruct (remove_one_In x l2 Hin) as [r Hr]. rewrite Hr. apply IH.
      apply remove_one_perm in Hr. apply (Permutation_cons_inv (a := x)).
      eapply perm_trans; [exact H | exact Hr].
Qed.

Lemma first_okb_iff : forall o l, first_okb o l = true <-> first_ok o l.
Proof.
  intros [v|] l; simpl.
  - rewrite existsb_exists. split.
    + intros [x [Hin He]]. apply N.eqb_eq in He. subst. exact Hin.
    + intros H. exists v. split; [exact H | apply N.eqb_refl].
  - destruct l; split; try reflexivity; discriminate.
Qed.

Lemma answer_okb_iff : forall m q a, answer_okb m q a = true <-> answer_ok m q a.
Proof.
  intros m q a. destruct q, a; simpl; try (split; [discriminate | intros []]);
    try apply permb_iff; try apply first_okb_iff.
  rewrite N.eqb_eq. reflexivity.
Qed.

(* ------------------------------------------------------------------ commuting operations *)
Lemma sv_remove_In : forall v w vs, In w (sv_remove v vs) <-> In w vs /\ w <> v.
Proof.
  intros v w vs. unfold sv_remove. split.
  - intros H. apply in_remove in H. exact H.
  - intros [H1 H2]. apply in_in_remove; assumption.
Qed.

Lemma sv_remove_app : forall v l1 l2, sv_remove v (l1 ++ l2) = sv_remove v l1 ++ sv_remove v l2.
Proof. intros. unfold sv_remove. apply remove_app. Qed.

Lemma sv_remove_comm : forall v w vs, sv_remove v (sv_remove w vs) = sv_remove w (sv_remove v vs).
Proof. intros v w vs. apply remove_remove_comm. Qed.

Lemma sv_remove_add : forall v w vs, v <> w -> sv_remove v (sv_add w vs) = sv_add w (sv_remove v vs).
Proof.
  intros v w vs Hne. unfold sv_add.
  destruct (in_dec N.eq_dec w vs) as [H1 | H1]; destruct (in_dec N.eq_dec w (sv_remove v vs)) as [H2 | H2].
  - reflexivity.
  - exfalso. apply H2. apply sv_remove_In. split; [exact H1 | congruence].
  - exfalso. apply H1. apply sv_remove_In in H2. exact (proj1 H2).
  - rewrite sv_remove_app. f_equal. unfold sv_remove. simpl.
    destruct (N.eq_dec v w); [congruence | reflexivity].
Qed.

Lemma sv_remove_single : forall v w, v <> w -> sv_remove v [w] = [w].
Proof. intros v w H. unfold sv_remove. simpl. destruct (N.eq_dec v w); [congruence | reflexivity]. Qed.

Lemma effect_commute : forall o1 o2 q vs, independent o1 o2 ->
  effect o2 q (effect o1 q vs) = effect o1 q (effect o2 q vs).
Proof.
  intros o1 o2 q vs H.
  destruct o1 as [s1 v1 | s1 v1 | s1 v1 | s1 | v1 |]; destruct o2 as [s2 v2 | s2 v2 | s2 v2 | s2 | v2 |];
    simpl in H; try contradiction; simpl;
    try (assert (Hs : split_levels s1 <> split_levels s2) by (intros E; apply H; apply split_levels_inj; exact E);
         destruct (path_eq_dec q (split_levels s1)) as [E1 | E1]; destruct (path_eq_dec q (split_levels s2)) as [E2 | E2];
         try reflexivity; congruence).
  all: try destruct (path_eq_dec q _);
    first [ reflexivity | apply sv_remove_comm
          | apply sv_remove_add; congruence | symmetry; apply sv_remove_add; congruence
          | apply sv_remove_single; congruence | symmetry; apply sv_remove_single; congruence ].
Qed.

(* independent operations commute on the specification: same contents in either order *)
Lemma spec_commute : forall m o1 o2, mwf m -> independent o1 o2 ->
  map_equiv (apply_spec (apply_spec m o1) o2) (apply_spec (apply_spec m o2) o1).
Proof.
  intros m o1 o2 Hm Hi p.
  rewrite !mget_apply by (try apply mwf_apply; exact Hm).
  apply effect_commute. exact Hi.
Qed.

(* equivalent maps stay equivalent *)
Lemma apply_spec_equiv : forall m1 m2 o, mwf m1 -> mwf m2 -> map_equiv m1 m2 ->
  map_equiv (apply_spec m1 o) (apply_spec m2 o).
Proof.
  intros m1 m2 o H1 H2 He p. rewrite !mget_apply by assumption. rewrite (He p). reflexivity.
Qed.

(* ------------------------------------------------------------------ interleavings *)
Definition run_from (m : tmap) (ops : list op) : tmap := fold_left apply_spec ops m.

Inductive interleave : list op -> list op -> list op -> Prop :=
| il_nil : interleave [] [] []
| il_left : forall x l1 l2 l, interleave l1 l2 l -> interleave (x :: l1) l2 (x :: l)
| il_right : forall y l1 l2 l, interleave l1 l2 l -> interleave l1 (y :: l2) (y :: l).

Lemma run_from_equiv : forall ops m1 m2, mwf m1 -> mwf m2 -> map_equiv m1 m2 ->
  map_equiv (run_from m1 ops) (run_from m2 ops).
Proof.
  intros ops m1 m2 H1 H2 He.
  apply (fold_left2_inv _ _ _ apply_spec apply_spec (fun m1 m2 => mwf m1 /\ mwf m2 /\ map_equiv m1 m2)
                        (fun _ => True)) with (ops := ops); auto.
  intros s1 s2 o _ (W1 & W2 & E). auto using mwf_apply, apply_spec_equiv.
Qed.

Lemma run_from_app : forall l1 l2 m, run_from m (l1 ++ l2) = run_from (run_from m l1) l2.
Proof. intros l1 l2 m. unfold run_from. apply fold_left_app. Qed.

Lemma map_equiv_trans : forall m1 m2 m3, map_equiv m1 m2 -> map_equiv m2 m3 -> map_equiv m1 m3.
Proof. intros m1 m2 m3 H1 H2 p. rewrite (H1 p). apply H2. Qed.

(* an operation independent of a whole sequence may be moved behind it *)
Lemma move_behind : forall l1 y m, mwf m -> (forall x, In x l1 -> independent x y) ->
  map_equiv (run_from m (y :: l1)) (run_from m (l1 ++ [y])).
Proof.
  induction l1 as [|x l1 IH]; intros y m Hm Hi; [intros p; reflexivity|].
  simpl app. change (run_from m (y :: x :: l1)) with (run_from (apply_spec (apply_spec m y) x) l1).
  change (run_from m (x :: l1 ++ [y])) with (run_from (apply_spec m x) (l1 ++ [y])).
  eapply map_equiv_trans.
  - apply (run_from_equiv l1 _ (apply_spec (apply_spec m x) y)); try (apply mwf_apply; apply mwf_apply; exact Hm).
    intros p. symmetry. apply (spec_commute m x y Hm). apply Hi. left. reflexivity.
  - change (run_from (apply_spec (apply_spec m x) y) l1) with (run_from (apply_spec m x) (y :: l1)).
    apply IH; [apply mwf_apply; exact Hm|]. intros x' Hx'. apply Hi. right. exact Hx'.
Qed.

(* two sequences whose operations are pairwise independent: every interleaving leaves the same
   map as running one after the other *)
Lemma interleave_equiv : forall l1 l2 l, interleave l1 l2 l ->
  (forall x y, In x l1 -> In y l2 -> independent x y) ->
  forall m, mwf m -> map_equiv (run_from m l) (run_from m (l1 ++ l2)).
Proof.
  intros l1 l2 l H. induction H as [|x l1 l2 l H IH | y l1 l2 l H IH]; intros Hi m Hm.
  - intros p. reflexivity.
  - simpl. apply IH; [|apply mwf_apply; exact Hm]. intros a b' Ha Hb. apply Hi; [right; exact Ha | exact Hb].
  - change (run_from m (y :: l)) with (run_from (apply_spec m y) l).
    eapply map_equiv_trans; [apply IH; [|apply mwf_apply; exact Hm]|].
    + intros a b' Ha Hb. apply Hi; [exact Ha | right; exact Hb].
    + change (run_from (apply_spec m y) (l1 ++ l2)) with (run_from m ((y :: l1) ++ l2)).
      replace (l1 ++ y :: l2) with ((l1 ++ [y]) ++ l2) by (rewrite <- app_assoc; reflexivity).
      rewrite (run_from_app (y :: l1) l2 m), (run_from_app (l1 ++ [y]) l2 m). apply run_from_equiv.
      * apply (mwf_run_from (y :: l1)). exact Hm.
      * apply (mwf_run_from (l1 ++ [y])). exact Hm.
      * apply move_behind; [exact Hm|]. intros x Hx. apply Hi; [exact Hx | left; reflexivity].
Qed.
