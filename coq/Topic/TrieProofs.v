(* TrieProofs.v — basic facts about the trie model: induction principles for the
   nested type, children-map lemmas, value-slice lemmas, well-formedness (`wf`:
   distinct child keys and distinct values at every node) and its preservation,
   and the characterisation of every update through `tget`:

     tget q (tadd v p t)        = if q = p then add_val v (tget p t) else tget q t
     tget q (tset v p t)        = if q = p then [v] else tget q t
     tget q (tremove v p t)     = if q = p then rem v (tget p t) else tget q t        (pruning is invisible)
     tget q (tclear v t)        = remove_val v (tget q t)                              (pruning is invisible) *)
From Coq Require Import List Bool NArith Permutation Lia.
From Coq.Strings Require Import Byte.
From GM Require Import Topic.MatchSpec Topic.Levels Topic.Trie.
Import ListNotations.
Open Scope N_scope.

(* ------------------------------------------------------------------ induction *)
Lemma node_ind_in : forall P : node -> Prop,
  (forall vs ks, (forall k c, In (k, c) ks -> P c) -> P (Node vs ks)) -> forall t, P t.
Proof.
  intros P H. fix IH 1. intros [vs ks]. apply H.
  induction ks as [|[k0 c0] ks IHks]; [intros k c [] | intros k c [E | Hin]].
  - injection E as _ <-. apply IH.
  - exact (IHks k c Hin).
Qed.

(* ------------------------------------------------------------------ children map *)
Definition keys (ks : list (level * node)) : list level := map fst ks.

Lemma find_kid_In : forall l ks c, find_kid l ks = Some c -> In (l, c) ks.
Proof.
  induction ks as [|[k c0] ks IH]; intros c H; simpl in H; [discriminate|].
  destruct (level_eqb l k) eqn:E.
  - apply level_eqb_eq in E. inversion H; subst. left. reflexivity.
  - right. apply IH. exact H.
Qed.

Lemma find_kid_None : forall l ks, find_kid l ks = None <-> ~ In l (keys ks).
Proof.
  induction ks as [|[k c0] ks IH]; simpl; [tauto|].
  destruct (level_eqb l k) eqn:E.
  - apply level_eqb_eq in E. subst. split; [discriminate | intros H; destruct H; auto].
  - apply level_eqb_neq in E. rewrite IH. intuition congruence.
Qed.

Lemma In_keys : forall k c ks, In (k, c) ks -> In k (keys ks).
Proof. intros k c ks H. unfold keys. change k with (fst (k, c)). apply in_map. exact H. Qed.

Lemma In_find_kid : forall k c ks, NoDup (keys ks) -> In (k, c) ks -> find_kid k ks = Some c.
Proof.
  induction ks as [|[k0 c0] ks IH]; intros Hnd Hin; [destruct Hin|].
  simpl in Hnd. inversion Hnd as [|? ? Hni Hnd']; subst. simpl.
  destruct Hin as [Heq | Hin].
  - inversion Heq; subst. rewrite level_eqb_refl. reflexivity.
  - destruct (level_eqb k k0) eqn:E.
    + apply level_eqb_eq in E. subst. exfalso. apply Hni. exact (In_keys _ _ _ Hin).
    + apply IH; assumption.
Qed.

Lemma find_put_same : forall l c ks, find_kid l (put_kid l c ks) = Some c.
Proof.
  induction ks as [|[k c0] ks IH]; simpl.
  - rewrite level_eqb_refl. reflexivity.
  - destruct (level_eqb l k) eqn:E; simpl; rewrite E; [reflexivity | exact IH].
Qed.

Lemma find_put_other : forall l l' c ks, l' <> l -> find_kid l' (put_kid l c ks) = find_kid l' ks.
Proof.
  intros l l' c ks Hne. induction ks as [|[k c0] ks IH]; simpl.
  - apply level_eqb_neq in Hne. rewrite Hne. reflexivity.
  - destruct (level_eqb l k) eqn:E; simpl.
    + apply level_eqb_eq in E. subst k. apply level_eqb_neq in Hne. rewrite Hne. reflexivity.
    + rewrite IH. reflexivity.
Qed.

Lemma find_del_other : forall l l' ks, l' <> l -> find_kid l' (del_kid l ks) = find_kid l' ks.
Proof.
  intros l l' ks Hne. induction ks as [|[k c0] ks IH]; simpl; [reflexivity|].
  destruct (level_eqb l k) eqn:E; simpl.
  - apply level_eqb_eq in E. subst k. apply level_eqb_neq in Hne. rewrite Hne. reflexivity.
  - rewrite IH. reflexivity.
Qed.

Lemma In_del_kid : forall l ks k c, In (k, c) (del_kid l ks) -> In (k, c) ks.
Proof.
  induction ks as [|[k0 c0] ks IH]; intros k c H; simpl in *; [exact H|].
  destruct (level_eqb l k0); simpl in *; [right; exact H|].
  destruct H as [H | H]; [left; exact H | right; apply IH; exact H].
Qed.

Lemma keys_del_incl : forall l ks k, In k (keys (del_kid l ks)) -> In k (keys ks).
Proof.
  intros l ks k H. apply in_map_iff in H. destruct H as [[k' c] [<- H]].
  exact (In_keys _ _ _ (In_del_kid _ _ _ _ H)).
Qed.

Lemma NoDup_keys_del : forall l ks, NoDup (keys ks) -> NoDup (keys (del_kid l ks)).
Proof.
  induction ks as [|[k0 c0] ks IH]; intros H; simpl in *; [exact H|].
  inversion H as [|? ? Hni Hnd]; subst.
  destruct (level_eqb l k0); simpl; [exact Hnd|].
  constructor; [|apply IH; exact Hnd].
  intros Hin. apply Hni. exact (keys_del_incl _ _ _ Hin).
Qed.

Lemma find_del_same : forall l ks, NoDup (keys ks) -> find_kid l (del_kid l ks) = None.
Proof.
  induction ks as [|[k0 c0] ks IH]; intros H; simpl in *; [reflexivity|].
  inversion H as [|? ? Hni Hnd]; subst.
  destruct (level_eqb l k0) eqn:E; simpl.
  - apply level_eqb_eq in E. subst k0. apply find_kid_None. exact Hni.
  - rewrite E. apply IH. exact Hnd.
Qed.

Lemma In_put_kid : forall l c ks k c', In (k, c') (put_kid l c ks) -> (k = l /\ c' = c) \/ In (k, c') ks.
Proof.
  induction ks as [|[k0 c0] ks IH]; intros k c' H; simpl in *.
  - destruct H as [H | []]. inversion H; subst. auto.
  - destruct (level_eqb l k0) eqn:E; simpl in H; destruct H as [H | H]; auto.
    + inversion H; subst. apply level_eqb_eq in E. subst. auto.
    + destruct (IH _ _ H); auto.
Qed.

Lemma keys_put_incl : forall l c ks k, In k (keys (put_kid l c ks)) -> k = l \/ In k (keys ks).
Proof.
  intros l c ks k H. apply in_map_iff in H. destruct H as [[k' c'] [<- H]].
  destruct (In_put_kid _ _ _ _ _ H) as [[-> _] | H']; [left; reflexivity | right; exact (In_keys _ _ _ H')].
Qed.

Lemma NoDup_keys_put : forall l c ks, NoDup (keys ks) -> NoDup (keys (put_kid l c ks)).
Proof.
  induction ks as [|[k0 c0] ks IH]; intros H; simpl in *.
  - constructor; [intros [] | constructor].
  - inversion H as [|? ? Hni Hnd]; subst.
    destruct (level_eqb l k0) eqn:E; simpl.
    + constructor; assumption.
    + constructor; [|apply IH; exact Hnd].
      intros Hin. destruct (keys_put_incl _ _ _ _ Hin) as [H1 | H1].
      * subst k0. rewrite level_eqb_refl in E. discriminate.
      * contradiction.
Qed.

(* ------------------------------------------------------------------ value slices *)
Lemma mem_val_In : forall v vs, mem_val v vs = true <-> In v vs.
Proof.
  intros v vs. unfold mem_val. rewrite existsb_exists. split.
  - intros [x [Hin He]]. apply N.eqb_eq in He. subst. exact Hin.
  - intros Hin. exists v. split; [exact Hin | apply N.eqb_refl].
Qed.

Lemma mem_val_false : forall v vs, mem_val v vs = false <-> ~ In v vs.
Proof. intros v vs. apply false_iff_not. apply mem_val_In. Qed.

Lemma add_val_In : forall v w vs, In w (add_val v vs) <-> w = v \/ In w vs.
Proof.
  intros v w vs. unfold add_val.
  destruct (mem_val v vs) eqn:E; [apply mem_val_In in E | rewrite in_app_iff; simpl]; intuition (subst; auto).
Qed.

Lemma add_val_NoDup : forall v vs, NoDup vs -> NoDup (add_val v vs).
Proof.
  intros v vs H. unfold add_val. destruct (mem_val v vs) eqn:E; [exact H|].
  apply mem_val_false in E.
  apply (Permutation_NoDup (l := v :: vs)); [apply Permutation_cons_append | constructor; assumption].
Qed.

Lemma add_val_nonempty : forall v vs, add_val v vs <> [].
Proof.
  intros v vs. unfold add_val. destruct (mem_val v vs) eqn:E.
  - apply mem_val_In in E. intros ->. destruct E.
  - destruct vs; discriminate.
Qed.

Lemma last_removelast_perm : forall (l : list N) d, l <> [] -> Permutation (last l d :: removelast l) l.
Proof.
  intros l d H. rewrite (app_removelast_last d H) at 3.
  apply Permutation_cons_append.
Qed.

Lemma remove_val_notin : forall v vs, ~ In v vs -> remove_val v vs = vs.
Proof.
  induction vs as [|x vs IH]; intros H; simpl; [reflexivity|].
  destruct (N.eqb x v) eqn:E.
  - apply N.eqb_eq in E. exfalso. apply H. left. exact E.
  - rewrite IH; [reflexivity|]. intros Hin. apply H. right. exact Hin.
Qed.

Lemma remove_val_perm : forall v vs, In v vs -> Permutation (v :: remove_val v vs) vs.
Proof.
  induction vs as [|x vs IH]; intros H; [destruct H|]. simpl.
  destruct (N.eqb x v) eqn:E.
  - apply N.eqb_eq in E. subst x. constructor.
    destruct vs as [|y vs']; [constructor|].
    apply last_removelast_perm. discriminate.
  - apply N.eqb_neq in E. destruct H as [H | H]; [congruence|].
    eapply perm_trans; [apply perm_swap|]. constructor. apply IH. exact H.
Qed.

Lemma remove_val_NoDup : forall v vs, NoDup vs -> NoDup (remove_val v vs).
Proof.
  intros v vs H. destruct (in_dec N.eq_dec v vs) as [Hin | Hni].
  - assert (Hp := remove_val_perm v vs Hin).
    apply Permutation_sym in Hp. apply (Permutation_NoDup Hp) in H. inversion H; assumption.
  - rewrite remove_val_notin; assumption.
Qed.

Lemma remove_val_In : forall v w vs, NoDup vs -> (In w (remove_val v vs) <-> In w vs /\ w <> v).
Proof.
  intros v w vs H. destruct (in_dec N.eq_dec v vs) as [Hin | Hni].
  - assert (Hp := remove_val_perm v vs Hin).
    assert (Hnd : NoDup (v :: remove_val v vs)) by (apply (Permutation_NoDup (Permutation_sym Hp)); exact H).
    inversion Hnd as [|? ? Hv _]; subst. split.
    + intros Hw. split.
      * apply (Permutation_in _ Hp). right. exact Hw.
      * intros ->. contradiction.
    + intros [Hw Hne]. apply (Permutation_in _ (Permutation_sym Hp)) in Hw.
      destruct Hw as [Hw | Hw]; [congruence | exact Hw].
  - rewrite remove_val_notin by exact Hni. split.
    + intros Hw. split; [exact Hw | intros ->; contradiction].
    + intros [Hw _]. exact Hw.
Qed.

Lemma remove_val_incl : forall v w vs, In w (remove_val v vs) -> In w vs.
Proof.
  intros v w vs H. destruct (in_dec N.eq_dec v vs) as [Hin | Hni].
  - apply (Permutation_in _ (remove_val_perm v vs Hin)). right. exact H.
  - rewrite remove_val_notin in H; assumption.
Qed.

Lemma clean_acc_In : forall l acc x, In x (clean_acc acc l) <-> In x acc \/ In x l.
Proof.
  induction l as [|y l IH]; intros acc x; simpl; [tauto|].
  destruct (mem_val y acc) eqn:E; rewrite IH; [apply mem_val_In in E | rewrite in_app_iff; simpl];
    intuition (subst; auto).
Qed.

Lemma clean_acc_NoDup : forall l acc, NoDup acc -> NoDup (clean_acc acc l).
Proof.
  induction l as [|y l IH]; intros acc H; simpl; [exact H|].
  destruct (mem_val y acc) eqn:E; apply IH; [exact H|].
  apply mem_val_false in E.
  apply (Permutation_NoDup (l := y :: acc)); [apply Permutation_cons_append | constructor; assumption].
Qed.

Lemma clean_In : forall l x, In x (clean l) <-> In x l.
Proof.
  intros l x. unfold clean. rewrite clean_acc_In. split; [intros [[] | H]; exact H | intros H; right; exact H].
Qed.

Lemma clean_NoDup : forall l, NoDup (clean l).
Proof. intros l. apply clean_acc_NoDup. constructor. Qed.

Lemma clean_nil : forall l, clean l = [] <-> l = [].
Proof.
  intros l. split.
  - intros H. destruct l as [|x l]; [reflexivity|].
    assert (Hx : In x (clean (x :: l))) by (apply clean_In; left; reflexivity).
    rewrite H in Hx. destruct Hx.
  - intros ->. reflexivity.
Qed.

(* ------------------------------------------------------------------ well-formedness *)
Inductive wf : node -> Prop :=
| wf_node : forall vs ks,
    NoDup (keys ks) -> NoDup vs -> (forall k c, In (k, c) ks -> wf c) -> wf (Node vs ks).

Lemma wf_inv : forall vs ks, wf (Node vs ks) ->
  NoDup (keys ks) /\ NoDup vs /\ forall k c, In (k, c) ks -> wf c.
Proof. intros vs ks H. inversion H; subst. auto. Qed.

Lemma wf_ind_in : forall P : node -> Prop,
  (forall vs ks, NoDup (keys ks) -> NoDup vs -> (forall k c, In (k, c) ks -> wf c) ->
                 (forall k c, In (k, c) ks -> P c) -> P (Node vs ks)) ->
  forall t, wf t -> P t.
Proof.
  intros P H t. induction t as [vs ks IH] using node_ind_in. intros W.
  destruct (wf_inv _ _ W) as (Hnd & Hv & Hk). apply H; try assumption.
  intros k c Hin. exact (IH k c Hin (Hk k c Hin)).
Qed.

Lemma wf_empty : wf empty_node.
Proof. constructor; [constructor | constructor | intros k c []]. Qed.

Lemma wf_kid : forall l vs ks c, wf (Node vs ks) -> find_kid l ks = Some c -> wf c.
Proof. intros l vs ks c H E. apply (proj2 (proj2 (wf_inv _ _ H)) l). apply find_kid_In. exact E. Qed.

Lemma wf_kid_or_new : forall l vs ks, wf (Node vs ks) -> wf (kid_or_new l ks).
Proof.
  intros l vs ks H. unfold kid_or_new.
  destruct (find_kid l ks) as [c|] eqn:E; [exact (wf_kid _ _ _ _ H E) | exact wf_empty].
Qed.

Lemma wf_put : forall l c vs ks, wf (Node vs ks) -> wf c -> wf (Node vs (put_kid l c ks)).
Proof.
  intros l c vs ks H Hc. destruct (wf_inv _ _ H) as (Hnd & Hv & Hk). constructor.
  - apply NoDup_keys_put. exact Hnd.
  - exact Hv.
  - intros k c' Hin. destruct (In_put_kid _ _ _ _ _ Hin) as [[_ ->] | Hin']; [exact Hc | exact (Hk _ _ Hin')].
Qed.

Lemma wf_del : forall l vs ks, wf (Node vs ks) -> wf (Node vs (del_kid l ks)).
Proof.
  intros l vs ks H. destruct (wf_inv _ _ H) as (Hnd & Hv & Hk). constructor.
  - apply NoDup_keys_del. exact Hnd.
  - exact Hv.
  - intros k c' Hin. exact (Hk _ _ (In_del_kid _ _ _ _ Hin)).
Qed.

(* add and set differ only in what they do to the value slice at the end of the path *)
Fixpoint tupd (f : list N -> list N) (p : list level) (n : node) : node :=
  match n with
  | Node vs ks =>
      match p with
      | [] => Node (f vs) ks
      | l :: p' => Node vs (put_kid l (tupd f p' (kid_or_new l ks)) ks)
      end
  end.

Lemma tadd_tupd : forall v p t, tadd v p t = tupd (add_val v) p t.
Proof. induction p as [|l p IH]; intros [vs ks]; simpl; [|rewrite IH]; reflexivity. Qed.

Lemma tset_tupd : forall v p t, tset v p t = tupd (fun _ => [v]) p t.
Proof. induction p as [|l p IH]; intros [vs ks]; simpl; [|rewrite IH]; reflexivity. Qed.

Lemma wf_tupd : forall f, (forall vs, NoDup vs -> NoDup (f vs)) -> forall p t, wf t -> wf (tupd f p t).
Proof.
  intros f Hf. induction p as [|l p IH]; intros [vs ks] H; simpl.
  - destruct (wf_inv _ _ H) as (Hnd & Hv & Hk). constructor; auto.
  - apply wf_put; [exact H|]. apply IH. exact (wf_kid_or_new l vs ks H).
Qed.

Lemma wf_tadd : forall v p t, wf t -> wf (tadd v p t).
Proof. intros v p t. rewrite tadd_tupd. apply wf_tupd. apply add_val_NoDup. Qed.

Lemma wf_tset : forall v p t, wf t -> wf (tset v p t).
Proof.
  intros v p t. rewrite tset_tupd. apply wf_tupd. intros _ _. constructor; [intros [] | constructor].
Qed.

Lemma wf_tremove : forall v p t, wf t -> wf (tremove v p t).
Proof.
  induction p as [|l p IH]; intros [vs ks] H; simpl.
  - destruct (wf_inv _ _ H) as (Hnd & Hv & Hk). constructor; [assumption | | assumption].
    destruct v; [apply remove_val_NoDup; assumption | constructor].
  - destruct (find_kid l ks) as [c|] eqn:E; [|exact H].
    destruct (is_empty (tremove v p c)); [apply wf_del; exact H|].
    apply wf_put; [exact H | apply IH; exact (wf_kid _ _ _ _ H E)].
Qed.

Lemma keys_filter_map : forall (f : node -> node) (g : level * node -> bool) ks k,
  In k (keys (filter g (map (fun kc : level * node => let '(k, c) := kc in (k, f c)) ks))) -> In k (keys ks).
Proof.
  induction ks as [|[k0 c0] ks IH]; intros k H; simpl in *; [exact H|].
  destruct (g (k0, f c0)); simpl in H.
  - destruct H as [H | H]; [left; exact H | right; apply IH; exact H].
  - right. apply IH. exact H.
Qed.

Lemma NoDup_keys_filter_map : forall (f : node -> node) (g : level * node -> bool) ks,
  NoDup (keys ks) -> NoDup (keys (filter g (map (fun kc : level * node => let '(k, c) := kc in (k, f c)) ks))).
Proof.
  induction ks as [|[k0 c0] ks IH]; intros H; simpl in *; [constructor|].
  inversion H as [|? ? Hni Hnd]; subst.
  destruct (g (k0, f c0)); simpl; [|apply IH; exact Hnd].
  constructor; [|apply IH; exact Hnd].
  intros Hin. apply Hni. exact (keys_filter_map _ _ _ _ Hin).
Qed.

Lemma In_filter_map : forall (f : node -> node) (g : level * node -> bool) ks k c',
  In (k, c') (filter g (map (fun kc : level * node => let '(k, c) := kc in (k, f c)) ks)) ->
  exists c, In (k, c) ks /\ c' = f c /\ g (k, c') = true.
Proof.
  intros f g ks k c' H. apply filter_In in H. destruct H as [H Hg].
  apply in_map_iff in H. destruct H as [[k0 c0] [Heq Hin]]. inversion Heq; subst.
  exists c0. repeat split; assumption.
Qed.

Lemma wf_tclear : forall v t, wf t -> wf (tclear v t).
Proof.
  intros v t W. induction W as [vs ks Hnd Hv _ IH] using wf_ind_in. simpl. constructor.
  - apply NoDup_keys_filter_map. exact Hnd.
  - apply remove_val_NoDup. exact Hv.
  - intros k c' Hin. destruct (In_filter_map _ _ _ _ _ Hin) as [c [Hc [-> _]]]. exact (IH k c Hc).
Qed.

(* ------------------------------------------------------------------ tget *)
Lemma tget_nil : forall vs ks, tget [] (Node vs ks) = vs.
Proof. reflexivity. Qed.

Lemma tget_cons : forall l p vs ks,
  tget (l :: p) (Node vs ks) = match find_kid l ks with Some c => tget p c | None => [] end.
Proof. reflexivity. Qed.

Lemma tget_child : forall k n vs ks v, NoDup (keys ks) ->
  (In v (tget (k :: n) (Node vs ks)) <-> exists c, In (k, c) ks /\ In v (tget n c)).
Proof.
  intros k n vs ks v Hnd. rewrite tget_cons. split.
  - destruct (find_kid k ks) as [c|] eqn:E; [|intros []].
    intros H. exists c. split; [apply find_kid_In; exact E | exact H].
  - intros [c [Hkc H]]. rewrite (In_find_kid _ _ _ Hnd Hkc). exact H.
Qed.

Lemma tget_empty_node : forall p, tget p empty_node = [].
Proof. intros [|l p]; reflexivity. Qed.

Lemma tget_is_empty : forall p t, is_empty t = true -> tget p t = [].
Proof.
  intros p [vs ks] H. destruct vs; [|discriminate]. destruct ks; [|discriminate]. apply tget_empty_node.
Qed.

Lemma tget_kid_or_new : forall l p vs ks, tget p (kid_or_new l ks) = tget (l :: p) (Node vs ks).
Proof.
  intros l p vs ks. rewrite tget_cons. unfold kid_or_new.
  destruct (find_kid l ks); [reflexivity | apply tget_empty_node].
Qed.

Lemma tget_NoDup : forall p t, wf t -> NoDup (tget p t).
Proof.
  induction p as [|l p IH]; intros [vs ks] H.
  - exact (proj1 (proj2 (wf_inv _ _ H))).
  - rewrite tget_cons. destruct (find_kid l ks) as [c|] eqn:E; [|constructor].
    apply IH. exact (wf_kid _ _ _ _ H E).
Qed.

Lemma tget_tupd : forall f p q t,
  tget q (tupd f p t) = if path_eq_dec q p then f (tget p t) else tget q t.
Proof.
  induction p as [|l p IH]; intros q [vs ks]; simpl tupd.
  - destruct q as [|l' q]; destruct (path_eq_dec _ _) as [E | E]; try congruence; reflexivity.
  - destruct q as [|l' q].
    + destruct (path_eq_dec _ _) as [E | E]; [discriminate | reflexivity].
    + rewrite tget_cons. destruct (level_eq_dec l' l) as [-> | Hne].
      * rewrite find_put_same, IH, !(tget_kid_or_new l _ vs ks).
        destruct (path_eq_dec q p) as [-> | E1]; destruct (path_eq_dec _ _) as [E2 | E2]; try congruence; reflexivity.
      * rewrite find_put_other by exact Hne.
        destruct (path_eq_dec _ _) as [E2 | E2]; [congruence | reflexivity].
Qed.

Lemma tget_tadd : forall v p q t,
  tget q (tadd v p t) = if path_eq_dec q p then add_val v (tget p t) else tget q t.
Proof. intros v p q t. rewrite tadd_tupd. apply tget_tupd. Qed.

Lemma tget_tset : forall v p q t,
  tget q (tset v p t) = if path_eq_dec q p then [v] else tget q t.
Proof. intros v p q t. rewrite tset_tupd. apply (tget_tupd (fun _ => [v])). Qed.

Definition rem (v : option N) (vs : list N) : list N :=
  match v with None => [] | Some x => remove_val x vs end.

Lemma tget_tremove : forall v p q t, wf t ->
  tget q (tremove v p t) = if path_eq_dec q p then rem v (tget p t) else tget q t.
Proof.
  induction p as [|l p IH]; intros q [vs ks] H; simpl tremove.
  - destruct q as [|l' q]; destruct (path_eq_dec _ _) as [E | E]; try congruence; reflexivity.
  - destruct (find_kid l ks) as [c|] eqn:Ef.
    + assert (Hnd : NoDup (keys ks)) by exact (proj1 (wf_inv _ _ H)).
      assert (G : forall q', tget (l :: q') (if is_empty (tremove v p c) then Node vs (del_kid l ks)
                                              else Node vs (put_kid l (tremove v p c) ks))
                             = tget q' (tremove v p c)).
      { intros q'. destruct (is_empty (tremove v p c)) eqn:Ee.
        - rewrite tget_cons, find_del_same by exact Hnd. symmetry. apply tget_is_empty. exact Ee.
        - rewrite tget_cons, find_put_same. reflexivity. }
      destruct q as [|l' q].
      * destruct (path_eq_dec _ _) as [E | E]; [discriminate|].
        destruct (is_empty (tremove v p c)); reflexivity.
      * destruct (level_eq_dec l' l) as [-> | Hne].
        -- rewrite G, (IH q c (wf_kid _ _ _ _ H Ef)), !tget_cons, Ef.
           destruct (path_eq_dec q p) as [-> | E1]; destruct (path_eq_dec _ _) as [E2 | E2]; try congruence; reflexivity.
        -- destruct (path_eq_dec _ _) as [E2 | E2]; [congruence|].
           destruct (is_empty (tremove v p c)); rewrite !tget_cons.
           ++ rewrite find_del_other by exact Hne. reflexivity.
           ++ rewrite find_put_other by exact Hne. reflexivity.
    + destruct (path_eq_dec q (l :: p)) as [-> | E]; [|reflexivity].
      rewrite tget_cons, Ef. destruct v; reflexivity.
Qed.

Lemma find_filter_map : forall (f : node -> node) l ks, NoDup (keys ks) ->
  find_kid l (filter (fun kc : level * node => negb (is_empty (snd kc)))
                     (map (fun kc : level * node => let '(k, c) := kc in (k, f c)) ks))
  = match find_kid l ks with
    | Some c => if is_empty (f c) then None else Some (f c)
    | None => None
    end.
Proof.
  induction ks as [|[k0 c0] ks IH]; intros H; simpl in *; [reflexivity|].
  inversion H as [|? ? Hni Hnd]; subst.
  destruct (level_eqb l k0) eqn:E.
  - apply level_eqb_eq in E. subst k0.
    destruct (is_empty (f c0)) eqn:Ee; simpl.
    + apply find_kid_None. intros Hin. apply Hni. exact (keys_filter_map _ _ _ _ Hin).
    + rewrite level_eqb_refl. reflexivity.
  - destruct (is_empty (f c0)); simpl; [|rewrite E]; apply IH; exact Hnd.
Qed.

Lemma tget_tclear : forall v t q, wf t -> tget q (tclear v t) = remove_val v (tget q t).
Proof.
  intros v t q W. revert q. induction W as [vs ks Hnd _ _ IH] using wf_ind_in. intros q. simpl tclear.
  destruct q as [|l q]; [reflexivity|].
  rewrite !tget_cons, find_filter_map by exact Hnd.
  destruct (find_kid l ks) as [c|] eqn:Ef; [|reflexivity].
  rewrite <- (IH l c (find_kid_In _ _ _ Ef) q).
  destruct (is_empty (tclear v c)) eqn:Ee; [|reflexivity].
  symmetry. apply tget_is_empty. exact Ee.
Qed.
