(* TrieMatchProofs.v — what match() and search() compute, in terms of `tget` and
   the reference relation `matches`:

     tmatch_raw_spec   name free of whole-level wildcards:
                       v ∈ tmatch_raw name t  <->  ∃ f, v ∈ tget f t ∧ matches f name
     tsearch_raw_spec  wf t, '#' only as last level of the filter:
                       v ∈ tsearch_raw f t    <->  ∃ n, v ∈ tget n t ∧ matches f n
     tmatch_first_rel / tsearch_first_rel
                       the First variants return nothing iff the list is empty, else one of its elements *)
From Coq Require Import List Bool NArith Permutation Lia.
From Coq.Strings Require Import Byte.
From GM Require Import Topic.MatchSpec Topic.Levels Topic.Trie Topic.TrieProofs.
Import ListNotations.
Open Scope N_scope.

Definition plain_level (l : level) : Prop := is_plus l = false /\ is_hash l = false.
Definition name_ok (name : list level) : Prop := Forall plain_level name.

(* '#' occurs as a whole level only in last position *)
Fixpoint hash_last (f : list level) : Prop :=
  match f with
  | [] => True
  | l :: f' => (is_hash l = true -> f' = []) /\ hash_last f'
  end.

Lemma is_hash_eq : forall l, is_hash l = true <-> l = lv_hash.
Proof. intros l. unfold is_hash, lv_hash. apply level_eqb_eq. Qed.

Lemma is_plus_eq : forall l, is_plus l = true <-> l = lv_plus.
Proof. intros l. unfold is_plus, lv_plus. apply level_eqb_eq. Qed.

Lemma matches_cons : forall l f' n,
  matches (l :: f') n =
  if is_hash l && (match f' with [] => true | _ :: _ => false end) then true
  else match n with
       | [] => false
       | l' :: n' => (is_plus l || level_eqb l l') && matches f' n'
       end.
Proof. reflexivity. Qed.

Lemma matches_nil : forall n, matches [] n = true <-> n = [].
Proof. intros [|x n]; simpl; split; congruence. Qed.

Lemma matches_cons_true : forall l f' n, matches (l :: f') n = true <->
  (is_hash l = true /\ f' = []) \/
  exists l' n', n = l' :: n' /\ is_plus l || level_eqb l l' = true /\ matches f' n' = true.
Proof.
  intros l f' n. rewrite matches_cons.
  destruct (is_hash l && match f' with [] => true | _ :: _ => false end) eqn:E.
  - apply andb_true_iff in E. destruct E as [E1 E2]. destruct f'; [|discriminate].
    split; [intros _; left; auto | reflexivity].
  - split.
    + destruct n as [|l' n']; [discriminate|]. intros H. apply andb_true_iff in H.
      right. exists l', n'. split; [reflexivity | exact H].
    + intros [[E1 ->] | (l' & n' & -> & H1 & H2)]; [rewrite E1 in E; discriminate | rewrite H1, H2; reflexivity].
Qed.

Lemma wildcard_free_no_nul : forall s, wildcard_free s = true -> no_nul s = true.
Proof.
  intros s H. unfold wildcard_free in H. apply andb_true_iff in H. destruct H as [H _].
  apply andb_true_iff in H. exact (proj1 H).
Qed.

Lemma valid_filter_no_nul : forall s, valid_filter s = true -> no_nul s = true.
Proof. intros s H. unfold valid_filter in H. apply andb_true_iff in H. exact (proj1 H). Qed.

Lemma wildcard_free_name_ok : forall s, wildcard_free s = true -> name_ok (split_levels s).
Proof.
  intros s H. unfold wildcard_free in H.
  apply andb_true_iff in H. destruct H as [H Hh]. apply andb_true_iff in H. destruct H as [_ Hp].
  apply negb_true_iff in Hh. apply negb_true_iff in Hp.
  apply has_byte_false in Hh. apply has_byte_false in Hp.
  apply Forall_forall. intros l Hl. split.
  - destruct (is_plus l) eqn:E; [|reflexivity]. apply is_plus_eq in E. subst l.
    exfalso. apply Hp. apply (split_levels_bytes s lv_plus); [exact Hl | left; reflexivity].
  - destruct (is_hash l) eqn:E; [|reflexivity]. apply is_hash_eq in E. subst l.
    exfalso. apply Hh. apply (split_levels_bytes s lv_hash); [exact Hl | left; reflexivity].
Qed.

Lemma valid_levels_hash_last : forall f, valid_filter_levels f = true -> hash_last f.
Proof.
  induction f as [|l f IH]; intros H; simpl; [exact I|].
  simpl in H. apply andb_true_iff in H. destruct H as [H Hf].
  apply andb_true_iff in H. destruct H as [Hh _].
  split; [|apply IH; exact Hf].
  intros E. assert (Hb : has_byte b_hash l = true).
  { apply is_hash_eq in E. subst l. reflexivity. }
  rewrite Hb, E in Hh. simpl in Hh. destruct f; [reflexivity | discriminate].
Qed.

Lemma valid_filter_hash_last : forall s, valid_filter s = true -> hash_last (split_levels s).
Proof.
  intros s H. unfold valid_filter in H. apply andb_true_iff in H. apply valid_levels_hash_last. exact (proj2 H).
Qed.

Lemma hash_vals_tget : forall vs ks, hash_vals ks = tget [lv_hash] (Node vs ks).
Proof. intros vs ks. rewrite tget_cons. unfold hash_vals. destruct (find_kid lv_hash ks) as [[vs' ks']|]; reflexivity. Qed.

(* ------------------------------------------------------------------ match *)
Lemma tmatch_raw_spec : forall name t v, name_ok name ->
  (In v (tmatch_raw name t) <-> exists f, In v (tget f t) /\ matches f name = true).
Proof.
  induction name as [|l rest IH]; intros [vs ks] v Hok; simpl tmatch_raw; rewrite (hash_vals_tget vs ks).
  - rewrite in_app_iff. split.
    + intros [H | H]; [exists [lv_hash] | exists []]; (split; [exact H | reflexivity]).
    + intros [[|l0 f'] [Hin Hm]]; [right; exact Hin | left].
      apply matches_cons_true in Hm. destruct Hm as [[E ->] | (l' & n' & E & _)]; [|discriminate].
      apply is_hash_eq in E. subst l0. exact Hin.
  - inversion Hok as [|? ? [Hp Hh] Hrest]; subst. rewrite Hp, Hh. cbn [orb]. rewrite !in_app_iff. split.
    +
      assert (K : forall k, is_plus k || level_eqb k l = true ->
                  In v (match find_kid k ks with Some c => tmatch_raw rest c | None => [] end) ->
                  exists f, In v (tget f (Node vs ks)) /\ matches f (l :: rest) = true).
      { intros k Hk H. destruct (find_kid k ks) as [c|] eqn:Ef; [|destruct H].
        apply (IH c v Hrest) in H. destruct H as [f' [Hin Hm]].
        exists (k :: f'). rewrite tget_cons, Ef. split; [exact Hin|].
        apply matches_cons_true. right. exists l, rest. auto. }
      intros [H | [H | H]].
      * exists [lv_hash]. split; [exact H | reflexivity].
      * exact (K lv_plus eq_refl H).
      * apply (K l); [|exact H]. rewrite level_eqb_refl. apply orb_true_r.
    + intros [[|l0 f'] [Hin Hm]]; [discriminate|].
      apply matches_cons_true in Hm. destruct Hm as [[E ->] | (l' & n' & E & Hl & Hm)].
      * left. apply is_hash_eq in E. subst l0. exact Hin.
      * injection E as <- <-. right.
        rewrite tget_cons in Hin. destruct (find_kid l0 ks) as [c|] eqn:Ef; [|destruct Hin].
        assert (Hc : In v (tmatch_raw rest c)) by (apply (IH c v Hrest); exists f'; auto).
        destruct (is_plus l0) eqn:Ep.
        -- left. apply is_plus_eq in Ep. subst l0. rewrite Ef. exact Hc.
        -- right. apply level_eqb_eq in Hl. subst l0. rewrite Ef. exact Hc.
Qed.

(* ------------------------------------------------------------------ first variants *)
Definition first_rel (o : option N) (l : list N) : Prop :=
  match o with
  | None => l = []
  | Some v => In v l
  end.

Lemma first_rel_hd : forall l, first_rel (hd_opt l) l.
Proof. intros [|x l]; simpl; [reflexivity | left; reflexivity]. Qed.

Lemma first_rel_later : forall a b l1 l2, first_rel a l1 -> first_rel b l2 -> first_rel (later a b) (l1 ++ l2).
Proof.
  intros a b l1 l2 Ha Hb. destruct b as [v|]; simpl in *.
  - apply in_or_app. right. exact Hb.
  - subst l2. rewrite app_nil_r. exact Ha.
Qed.

Lemma first_rel_nil : first_rel None [].
Proof. reflexivity. Qed.

Lemma first_rel_clean : forall o l, first_rel o l -> first_rel o (clean l).
Proof.
  intros [v|] l H; simpl in *; [apply clean_In; exact H | apply clean_nil; exact H].
Qed.

Lemma first_rel_or : forall hv o l, first_rel o l ->
  first_rel (match hd_opt hv with Some v => Some v | None => o end) (hv ++ l).
Proof. intros [|x hv] o l H; [exact H | left; reflexivity]. Qed.

Lemma tmatch_first_rel : forall name t, first_rel (tmatch_first name t) (tmatch_raw name t).
Proof.
  induction name as [|l rest IH]; intros [vs ks]; simpl tmatch_first; simpl tmatch_raw; apply first_rel_or.
  - apply first_rel_hd.
  - apply first_rel_later.
    + destruct (find_kid lv_plus ks); [apply IH | reflexivity].
    + destruct (is_plus l || is_hash l); [reflexivity|].
      destruct (find_kid l ks); [apply IH | reflexivity].
Qed.

(* ------------------------------------------------------------------ search *)
Lemma go_find_kid : forall (A : Type) (F : node -> A) (d : A) l ks,
  (fix go (ks : list (level * node)) : A :=
     match ks with
     | [] => d
     | (k, c) :: ks' => if level_eqb l k then F c else go ks'
     end) ks
  = match find_kid l ks with Some c => F c | None => d end.
Proof.
  intros A F d l. induction ks as [|[k c] ks IH]; simpl; [reflexivity|].
  destruct (level_eqb l k); [reflexivity | exact IH].
Qed.

Lemma tsearch_raw_unfold : forall f vs ks,
  tsearch_raw f (Node vs ks) =
  match f with
  | [] => vs
  | l :: rest =>
      if is_hash l then vs ++ flat_map (fun kc : level * node => tsearch_raw f (snd kc)) ks
      else if is_plus l then flat_map (fun kc : level * node => tsearch_raw rest (snd kc)) ks
      else match find_kid l ks with Some c => tsearch_raw rest c | None => [] end
  end.
Proof.
  intros f vs ks. destruct f as [|l rest]; [reflexivity|]. simpl.
  destruct (is_hash l).
  - f_equal. apply flat_map_ext. intros [k c]. reflexivity.
  - destruct (is_plus l); [apply flat_map_ext; intros [k c]; reflexivity | apply go_find_kid].
Qed.

Lemma tsearch_raw_sound : forall t f v, wf t -> hash_last f -> In v (tsearch_raw f t) ->
  exists n, In v (tget n t) /\ matches f n = true.
Proof.
  intros t f v W. revert f. induction W as [vs ks Hnd _ _ IH] using wf_ind_in. intros f Hf.
  assert (K : forall k c f', In (k, c) ks -> hash_last f' ->
              (forall n', matches f' n' = true -> matches f (k :: n') = true) ->
              In v (tsearch_raw f' c) -> exists n, In v (tget n (Node vs ks)) /\ matches f n = true).
  { intros k c f' Hkc Hf' Hm H. destruct (IH k c Hkc f' Hf' H) as [n' [Hin Hn']].
    exists (k :: n'). split; [|auto]. apply tget_child; [exact Hnd|]. exists c. auto. }
  rewrite tsearch_raw_unfold. destruct f as [|l rest]; [intros H; exists []; auto|].
  destruct Hf as [Hlast Hrest]. destruct (is_hash l) eqn:Eh; [|destruct (is_plus l) eqn:Ep].
  - (* '#': everything at and below this node *)
    rewrite (Hlast eq_refl) in *.
    assert (Hall : forall n, matches [l] n = true) by (intros n; rewrite matches_cons, Eh; reflexivity).
    intros H. apply in_app_or in H. destruct H as [H | H]; [exists []; auto|].
    apply in_flat_map in H. destruct H as [[k c] [Hkc H]]. apply (K k c [l] Hkc); auto. simpl; auto.
  - (* '+': every child *)
    intros H. apply in_flat_map in H. destruct H as [[k c] [Hkc H]]. apply (K k c rest Hkc Hrest); [|exact H].
    intros n' Hn'. rewrite matches_cons, Eh, Ep. exact Hn'.
  - (* a literal level *)
    destruct (find_kid l ks) as [c|] eqn:Ef; [|intros []]. apply (K l c rest (find_kid_In _ _ _ Ef) Hrest).
    intros n' Hn'. rewrite matches_cons, Eh, level_eqb_refl, orb_true_r. exact Hn'.
Qed.

Lemma tsearch_raw_complete : forall n t f v, hash_last f -> In v (tget n t) -> matches f n = true ->
  In v (tsearch_raw f t).
Proof.
  induction n as [|k n IH]; intros [vs ks] f v Hf Hin Hm; rewrite tsearch_raw_unfold; destruct f as [|l rest];
    try discriminate; [exact Hin | |].
  - rewrite matches_cons in Hm. destruct (is_hash l); [|discriminate]. apply in_or_app. left. exact Hin.
  - rewrite tget_cons in Hin. destruct (find_kid k ks) as [c|] eqn:Ef; [|destruct Hin].
    assert (Hkc := find_kid_In _ _ _ Ef). destruct Hf as [Hlast Hrest].
    rewrite matches_cons in Hm. destruct (is_hash l) eqn:Eh.
    + rewrite (Hlast eq_refl) in *. apply in_or_app. right. apply in_flat_map. exists (k, c). split; [exact Hkc|].
      apply (IH c [l] v); [simpl; auto | exact Hin | rewrite matches_cons, Eh; reflexivity].
    + apply andb_true_iff in Hm. destruct Hm as [Hl Hm]. destruct (is_plus l).
      * apply in_flat_map. exists (k, c). split; [exact Hkc | exact (IH c rest v Hrest Hin Hm)].
      * apply level_eqb_eq in Hl. subst k. rewrite Ef. exact (IH c rest v Hrest Hin Hm).
Qed.

Lemma tsearch_raw_spec : forall t f v, wf t -> hash_last f ->
  (In v (tsearch_raw f t) <-> exists n, In v (tget n t) /\ matches f n = true).
Proof.
  intros t f v W Hf. split; [apply tsearch_raw_sound; assumption|].
  intros [n [Hin Hm]]. exact (tsearch_raw_complete n t f v Hf Hin Hm).
Qed.

Lemma tsearch_first_unfold : forall f vs ks,
  tsearch_first f (Node vs ks) =
  match f with
  | [] => hd_opt vs
  | l :: rest =>
      if is_hash l then
        match hd_opt vs with
        | Some v => Some v
        | None => fold_left later (map (fun kc : level * node => tsearch_first f (snd kc)) ks) None
        end
      else if is_plus l then fold_left later (map (fun kc : level * node => tsearch_first rest (snd kc)) ks) None
      else match find_kid l ks with Some c => tsearch_first rest c | None => None end
  end.
Proof.
  intros f vs ks. destruct f as [|l rest]; [reflexivity|]. simpl.
  destruct (is_hash l).
  - destruct (hd_opt vs); [reflexivity|]. f_equal. apply map_ext. intros [k c]. reflexivity.
  - destruct (is_plus l); [f_equal; apply map_ext; intros [k c]; reflexivity | apply go_find_kid].
Qed.

Lemma first_rel_fold : forall (g : level * node -> option N) (h : level * node -> list N) ks a l0,
  (forall kc, In kc ks -> first_rel (g kc) (h kc)) -> first_rel a l0 ->
  first_rel (fold_left later (map g ks) a) (l0 ++ flat_map h ks).
Proof.
  induction ks as [|kc ks IH]; intros a l0 HF Ha; simpl.
  - rewrite app_nil_r. exact Ha.
  - rewrite app_assoc. apply IH; [intros kc' Hkc'; apply HF; right; exact Hkc'|].
    apply first_rel_later; [exact Ha | apply HF; left; reflexivity].
Qed.

Lemma tsearch_first_rel : forall t f, first_rel (tsearch_first f t) (tsearch_raw f t).
Proof.
  intros t. induction t as [vs ks IH] using node_ind_in. intros f.
  rewrite tsearch_first_unfold, tsearch_raw_unfold. destruct f as [|l rest].
  - apply first_rel_hd.
  - destruct (is_hash l).
    + apply first_rel_or.
      apply (first_rel_fold (fun kc => tsearch_first (l :: rest) (snd kc))
                            (fun kc => tsearch_raw (l :: rest) (snd kc)) ks None []); [|reflexivity].
      intros [k c] Hkc. exact (IH k c Hkc _).
    + destruct (is_plus l).
      * apply (first_rel_fold (fun kc => tsearch_first rest (snd kc)) (fun kc => tsearch_raw rest (snd kc)) ks None []); [|reflexivity].
        intros [k c] Hkc. exact (IH k c Hkc _).
      * destruct (find_kid l ks) as [c|] eqn:Ef; [|reflexivity]. exact (IH l c (find_kid_In _ _ _ Ef) _).
Qed.

(* ------------------------------------------------------------------ every value SearchFirst may return *)
Lemma tsearch_firsts_unfold : forall f vs ks,
  tsearch_firsts f (Node vs ks) =
  match f with
  | [] => match vs with [] => [] | v :: _ => [v] end
  | l :: rest =>
      if is_hash l then
        match vs with
        | v :: _ => [v]
        | [] => flat_map (fun kc : level * node => tsearch_firsts f (snd kc)) ks
        end
      else if is_plus l then flat_map (fun kc : level * node => tsearch_firsts rest (snd kc)) ks
      else match find_kid l ks with Some c => tsearch_firsts rest c | None => [] end
  end.
Proof.
  intros f vs ks. destruct f as [|l rest]; [reflexivity|]. simpl.
  destruct (is_hash l).
  - destruct vs; [|reflexivity]. apply flat_map_ext. intros [k c]. reflexivity.
  - destruct (is_plus l); [apply flat_map_ext; intros [k c]; reflexivity | apply go_find_kid].
Qed.

Lemma flat_map_nil_iff : forall (A B : Type) (h : A -> list B) l,
  flat_map h l = [] <-> forall x, In x l -> h x = [].
Proof.
  induction l as [|a l IH]; simpl.
  - split; [intros _ x [] | reflexivity].
  - split.
    + intros H x [<- | Hx]; apply app_eq_nil in H; [exact (proj1 H) | apply IH; [exact (proj2 H) | exact Hx]].
    + intros H. rewrite (H a (or_introl eq_refl)). apply IH. intros x Hx. apply H. right. exact Hx.
Qed.

Lemma firsts_kids : forall (F R : level * node -> list N) ks,
  (forall kc, In kc ks -> (forall v, In v (F kc) -> In v (R kc)) /\ (F kc = [] <-> R kc = [])) ->
  (forall v, In v (flat_map F ks) -> In v (flat_map R ks)) /\ (flat_map F ks = [] <-> flat_map R ks = []).
Proof.
  intros F R ks H. split.
  - intros v Hv. apply in_flat_map in Hv. destruct Hv as [kc [Hkc Hv]].
    apply in_flat_map. exists kc. split; [exact Hkc | apply (H kc Hkc); exact Hv].
  - rewrite !flat_map_nil_iff. split; intros H0 kc Hkc; apply (H kc Hkc); apply H0; exact Hkc.
Qed.

(* the candidates are answers of Search, and there is a candidate exactly when Search finds something *)
Lemma tsearch_firsts_sound : forall t f,
  (forall v, In v (tsearch_firsts f t) -> In v (tsearch_raw f t)) /\
  (tsearch_firsts f t = [] <-> tsearch_raw f t = []).
Proof.
  intros t. induction t as [vs ks IH] using node_ind_in. intros f.
  assert (One : forall (x : N) l, (forall v, In v [x] -> In v (x :: l)) /\ ([x] = [] <-> x :: l = [])).
  { intros x l. split; [intros v [<- | []]; left; reflexivity | split; discriminate]. }
  rewrite tsearch_firsts_unfold, tsearch_raw_unfold. destruct f as [|l rest].
  - destruct vs as [|x vs]; [split; [intros v [] | tauto] | apply One].
  - destruct (is_hash l); [destruct vs as [|x vs]; [simpl app | apply One] | destruct (is_plus l)].
    + apply firsts_kids. intros [k c] Hkc. exact (IH k c Hkc _).
    + apply firsts_kids. intros [k c] Hkc. exact (IH k c Hkc _).
    + destruct (find_kid l ks) as [c|] eqn:Ef; [|split; [intros v [] | tauto]].
      exact (IH l c (find_kid_In _ _ _ Ef) rest).
Qed.

Lemma fold_later_in : forall (g : level * node -> option N) (h : level * node -> list N) ks a v,
  (forall kc w, In kc ks -> g kc = Some w -> In w (h kc)) ->
  fold_left later (map g ks) a = Some v -> a = Some v \/ In v (flat_map h ks).
Proof.
  induction ks as [|kc ks IH]; intros a v Hg H; simpl in H; [left; exact H|].
  destruct (IH (later a (g kc)) v (fun kc' w Hin => Hg kc' w (or_intror Hin)) H) as [H1 | H1].
  - destruct (g kc) as [w|] eqn:E; simpl in H1.
    + inversion H1; subst. right. simpl. apply in_or_app. left. apply (Hg kc v); [left; reflexivity | exact E].
    + left. exact H1.
  - right. simpl. apply in_or_app. right. exact H1.
Qed.

(* the model's own SearchFirst (list order of the children) is one of the candidates *)
Lemma tsearch_first_candidate : forall t f v, tsearch_first f t = Some v -> In v (tsearch_firsts f t).
Proof.
  intros t. induction t as [vs ks IH] using node_ind_in. intros f v.
  assert (K : forall f', fold_left later (map (fun kc => tsearch_first f' (snd kc)) ks) None = Some v ->
                         In v (flat_map (fun kc => tsearch_firsts f' (snd kc)) ks)).
  { intros f' H. apply (fold_later_in _ (fun kc => tsearch_firsts f' (snd kc))) in H.
    - destruct H as [H | H]; [discriminate | exact H].
    - intros [k c] w Hkc Hw. exact (IH k c Hkc _ _ Hw). }
  rewrite tsearch_first_unfold, tsearch_firsts_unfold. destruct f as [|l rest].
  - destruct vs; simpl; [discriminate|]. intros H. inversion H. left. reflexivity.
  - destruct (is_hash l); [|destruct (is_plus l)].
    + destruct vs as [|x vs]; simpl hd_opt; cbv iota; [apply K|]. intros H. inversion H. left. reflexivity.
    + apply K.
    + destruct (find_kid l ks) as [c|] eqn:Ef; [|discriminate]. exact (IH l c (find_kid_In _ _ _ Ef) _ _).
Qed.

Lemma search_first_candidates : forall (t : node) (f : list level),
  (forall v, In v (tsearch_firsts f t) -> In v (tsearch_raw f t)) /\
  (tsearch_firsts f t = [] <-> tsearch_raw f t = []) /\
  (forall v, tsearch_first f t = Some v -> In v (tsearch_firsts f t)).
Proof.
  intros t f. destruct (tsearch_firsts_sound t f) as [H1 H2].
  split; [exact H1 | split; [exact H2 | exact (tsearch_first_candidate t f)]].
Qed.
