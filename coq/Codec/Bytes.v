(* Bytes.v — bytes as numbers, lengths in N, take and drop: the list facts of the codec proofs. *)
From Coq Require Import List NArith ZArith Bool Lia ZifyN ZifyNat ZifyBool.
From Coq.Strings Require Import Byte.
From GM Require Import Codec.Packet Codec.WF Codec.Enc.
Import ListNotations.
Open Scope N_scope.

(* lia for goals that divide or take remainders by constants *)
Ltac dlia := zify; Z.div_mod_to_equations; lia.

Lemma b2n_lt b : b2n b < 256.
Proof. unfold b2n. pose proof (Byte.to_N_bounded b). lia. Qed.

Lemma b2n_n2b n : b2n (n2b n) = n mod 256.
Proof.
  unfold n2b, b2n. destruct (Byte.of_N (n mod 256)) as [b |] eqn:E.
  - apply Byte.to_of_N. exact E.
  - apply Byte.of_N_None_iff in E. pose proof (N.mod_lt n 256). lia.
Qed.

Lemma b2n_n2b_small n : n < 256 -> b2n (n2b n) = n.
Proof. intros H. rewrite b2n_n2b. apply N.mod_small. exact H. Qed.

Lemma qos_successful_le q : qos_successful q = (q <=? 2).
Proof. unfold qos_successful. lia. Qed.

Lemma n2b_eq a b : a mod 256 = b mod 256 -> n2b a = n2b b.
Proof. unfold n2b. intros ->. reflexivity. Qed.

(* byte(x) | 0x80 *)
Lemma lor_128_byte b : N.lor (b2n b) 128 = b2n b mod 128 + 128.
Proof. destruct b; vm_compute; reflexivity. Qed.

Lemma lor_128 x : N.lor (x mod 256) 128 = x mod 128 + 128.
Proof.
  rewrite <- b2n_n2b, lor_128_byte, b2n_n2b. dlia.
Qed.

Lemma land_shiftl_low a b s : a < 2 ^ s -> N.land a (N.shiftl b s) = 0.
Proof.
  intros H. apply N.bits_inj_0. intros n. rewrite N.land_spec.
  destruct (N.ltb_spec n s) as [L | L].
  - rewrite (N.shiftl_spec_low b s n L). apply andb_false_r.
  - destruct (N.eq_dec a 0) as [-> | NZ]; [rewrite N.bits_0; reflexivity |].
    rewrite (N.bits_above_log2 a n); [reflexivity |].
    apply N.log2_lt_pow2; [lia |].
    apply N.lt_le_trans with (2 ^ s); [assumption |]. apply N.pow_le_mono_r; lia.
Qed.

Lemma lor_shiftl_add a b s : a < 2 ^ s -> N.lor a (N.shiftl b s) = a + b * 2 ^ s.
Proof.
  intros H. rewrite <- N.lxor_lor by (apply land_shiftl_low; assumption).
  rewrite <- N.add_nocarry_lxor by (apply land_shiftl_low; assumption).
  rewrite N.shiftl_mul_pow2. reflexivity.
Qed.

Lemma lor_lt_pow2 a b n : a < 2 ^ n -> b < 2 ^ n -> N.lor a b < 2 ^ n.
Proof.
  intros Ha Hb. rewrite <- (N.mod_small a (2 ^ n) Ha), <- (N.mod_small b (2 ^ n) Hb).
  rewrite <- !N.land_ones, <- N.land_lor_distr_l, N.land_ones. apply N.mod_lt, N.pow_nonzero. lia.
Qed.

Lemma blen_nil : blen [] = 0. Proof. reflexivity. Qed.
Lemma blen_cons x l : blen (x :: l) = 1 + blen l.
Proof. unfold blen. cbn [length]. lia. Qed.
Lemma blen_app a b : blen (a ++ b) = blen a + blen b.
Proof. unfold blen. rewrite app_length. lia. Qed.
Lemma blen_rev a : blen (rev a) = blen a.
Proof. unfold blen. rewrite rev_length. reflexivity. Qed.

Lemma blen_take n l : n <= blen l -> blen (take n l) = n.
Proof. unfold blen, take. intros H. rewrite firstn_length. lia. Qed.
Lemma blen_drop n l : blen (drop n l) = blen l - n.
Proof. unfold blen, drop. rewrite skipn_length. lia. Qed.

Lemma skipn_add {A} (a b : nat) (l : list A) : skipn a (skipn b l) = skipn (b + a) l.
Proof.
  revert l. induction b as [| b IH]; intros l; [reflexivity |].
  destruct l; [cbn; destruct a; reflexivity | cbn [skipn Nat.add]; apply IH].
Qed.

Lemma drop_drop a b l : drop a (drop b l) = drop (b + a) l.
Proof.
  unfold drop. rewrite skipn_add. f_equal. lia.
Qed.

Lemma drop_all n l : blen l <= n -> drop n l = [].
Proof. unfold drop, blen. intros H. apply skipn_all2. lia. Qed.

Lemma take_all n l : blen l <= n -> take n l = l.
Proof. unfold take, blen. intros H. apply firstn_all2. lia. Qed.

Lemma take_app_exact w r : take (blen w) (w ++ r) = w.
Proof.
  unfold take, blen. rewrite Nat2N.id.
  rewrite firstn_app, Nat.sub_diag, firstn_all. cbn [firstn]. apply app_nil_r.
Qed.
Lemma drop_app_exact w r : drop (blen w) (w ++ r) = r.
Proof.
  unfold drop, blen. rewrite Nat2N.id.
  rewrite skipn_app, Nat.sub_diag, skipn_all. reflexivity.
Qed.

Lemma take_app_n n w r : n = blen w -> take n (w ++ r) = w.
Proof. intros ->. apply take_app_exact. Qed.
Lemma drop_app_n n w r : n = blen w -> drop n (w ++ r) = r.
Proof. intros ->. apply drop_app_exact. Qed.

Lemma drop_cons n x l : 1 <= n -> drop n (x :: l) = drop (n - 1) l.
Proof.
  intros H. unfold drop. replace (N.to_nat n) with (S (N.to_nat (n - 1))) by lia. reflexivity.
Qed.

Lemma blen_repeat x n : blen (repeat x n) = N.of_nat n.
Proof. unfold blen. rewrite repeat_length. reflexivity. Qed.
Lemma blen_zeros n : blen (zeros n) = n.
Proof. unfold zeros. rewrite blen_repeat. lia. Qed.
