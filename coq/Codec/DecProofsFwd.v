(* DecProofsFwd.v — C02: admitted application messages are forwardable (from the walk of
   DecProofsSafe.v); DetectPacket agrees with the header-declared extent; what holds of
   CONNECT locality. *)
From Coq Require Import List NArith ZArith Bool Lia ZifyN ZifyNat ZifyBool.
From Coq.Strings Require Import Byte.
From GM Require Import Codec.Packet Codec.WF Codec.Dec Codec.RefDecode Codec.DecProofsBase Codec.DecProofsSafe
     Codec.DecProofsLocal.
From GM Require Codec.DetectEquiv.
Import ListNotations.
Open Scope N_scope.

(* ---------- forwardable ---------- *)
Theorem publish_forwardable_thm bs d m id n :
  decode_go TPublish bs = DOk (Publish d m id) n -> forwardable m.
Proof. intros H. pose proof (decode_wp TPublish bs) as P. rewrite H in P. apply P. Qed.

Theorem will_forwardable_thm bs c m n :
  decode_go TConnect bs = DOk (Connect c) n -> c_will c = Some m -> forwardable m.
Proof.
  intros H Hw. pose proof (decode_wp TConnect bs) as P. rewrite H in P.
  cbn [dwp forwards] in P. rewrite Hw in P. apply P.
Qed.

(* ---------- DetectPacket ---------- *)
Theorem detect_agrees bs l t n :
  detect_go bs = Detected l t -> extent bs = Some n ->
  l = Z.of_N n /\ exists b0 r, bs = b0 :: r /\ t = nibble_hi b0.
Proof.
  intros Hd He. destruct (extent_inv _ _ He) as (b0 & r & rl & k & -> & Er & -> & _).
  pose proof (DetectEquiv.detect_len b0 r rl k _ Er) as Hi.
  rewrite DetectEquiv.detect_equiv, Hd in Hi. cbn [DetectEquiv.abs_det] in Hi.
  revert Hi. destruct (Z.ltb_spec 0 l) as [Hl | Hl]; [| discriminate]. intros Hi. apply DetectEquiv.DetLen_inj in Hi. destruct Hi as [Hn ->].
  split; [lia | exists b0, r; split; reflexivity].
Qed.

(* ---------- CONNECT: successful decodes are stable under extension ---------- *)
Definition ext_stable {A} (f : bytes -> rd A) : Prop :=
  forall buf ext v n, f buf = ROk v n -> f (buf ++ ext) = ROk v n.

Lemma stable_u8 : ext_stable read_uint8.
Proof.
  intros buf ext v n. rewrite !read_uint8_eq. destruct buf as [| b r]; [discriminate | trivial].
Qed.

Lemma stable_u16 : ext_stable (fun buf => read_uint buf 2).
Proof.
  intros buf ext v n. cbv beta. rewrite !read_uint_2. destruct buf as [| b0 [| b1 r]]; try discriminate. trivial.
Qed.

Lemma stable_lp : ext_stable read_lp_bytes.
Proof.
  intros buf ext v n. rewrite !read_lp_bytes_eq. destruct buf as [| b0 [| b1 r]]; try discriminate.
  cbn [app]. cbv zeta. set (l := 256 * b2n b0 + b2n b1).
  destruct (len r <? l) eqn:E; [discriminate |].
  rewrite len_app. destruct (len r + len ext <? l) eqn:E'; [lia |].
  rewrite firstn_app. replace (N.to_nat l - length r)%nat with 0%nat by (unfold len in E; lia).
  cbn [firstn]. rewrite app_nil_r. trivial.
Qed.

Lemma skipn_app_le {A} (n : nat) (l1 l2 : list A) : (n <= length l1)%nat -> skipn n (l1 ++ l2) = skipn n l1 ++ l2.
Proof.
  intros H. rewrite skipn_app. replace (n - length l1)%nat with 0%nat by lia. reflexivity.
Qed.

Lemma rd_at_ext {A} src ext total (f : bytes -> rd A) k k' p m :
  ext_stable f ->
  rd_at src total f k = DOk p m ->
  (forall v t', k v t' = DOk p m -> k' v t' = DOk p m) ->
  rd_at (src ++ ext) total f k' = DOk p m.
Proof.
  intros Hs H Hk. unfold rd_at, slice_from in *.
  destruct (total <=? len src) eqn:E; [| discriminate].
  rewrite len_app. destruct (total <=? len src + len ext) eqn:E'; [| lia].
  rewrite skipn_app_le by (unfold len in E; lia).
  destruct (f (skipn (N.to_nat total) src)) as [v n | n |] eqn:Ef; try discriminate.
  rewrite (Hs _ ext _ _ Ef). apply Hk. exact H.
Qed.

Lemma header_ext src ext t a b c :
  decode_header src t = HOk a b c -> decode_header (src ++ ext) t = HOk a b c.
Proof.
  intros H. destruct (header_ok_inv _ _ _ _ _ H) as (b0 & r & k & -> & Hty & -> & Hfl & Er & -> & Hk1 & Hk4 & Hl & _).
  rewrite decode_header_eq in *. unfold header_spec in *. cbn [app].
  destruct r as [| x y]; [discriminate |]. cbn [app].
  destruct (negb _); [discriminate |]. destruct (_ && _); [discriminate |].
  change (x :: y ++ ext) with ((x :: y) ++ ext).
  unfold remaining_length in *.
  rewrite (remlen_prefix _ _ _ ((x :: y) ++ ext) _ _ _ Er).
  - rewrite Er in H. rewrite len_skipn, len_app. rewrite len_skipn in H.
    destruct (len (x :: y) - N.of_nat (N.to_nat k) <? c) eqn:E1; [discriminate |].
    destruct (len (x :: y) + len ext - N.of_nat (N.to_nat k) <? c) eqn:E2; [lia | reflexivity].
  - rewrite firstn_app. rewrite len_cons in Hl.
    replace (N.to_nat k - length (x :: y))%nat with 0%nat by (unfold len in Hl; cbn [length] in *; lia).
    cbn [firstn]. apply app_nil_r.
Qed.

Ltac ext_step :=
  match goal with
  | H : DErr _ = DOk _ _ |- _ => discriminate H
  | H : DPanic = DOk _ _ |- _ => discriminate H
  | H : (if ?b then _ else _) = DOk _ _ |- _ => destruct b eqn:?
  | H : rd_at ?src ?total ?f ?k = DOk ?p ?m |- rd_at (?src ++ ?ext) ?total ?f ?k' = DOk ?p ?m =>
      apply (rd_at_ext src ext total f k k' p m);
      [ first [exact stable_u8 | exact stable_u16 | exact stable_lp] | exact H
      | let v := fresh "v" in let t' := fresh "t'" in let H' := fresh "H'" in
        clear H; intros v t' H'; cbv beta in * ]
  | H : ?x = DOk _ _ |- ?x = DOk _ _ => exact H
  end.

Theorem connect_ok_ext src ext p m :
  decode_connect src = DOk p m -> decode_connect (src ++ ext) = DOk p m.
Proof.
  unfold decode_connect.
  destruct (decode_header src TConnect) as [total flags rl | n |] eqn:Eh; try discriminate.
  rewrite (header_ext _ ext _ _ _ _ Eh). cbv zeta. intros H.
  repeat (ext_step; cbv zeta in * ).
Qed.

(* C02_local_connect_partial *)
Theorem connect_local_partial bs tail n p m :
  extent bs = Some n -> n <= len bs ->
  decode_go TConnect (firstn (N.to_nat n) bs) = DOk p m ->
  decode_go TConnect (bs ++ tail) = DOk p m.
Proof.
  intros He Hn H. cbn [decode_go] in *.
  rewrite <- (firstn_skipn (N.to_nat n) bs). rewrite <- app_assoc.
  apply connect_ok_ext. exact H.
Qed.
