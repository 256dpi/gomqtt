(* DecProofsSpec3.v — C02 spec equivalence, part 3: CONNECT on framed buffers, and
   the theorems: every type on framed buffers, every type but CONNECT on arbitrary ones. *)
From Coq Require Import List NArith ZArith Bool Lia ZifyN ZifyNat ZifyBool.
From Coq.Strings Require Import Byte.
From GM Require Import Codec.Packet Codec.Dec Codec.RefDecode Codec.DecProofsBase Codec.DecProofsSafe
     Codec.DecProofsLocal Codec.DecProofsSpec Codec.DecProofsSpec2.
Import ListNotations.
Open Scope N_scope.

(* ---------- CONNECT ---------- *)
Lemma version_check name v :
  (if negb (v =? 4) && negb (v =? 3) then true else negb (bytes_eqb name (version_name v)))
  = negb ((bytes_eqb name MQTT && (v =? 4)) || (bytes_eqb name MQIsdp && (v =? 3))).
Proof.
  unfold version_name.
  destruct (v =? 4) eqn:E4; destruct (v =? 3) eqn:E3; cbn [negb andb]; try lia.
  - rewrite andb_true_r, andb_false_r, orb_false_r. reflexivity.
  - rewrite andb_true_r, andb_false_r. reflexivity.
Qed.

(* the last statement of Connect.Decode against the end of the body *)
Lemma connect_fin src total rs (end_ : N) (p : packet) :
  at_ src total rs -> end_ = len src ->
  ok_part (if total <? end_ then DErr total else DOk p total) =
  match (match Some (p, rs) with
         | Some (a, []) => Some a
         | Some (a, _ :: _) => None
         | None => None
         end) with
  | Some q => Some (q, len src)
  | None => None
  end.
Proof.
  intros Hat ->. pose proof (at_len _ _ _ Hat) as Hl. destruct Hat as [Ht _].
  destruct rs as [| x y].
  - rewrite len_nil in Hl. destruct (total <? len src) eqn:E; [lia |].
    cbn [ok_part]. do 2 f_equal. lia.
  - rewrite len_cons in Hl. destruct (total <? len src) eqn:E; [reflexivity | lia].
Qed.

Ltac lp_step Hat v rs Ep Hat' := step rp_lp Hat v rs Ep Hat'; [| reflexivity].

Lemma connect_framed src :
  extent src = Some (len src) -> ok_part (decode_connect src) = ref_decode TConnect src.
Proof.
  intros He. unfold decode_connect. apply (framed_reduce _ _ _ He). intros b0 k rl body Hl Ht Hat _.
  assert (Hend : 1 + k + rl = len src) by lia.
  cbn [body_grammar]. unfold connect_body, parse_all. unfold bind, guard, ret. cbv zeta.
  lp_step Hat name rs1 Ep1 Hat1.
  step rp_u8 Hat1 v rs2 Ep2 Hat2; [| reflexivity].
  (* protocol name and level *)
  pose proof (version_check name v) as Hv.
  destruct (negb (v =? 4) && negb (v =? 3)) eqn:Ev.
  { symmetry in Hv. apply negb_true_iff in Hv. rewrite Hv. reflexivity. }
  destruct (negb (bytes_eqb name (version_name v))) eqn:En.
  { symmetry in Hv. apply negb_true_iff in Hv. rewrite Hv. reflexivity. }
  symmetry in Hv. apply negb_false_iff in Hv. rewrite Hv.
  (* connect flags *)
  step rp_u8 Hat2 cf rs3 Ep3 Hat3; [| reflexivity].
  rewrite !bit_testbit, land_shiftr_3, land1_eq0. change (2 ^ 3) with 8.
  set (uf := testbit cf 7). set (pf := testbit cf 6). set (wr := testbit cf 5).
  set (wf := testbit cf 2). set (clean := testbit cf 1). set (wq := (cf / 8) mod 4).
  destruct (negb (testbit cf 0)); [| reflexivity]. cbn [negb].
  rewrite qos_successful_le. destruct (wq <=? 2) eqn:Eq; [| reflexivity]. cbn [negb].
  replace (negb wf && (wr || negb (wq =? 0))) with (negb (wf || ((wq =? 0) && negb wr)))
    by (destruct wf, wr, (wq =? 0); reflexivity).
  destruct (wf || ((wq =? 0) && negb wr)) eqn:Ew; [| reflexivity]. cbn [negb].
  replace (negb uf && pf) with (negb (uf || negb pf)) by (destruct uf, pf; reflexivity).
  destruct (uf || negb pf) eqn:Eu; [| reflexivity]. cbn [negb].
  (* keep alive, client id *)
  step rp_u16 Hat3 ka rs4 Ep4 Hat4; [| reflexivity].
  lp_step Hat4 cid rs5 Ep5 Hat5.
  change (blen cid) with (len cid).
  replace ((len cid =? 0) && negb clean) with (negb (negb (len cid =? 0) || clean))
    by (destruct (len cid =? 0), clean; reflexivity).
  destruct (negb (len cid =? 0) || clean) eqn:Ec; [| reflexivity]. cbn [negb].
  (* will, username, password *)
  destruct wf.
  - lp_step Hat5 wt rs6 Ep6 Hat6.
    change (blen wt) with (len wt).
    destruct (len wt =? 0) eqn:Ewt; [reflexivity |]. cbn [negb].
    lp_step Hat6 wp rs7 Ep7 Hat7.
    destruct uf.
    + lp_step Hat7 un rs8 Ep8 Hat8.
      destruct pf.
      * lp_step Hat8 pw rs9 Ep9 Hat9. apply (connect_fin _ _ _ _ _ Hat9 Hend).
      * apply (connect_fin _ _ _ _ _ Hat8 Hend).
    + destruct pf.
      * lp_step Hat7 pw rs9 Ep9 Hat9. apply (connect_fin _ _ _ _ _ Hat9 Hend).
      * apply (connect_fin _ _ _ _ _ Hat7 Hend).
  - destruct uf.
    + lp_step Hat5 un rs8 Ep8 Hat8.
      destruct pf.
      * lp_step Hat8 pw rs9 Ep9 Hat9. apply (connect_fin _ _ _ _ _ Hat9 Hend).
      * apply (connect_fin _ _ _ _ _ Hat8 Hend).
    + destruct pf.
      * lp_step Hat5 pw rs9 Ep9 Hat9. apply (connect_fin _ _ _ _ _ Hat9 Hend).
      * apply (connect_fin _ _ _ _ _ Hat5 Hend).
Qed.

(* ---------- every type, framed ---------- *)
Theorem spec_framed t src :
  extent src = Some (len src) -> ok_part (decode_go t src) = ref_decode t src.
Proof.
  intros He. destruct t; cbn [decode_go];
    first [ apply connect_framed | apply connack_framed | apply publish_framed | apply subscribe_framed
          | apply suback_framed | apply unsubscribe_framed
          | apply identified_framed; [| reflexivity] | apply naked_framed; [| reflexivity] ]; exact He.
Qed.

(* ---------- arbitrary buffers ---------- *)
(* the reference decoder is local by construction *)
Lemma ref_extent t src p m : ref_decode t src = Some (p, m) -> extent src = Some m /\ m <= len src.
Proof.
  unfold ref_decode, extent. destruct src as [| b0 r]; [discriminate |].
  destruct (negb _); [discriminate |]. destruct (_ && _); [discriminate |].
  destruct (remaining_length r) as [[[rl k] after] |] eqn:Er; [| discriminate].
  destruct (remlen_bounds _ _ _ _ _ _ Er) as (H1 & H2 & H3 & H4).
  destruct (blen after <? rl) eqn:E; [discriminate |].
  destruct (parse_all _ _); [| discriminate].
  intros H. apply Some_inj2 in H. destruct H as [_ <-]. split; [reflexivity |].
  subst after. change (blen (skipn (N.to_nat k) r)) with (len (skipn (N.to_nat k) r)) in E.
  rewrite len_skipn in E. rewrite len_cons. lia.
Qed.

Lemma ref_trunc t src n :
  extent src = Some n -> n <= len src -> ref_decode t (firstn (N.to_nat n) src) = ref_decode t src.
Proof.
  intros He Hn. destruct (extent_inv _ _ He) as (b0 & r & rl & k & -> & Er & -> & Hk1 & Hk4 & Hkl).
  rewrite len_cons in Hn.
  replace (N.to_nat (1 + k + rl)) with (S (N.to_nat (k + rl))) by lia. cbn [firstn].
  unfold ref_decode.
  destruct (negb _); [reflexivity |]. destruct (_ && _); [reflexivity |].
  assert (Er' : remaining_length (firstn (N.to_nat (k + rl)) r)
                = Some (rl, k, skipn (N.to_nat k) (firstn (N.to_nat (k + rl)) r))).
  { apply (remlen_prefix _ _ _ _ _ _ _ Er). apply firstn_firstn_le. lia. }
  rewrite Er, Er'.
  change blen with len. rewrite !len_skipn, len_firstn.
  assert (E1 : (N.min (N.of_nat (N.to_nat (k + rl))) (len r) - N.of_nat (N.to_nat k) <? rl) = false) by lia.
  assert (E2 : (len r - N.of_nat (N.to_nat k) <? rl) = false) by lia.
  rewrite E1, E2.
  rewrite skipn_firstn_comm. rewrite firstn_firstn.
  replace (Nat.min (N.to_nat rl) (N.to_nat (k + rl) - N.to_nat k)) with (N.to_nat rl) by lia.
  reflexivity.
Qed.

Lemma extent_firstn src n :
  extent src = Some n -> n <= len src ->
  extent (firstn (N.to_nat n) src) = Some (len (firstn (N.to_nat n) src)).
Proof.
  intros He Hn. rewrite len_firstn. replace (N.min (N.of_nat (N.to_nat n)) (len src)) with n by lia.
  destruct (extent_inv _ _ He) as (b0 & r & rl & k & -> & Er & -> & Hk1 & Hk4 & Hkl).
  replace (N.to_nat (1 + k + rl)) with (S (N.to_nat (k + rl))) by lia. cbn [firstn extent].
  unfold remaining_length in *.
  rewrite (remlen_prefix _ _ _ (firstn (N.to_nat (k + rl)) r) _ _ _ Er); [reflexivity |].
  apply firstn_firstn_le. lia.
Qed.

(* a successful Go decode implies a header-declared extent inside the buffer *)
Lemma header_extent src t total flags rl :
  decode_header src t = HOk total flags rl -> extent src = Some (total + rl) /\ total + rl <= len src.
Proof.
  intros H. destruct (header_ok_inv _ _ _ _ _ H) as (b0 & r & k & -> & _ & _ & _ & Er & -> & _ & _ & Hl & _).
  split; [| assumption]. cbn [extent]. rewrite Er. reflexivity.
Qed.

Lemma go_extent t src p m :
  decode_go t src = DOk p m -> exists n, extent src = Some n /\ n <= len src.
Proof.
  assert (G : forall t', (exists a b c, decode_header src t' = HOk a b c) ->
                         exists n, extent src = Some n /\ n <= len src).
  { intros t' (a & b & c & H). apply header_extent in H. eauto. }
  destruct t; cbn [decode_go];
    unfold decode_connect, decode_connack, decode_publish, decode_identified, decode_subscribe,
           decode_suback, decode_unsubscribe, decode_naked;
    match goal with
    | |- context [decode_header src ?t'] =>
        destruct (decode_header src t') as [a b c | e |] eqn:E; [intros _; apply (G t'); eauto | discriminate | discriminate]
    end.
Qed.

Theorem spec_equiv_eq t src :
  t <> TConnect -> ok_part (decode_go t src) = ref_decode t src.
Proof.
  intros Ht.
  (* without a header-declared extent inside the buffer both refuse *)
  assert (Hnone : (forall n, extent src = Some n -> len src < n) -> ok_part (decode_go t src) = ref_decode t src).
  { intros Hx. destruct (ref_decode t src) as [[p' m'] |] eqn:Er.
    { destruct (ref_extent _ _ _ _ Er) as [He' Hn']. apply Hx in He'. lia. }
    destruct (decode_go t src) as [p m | m |] eqn:Eg; try reflexivity.
    destruct (go_extent _ _ _ _ Eg) as (n' & He' & Hn'). apply Hx in He'. lia. }
  destruct (extent src) as [n |] eqn:He; [| apply Hnone; discriminate].
  destruct (N.leb_spec n (len src)) as [Hn | Hn].
  - rewrite <- (decode_trunc t src n Ht He), <- (ref_trunc t src n He) by exact Hn.
    apply spec_framed, extent_firstn; assumption.
  - apply Hnone. intros n' E. apply Some_inj in E. subst n'. exact Hn.
Qed.

Lemma ok_part_iff d o : ok_part d = o -> forall p n, d = DOk p n <-> o = Some (p, n).
Proof.
  intros <- p n. destruct d as [p' n' | n' |]; cbn [ok_part]; split; intros H; try discriminate.
  - apply DOk_inj in H. destruct H as [-> ->]. reflexivity.
  - apply Some_inj2 in H. destruct H as [-> ->]. reflexivity.
Qed.

(* C02_spec_equiv *)
Theorem spec_equiv t src p n :
  t <> TConnect -> (decode_go t src = DOk p n <-> ref_decode t src = Some (p, n)).
Proof. intros Ht. apply ok_part_iff. apply spec_equiv_eq. assumption. Qed.

Theorem spec_equiv_framed t src p n :
  extent src = Some (len src) -> (decode_go t src = DOk p n <-> ref_decode t src = Some (p, n)).
Proof. intros He. apply ok_part_iff. apply spec_framed. assumption. Qed.
