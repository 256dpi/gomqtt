(* DecProofsBase.v — facts about the helpers of Dec.v: lengths, checked slices,
   readUint / readLPBytes / readVarint / decodeHeader in arithmetic form. *)
From Coq Require Import List NArith ZArith Bool Lia ZifyN ZifyNat ZifyBool.
From Coq.Strings Require Import Byte.
From GM Require Import Codec.Packet Codec.Dec Codec.RefDecode Codec.Bytes.
Import ListNotations.
Open Scope N_scope.

(* injectivity as lemmas: `injection` would partially evaluate sums such as 2 + l *)
Lemma ROk_inj {A} (v v' : A) n n' : ROk v n = ROk v' n' -> v = v' /\ n = n'.
Proof. intros H; injection H; auto. Qed.
Lemma RErr_inj {A} n n' : @RErr A n = RErr n' -> n = n'.
Proof. intros H; injection H; auto. Qed.
Lemma DOk_inj p p' n n' : DOk p n = DOk p' n' -> p = p' /\ n = n'.
Proof. intros H; injection H; auto. Qed.
Lemma DErr_inj n n' : DErr n = DErr n' -> n = n'.
Proof. intros H; injection H; auto. Qed.
Lemma HOk_inj a b c a' b' c' : HOk a b c = HOk a' b' c' -> a = a' /\ b = b' /\ c = c'.
Proof. intros H; injection H; auto. Qed.
Lemma HErr_inj n n' : HErr n = HErr n' -> n = n'.
Proof. intros H; injection H; auto. Qed.

Lemma Some_inj {A} (a b : A) : Some a = Some b -> a = b.
Proof. intros H; injection H; auto. Qed.
Lemma Some_inj2 {A B} (a a' : A) (b b' : B) : Some (a, b) = Some (a', b') -> a = a' /\ b = b'.
Proof. intros H; injection H; auto. Qed.
Lemma Some_inj3 {A B C} (a a' : A) (b b' : B) (c c' : C) :
  Some (a, b, c) = Some (a', b', c') -> a = a' /\ b = b' /\ c = c'.
Proof. intros H; injection H; auto. Qed.

(* ---------- lengths ---------- *)
Lemma len_nil : len [] = 0.
Proof. reflexivity. Qed.

Lemma len_cons b l : len (b :: l) = 1 + len l.
Proof. exact (blen_cons b l). Qed.

Lemma len_app a b : len (a ++ b) = len a + len b.
Proof. exact (blen_app a b). Qed.

Lemma len_skipn n l : len (skipn n l) = len l - N.of_nat n.
Proof. unfold len. rewrite skipn_length. lia. Qed.

Lemma len_firstn n l : len (firstn n l) = N.min (N.of_nat n) (len l).
Proof. unfold len. rewrite firstn_length. lia. Qed.

Lemma len_0 l : len l = 0 -> l = [].
Proof. destruct l; [reflexivity | rewrite len_cons; lia]. Qed.

(* Dec.v has a b2n and a qos_successful of its own, with the bodies of Enc.v's *)
Lemma b2n_lt b : b2n b < 256.
Proof. exact (Bytes.b2n_lt b). Qed.

Lemma qos_successful_le q : qos_successful q = (q <=? 2).
Proof. exact (Bytes.qos_successful_le q). Qed.

(* ---------- checked slices ---------- *)
Lemma slice_from_ok bs lo : lo <= len bs -> slice_from bs lo = Some (skipn (N.to_nat lo) bs).
Proof. intros H. unfold slice_from. destruct (lo <=? len bs) eqn:E; [reflexivity | lia]. Qed.

Lemma slice_to_ok bs hi : hi <= len bs -> slice_to bs hi = Some (firstn (N.to_nat hi) bs).
Proof. intros H. unfold slice_to. destruct (hi <=? len bs) eqn:E; [reflexivity | lia]. Qed.

Lemma slice_ok bs lo hi : lo <= hi -> hi <= len bs ->
  slice bs lo hi = Some (firstn (N.to_nat (hi - lo)) (skipn (N.to_nat lo) bs)).
Proof.
  intros H1 H2. unfold slice.
  destruct (lo <=? hi) eqn:E1; [| lia]. destruct (hi <=? len bs) eqn:E2; [reflexivity | lia].
Qed.

(* ---------- bits: the shifts and masks of the Go code are the div and mod of the standard ---------- *)
Lemma land_shiftr_ones x i k : N.land (N.shiftr x i) (N.ones k) = (x / 2 ^ i) mod 2 ^ k.
Proof. rewrite N.land_ones, N.shiftr_div_pow2. reflexivity. Qed.

Lemma bit_testbit x i : bit x i = testbit x i.
Proof. unfold bit, testbit. change 1 with (N.ones 1) at 1. rewrite land_shiftr_ones. reflexivity. Qed.

Lemma land_shiftr_3 x i : N.land (N.shiftr x i) 3 = (x / 2 ^ i) mod 4.
Proof. change 3 with (N.ones 2). apply land_shiftr_ones. Qed.

Lemma land1_testbit x : (N.land x 1 =? 1) = testbit x 0.
Proof. rewrite <- (N.shiftr_0_r x) at 1. apply bit_testbit. Qed.

Lemma land1_eq0 x : (N.land x 1 =? 0) = negb (testbit x 0).
Proof.
  rewrite <- land1_testbit. change 1 with (N.ones 1) at 1 2. rewrite !N.land_ones. change (2 ^ 1) with 2.
  pose proof (N.mod_lt x 2 ltac:(lia)) as H. destruct (x mod 2) as [| [p | p |]]; try reflexivity; lia.
Qed.

(* ---------- readUint ---------- *)
Lemma read_uint_1 buf :
  read_uint buf 1 = match buf with [] => RErr 0 | b :: _ => ROk (b2n b) 1 end.
Proof.
  unfold read_uint. destruct buf as [| b r].
  - reflexivity.
  - rewrite len_cons. destruct (1 + len r <? 1) eqn:E; [lia | reflexivity].
Qed.

Lemma read_uint_2 buf :
  read_uint buf 2 = match buf with
                    | b0 :: b1 :: _ => ROk (256 * b2n b0 + b2n b1) 2
                    | _ => RErr 0
                    end.
Proof.
  unfold read_uint. destruct buf as [| b0 [| b1 r]].
  - reflexivity.
  - reflexivity.
  - rewrite !len_cons. destruct (1 + (1 + len r) <? 2) eqn:E; [lia |].
    change (index (b0 :: b1 :: r) 1) with (Some b1). change (index (b0 :: b1 :: r) 0) with (Some b0).
    cbv iota beta. f_equal. rewrite lor_shiftl_add by (pose proof (b2n_lt b1); cbn; lia).
    change (2 ^ 8) with 256. lia.
Qed.

Lemma read_uint8_eq buf : read_uint8 buf = match buf with [] => RErr 0 | b :: _ => ROk (b2n b) 1 end.
Proof. apply read_uint_1. Qed.

(* ---------- readLPBytes ---------- *)
Lemma read_lp_bytes_eq buf :
  read_lp_bytes buf =
  match buf with
  | b0 :: b1 :: r =>
      let l := 256 * b2n b0 + b2n b1 in
      if len r <? l then RErr 2 else ROk (firstn (N.to_nat l) r) (2 + l)
  | _ => RErr 0
  end.
Proof.
  unfold read_lp_bytes. rewrite read_uint_2. destruct buf as [| b0 [| b1 r]]; try reflexivity.
  set (l := 256 * b2n b0 + b2n b1).
  rewrite slice_from_ok by (rewrite !len_cons; lia).
  change (skipn (N.to_nat 2) (b0 :: b1 :: r)) with r.
  cbv zeta. destruct (len r <? l) eqn:E; [reflexivity |].
  rewrite slice_ok by (rewrite ?len_cons; lia).
  change (skipn (N.to_nat 2) (b0 :: b1 :: r)) with r.
  replace (2 + l - 2) with l by lia. reflexivity.
Qed.

(* ---------- Uvarint / readVarint in arithmetic form ---------- *)
Lemma u64_small x : x < 18446744073709551616 -> u64 x = x.
Proof. intros H. unfold u64. apply N.mod_small. assumption. Qed.

Lemma mul_bound64 a p : a < 256 -> p <= 2097152 -> a * p < 18446744073709551616.
Proof. intros; nia. Qed.

Lemma lt_pow_step x a p : x < p -> a < 128 -> x + a * p < p * 128.
Proof. intros; nia. Qed.

Lemma land127 x : 128 <= x < 256 -> N.land x 127 = x - 128.
Proof. intros H. change 127 with (N.ones 7). rewrite N.land_ones. change (2 ^ 7) with 128. Bytes.dlia. Qed.

Lemma lor_u64 x a s p : p = 2 ^ s -> x < p -> a < 256 -> p <= 2097152 ->
  N.lor x (u64 (N.shiftl a s)) = x + a * p.
Proof.
  intros -> Hx Ha Hp. rewrite u64_small by (rewrite N.shiftl_mul_pow2; apply mul_bound64; assumption).
  apply lor_shiftl_add. assumption.
Qed.

(* the loop of binary.Uvarint agrees with the 2.2.3 algorithm as long as at most 4 bytes are looked at *)
Lemma pow2_s7 s : 2 ^ (s + 7) = 2 ^ s * 128.
Proof. rewrite N.pow_add_r. reflexivity. Qed.

Lemma uvarint_loop_some fuel : forall buf i x s p v k rest,
  s = 7 * i -> p = 2 ^ s ->
  i + N.of_nat fuel <= 4 -> x < p ->
  remlen fuel p buf = Some (v, k, rest) ->
  uvarint_loop buf i x s = UvOk (x + v) (i + k) /\ x + v < p * 128 ^ k /\ 1 <= k /\ k <= N.of_nat fuel
  /\ rest = skipn (N.to_nat k) buf /\ k <= len buf.
Proof.
  induction fuel as [| fuel IH]; intros buf i x s p v k rest Hs Hpp Hi Hx Hr.
  - discriminate.
  - destruct buf as [| b r]; [discriminate |].
    cbn [remlen] in Hr. cbn [uvarint_loop].
    destruct (i =? 10) eqn:E10; [lia |].
    change (Byte.to_N b) with (b2n b) in Hr.
    pose proof (b2n_lt b) as Hb.
    assert (Hp : p <= 2097152).
    { subst p. change 2097152 with (2 ^ 21). apply N.pow_le_mono_r; lia. }
    destruct (b2n b <? 128) eqn:E128.
    + injection Hr as <- <- <-.
      destruct ((i =? 9) && (1 <? b2n b)) eqn:E9; [lia |].
      rewrite (lor_u64 x (b2n b) s p) by assumption.
      rewrite len_cons. repeat split; try lia.
      change (128 ^ 1) with 128. apply lt_pow_step; [assumption | lia].
    + destruct (remlen fuel (p * 128) r) as [[[v' k'] rest'] |] eqn:Er; [| discriminate].
      injection Hr as <- <- <-.
      rewrite land127 by lia. rewrite (lor_u64 x (b2n b - 128) s p) by (try assumption; lia).
      specialize (IH r (i + 1) (x + (b2n b - 128) * p) (s + 7) (p * 128) v' k' rest').
      destruct IH as (H1 & H2 & H3 & H4 & H5 & H6);
        [lia | subst p; symmetry; apply pow2_s7 | lia | apply lt_pow_step; [assumption | lia] | assumption |].
      rewrite H1. rewrite len_cons. repeat split; try lia.
      * f_equal; lia.
      * rewrite N.pow_add_r. change (128 ^ 1) with 128. lia.
      * subst rest'. replace (N.to_nat (k' + 1)) with (S (N.to_nat k')) by lia. reflexivity.
Qed.

Lemma uvarint_loop_none fuel : forall buf i x s p,
  s = 7 * i -> p = 2 ^ s ->
  i + N.of_nat fuel <= 4 -> (length buf <= fuel)%nat ->
  remlen fuel p buf = None ->
  uvarint_loop buf i x s = UvShort.
Proof.
  induction fuel as [| fuel IH]; intros buf i x s p Hs Hpp Hi Hl Hr.
  - destruct buf; [reflexivity | cbn in Hl; lia].
  - destruct buf as [| b r]; [reflexivity |].
    cbn [remlen] in Hr. cbn [uvarint_loop].
    destruct (i =? 10) eqn:E10; [lia |].
    change (Byte.to_N b) with (b2n b) in Hr.
    destruct (b2n b <? 128) eqn:E128; [discriminate |].
    destruct (remlen fuel (p * 128) r) as [[[v' k'] rest'] |] eqn:Er; [discriminate |].
    apply (IH r (i + 1) _ (s + 7) (p * 128)); [lia | subst p; symmetry; apply pow2_s7 | lia | cbn in Hl; lia | assumption].
Qed.

(* remlen looks at no more than `fuel` bytes *)
Lemma remlen_firstn fuel : forall mult buf,
  remlen fuel mult (firstn fuel buf) =
  match remlen fuel mult buf with
  | Some (v, k, _) => Some (v, k, skipn (N.to_nat k) (firstn fuel buf))
  | None => None
  end.
Proof.
  induction fuel as [| fuel IH]; intros mult buf.
  - reflexivity.
  - destruct buf as [| b r]; [reflexivity |].
    cbn [firstn remlen].
    destruct (Byte.to_N b <? 128); [reflexivity |].
    rewrite IH. destruct (remlen fuel (mult * 128) r) as [[[v k] rest] |]; [| reflexivity].
    replace (N.to_nat (k + 1)) with (S (N.to_nat k)) by lia. reflexivity.
Qed.

Lemma remlen_bounds fuel : forall mult buf v k rest,
  remlen fuel mult buf = Some (v, k, rest) ->
  1 <= k /\ k <= N.of_nat fuel /\ k <= len buf /\ rest = skipn (N.to_nat k) buf.
Proof.
  induction fuel as [| fuel IH]; intros mult buf v k rest H.
  - discriminate.
  - destruct buf as [| b r]; [discriminate |]. cbn [remlen] in H.
    destruct (Byte.to_N b <? 128) eqn:E.
    + injection H as <- <- <-. rewrite len_cons. repeat split; try lia.
    + destruct (remlen fuel (mult * 128) r) as [[[v' k'] rest'] |] eqn:Er; [| discriminate].
      injection H as <- <- <-. destruct (IH _ _ _ _ _ Er) as (H1 & H2 & H3 & H4).
      rewrite len_cons. repeat split; try lia.
      subst rest'. replace (N.to_nat (k' + 1)) with (S (N.to_nat k')) by lia. reflexivity.
Qed.

Lemma remlen_value fuel : forall mult buf v k rest,
  remlen fuel mult buf = Some (v, k, rest) -> v + mult <= mult * 128 ^ k.
Proof.
  induction fuel as [| fuel IH]; intros mult buf v k rest H.
  - discriminate.
  - destruct buf as [| b r]; [discriminate |]. cbn [remlen] in H.
    pose proof (Byte.to_N_bounded b) as Hb.
    destruct (Byte.to_N b <? 128) eqn:E.
    + injection H as <- <- <-. change (128 ^ 1) with 128. nia.
    + destruct (remlen fuel (mult * 128) r) as [[[v' k'] rest'] |] eqn:Er; [| discriminate].
      injection H as <- <- <-. pose proof (IH _ _ _ _ _ Er) as H5.
      rewrite N.pow_add_r. change (128 ^ 1) with 128. nia.
Qed.

Lemma read_varint_eq buf :
  read_varint buf = match remaining_length buf with
                    | Some (v, k, _) => ROk v k
                    | None => RErr 0
                    end.
Proof.
  unfold read_varint, remaining_length.
  assert (Hb : exists buf', (if 4 <? len buf then slice_to buf 4 else Some buf) = Some buf'
                           /\ buf' = firstn 4 buf).
  { destruct (4 <? len buf) eqn:E.
    - rewrite slice_to_ok by lia. eexists; split; reflexivity.
    - eexists; split; [reflexivity |]. symmetry. apply firstn_all2. unfold len in E. lia. }
  destruct Hb as (buf' & -> & ->).
  pose proof (remlen_firstn 4 1 buf) as Hf.
  unfold uvarint.
  destruct (remlen 4 1 buf) as [[[v k] rest] |] eqn:Er.
  - destruct (uvarint_loop_some 4 (firstn 4 buf) 0 0 0 1 v k _ eq_refl eq_refl ltac:(lia) ltac:(lia) Hf) as (H1 & _).
    rewrite H1. f_equal.
  - rewrite (uvarint_loop_none 4 (firstn 4 buf) 0 0 0 1); [reflexivity | reflexivity | reflexivity | lia | | exact Hf].
    rewrite firstn_length. lia.
Qed.

(* ---------- decodeHeader in arithmetic form ---------- *)
Definition nibble_hi (b : byte) : N := b2n b / 16.
Definition nibble_lo (b : byte) : N := b2n b mod 16.

Lemma shiftr4 b : N.shiftr (b2n b) 4 = nibble_hi b.
Proof. unfold nibble_hi. rewrite N.shiftr_div_pow2. reflexivity. Qed.

Lemma land15 b : N.land (b2n b) 15 = nibble_lo b.
Proof. unfold nibble_lo. change 15 with (N.ones 4). rewrite N.land_ones. reflexivity. Qed.

Definition header_spec (src : bytes) (t : ptype) : hres :=
  match src with
  | b0 :: r =>
      match r with
      | [] => HErr 0
      | _ =>
          if negb (nibble_hi b0 =? type_code t) then HErr 1 else
          if negb (ptype_eqb t TPublish) && negb (nibble_lo b0 =? default_flags t) then HErr 1 else
          match remaining_length r with
          | None => HErr 1
          | Some (rl, k, after) => if len after <? rl then HErr (1 + k) else HOk (1 + k) (nibble_lo b0) rl
          end
      end
  | [] => HErr 0
  end.

Lemma decode_header_eq src t : decode_header src t = header_spec src t.
Proof.
  unfold decode_header, header_spec.
  destruct src as [| b0 [| b1 r]]; try reflexivity.
  set (r1 := b1 :: r).
  assert (Hl : len (b0 :: r1) <? 2 = false) by (unfold r1; rewrite !len_cons; lia).
  rewrite Hl. cbn [index N.to_nat nth_error].
  rewrite shiftr4, land15.
  destruct (negb (nibble_hi b0 =? type_code t)); [reflexivity |].
  destruct (negb (ptype_eqb t TPublish) && negb (nibble_lo b0 =? default_flags t)); [reflexivity |].
  rewrite slice_from_ok by (rewrite len_cons; lia).
  change (skipn (N.to_nat 1) (b0 :: r1)) with r1.
  rewrite read_varint_eq.
  destruct (remaining_length r1) as [[[rl k] after] |] eqn:Er; [| reflexivity].
  destruct (remlen_bounds _ _ _ _ _ _ Er) as (H1 & H2 & H3 & H4).
  rewrite slice_from_ok by (rewrite len_cons; lia).
  replace (N.to_nat (1 + k)) with (S (N.to_nat k)) by lia.
  cbn [skipn]. rewrite <- H4. reflexivity.
Qed.

(* what a successful header decode tells *)
Lemma header_ok_inv src t total flags rl :
  decode_header src t = HOk total flags rl ->
  exists b0 r k,
    src = b0 :: r /\ nibble_hi b0 = type_code t /\ flags = nibble_lo b0 /\
    (t = TPublish \/ flags = default_flags t) /\
    remaining_length r = Some (rl, k, skipn (N.to_nat k) r) /\ total = 1 + k /\
    1 <= k /\ k <= 4 /\ total + rl <= len src /\ rl < 268435456.
Proof.
  rewrite decode_header_eq. unfold header_spec.
  destruct src as [| b0 [| b1 r]]; try discriminate.
  set (r1 := b1 :: r).
  destruct (negb (nibble_hi b0 =? type_code t)) eqn:Et; [discriminate |].
  destruct (negb (ptype_eqb t TPublish) && negb (nibble_lo b0 =? default_flags t)) eqn:Ef; [discriminate |].
  destruct (remaining_length r1) as [[[rl' k] after] |] eqn:Er; [| discriminate].
  destruct (len after <? rl') eqn:El; [discriminate |].
  intros H. remember (1 + k) as tk eqn:Htk. injection H as <- <- <-.
  destruct (remlen_bounds _ _ _ _ _ _ Er) as (H1 & H2 & H3 & H4).
  pose proof (remlen_value _ _ _ _ _ _ Er) as H5.
  exists b0, r1, k. subst after. rewrite len_skipn in El.
  assert (Hpow : 128 ^ k <= 128 ^ 4) by (apply N.pow_le_mono_r; lia).
  change (128 ^ 4) with 268435456 in Hpow.
  apply negb_false_iff in Et.
  assert (Hfl : t = TPublish \/ nibble_lo b0 = default_flags t).
  { apply andb_false_iff in Ef. destruct Ef as [Ef | Ef]; apply negb_false_iff in Ef.
    + left. unfold ptype_eqb in Ef. destruct t; try reflexivity; discriminate.
    + right. lia. }
  rewrite len_cons.
  repeat split; try lia; try assumption.
Qed.

Lemma header_no_panic src t : decode_header src t <> HPanic.
Proof.
  rewrite decode_header_eq. unfold header_spec.
  destruct src as [| b0 [| b1 r]]; try discriminate.
  destruct (negb _); [discriminate |]. destruct (_ && _); [discriminate |].
  destruct (remaining_length _) as [[[rl k] after] |]; [| discriminate].
  destruct (_ <? _); discriminate.
Qed.

Lemma header_err_bound src t n : decode_header src t = HErr n -> n <= len src.
Proof.
  rewrite decode_header_eq. unfold header_spec.
  destruct src as [| b0 [| b1 r]]; try (intros H; injection H as <-; rewrite ?len_cons; lia).
  destruct (negb _); [intros H; injection H as <-; rewrite !len_cons; lia |].
  destruct (_ && _); [intros H; injection H as <-; rewrite !len_cons; lia |].
  destruct (remaining_length _) as [[[rl k] after] |] eqn:Er; [| intros H; injection H as <-; rewrite !len_cons; lia].
  destruct (remlen_bounds _ _ _ _ _ _ Er) as (H1 & H2 & H3 & H4).
  destruct (_ <? _); [| discriminate]. intros H. replace n with (1 + k) by congruence.
  rewrite !len_cons in *. lia.
Qed.

Lemma detect_go_eq b0 b1 r :
  detect_go (b0 :: b1 :: r) =
  match uvarint (b1 :: r) with
  | UvOk rl n => Detected (wrap_int64 (1 + Z.of_N n + int64_of_u64 rl)) (nibble_hi b0)
  | _ => Detected 0 0
  end.
Proof.
  unfold detect_go. assert (Hl : len (b0 :: b1 :: r) <? 2 = false) by (rewrite !len_cons; lia).
  rewrite Hl. change (index (b0 :: b1 :: r) 0) with (Some b0). cbv iota beta zeta.
  rewrite slice_from_ok by (rewrite !len_cons; lia). rewrite shiftr4. reflexivity.
Qed.
