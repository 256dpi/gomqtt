(* Varint.v — the remaining-length encoding of MQTT 2.2.3 as the standard writes it
   (WireSpec.remaining_length_bytes) is what binary.PutUvarint writes (Enc.put_uvarint) and what
   the reference decoder reads back (RefDecode.remlen): one induction on the number of bytes each. *)
From Coq Require Import List NArith ZArith Bool Lia ZifyN ZifyNat ZifyBool.
From Coq.Strings Require Import Byte.
From GM Require Import Codec.Packet Codec.WF Codec.Enc Codec.WireSpec Codec.Bytes.
From GM Require Codec.RefDecode.
Import ListNotations.
Open Scope N_scope.

Lemma byte_of_n2b n : byte_of n = n2b n.
Proof. reflexivity. Qed.

Lemma rlb_step f x :
  remaining_length_bytes (S f) x =
  if x <? 128 then [n2b x] else n2b (x mod 128 + 128) :: remaining_length_bytes f (x / 128).
Proof.
  cbn [remaining_length_bytes]. cbv zeta. rewrite !byte_of_n2b. destruct (N.ltb_spec x 128) as [H | H].
  - rewrite N.div_small, N.mod_small by exact H. reflexivity.
  - destruct (N.ltb_spec 0 (x / 128)) as [_ | H0]; [reflexivity |].
    pose proof (N.div_str_pos x 128). lia.
Qed.

Lemma div128_ltb x n : (x / 128 <? n) = (x <? 128 * n).
Proof. apply eq_true_iff_eq. rewrite !N.ltb_lt. dlia. Qed.

Lemma pow128_succ f x : x < 128 ^ N.of_nat (S f) -> x / 128 < 128 ^ N.of_nat f.
Proof.
  rewrite Nat2N.inj_succ, N.pow_succ_r'. intros H. apply N.div_lt_upper_bound; [lia | exact H].
Qed.

Lemma blen_remaining_length x : x <= max_remaining -> blen (remaining_length x) = varint_len x.
Proof.
  unfold max_remaining, remaining_length, varint_len. intros H. rewrite !rlb_step, !div128_ltb.
  change (128 * (128 * (128 * 128))) with 268435456. change (128 * (128 * 128)) with 2097152.
  change (128 * 128) with 16384.
  destruct (x <? 128); [reflexivity |]. destruct (x <? 16384); [reflexivity |].
  destruct (x <? 2097152); [reflexivity |].
  destruct (N.ltb_spec x 268435456) as [_ | H4]; [reflexivity | lia].
Qed.

Lemma varint_len_go_eq x : x <= max_remaining -> varint_len_go x = varint_len x.
Proof.
  unfold max_remaining, varint_len_go, varint_len, max_varint. intros H.
  destruct (x <? 128); [reflexivity |]. destruct (x <? 16384); [reflexivity |].
  destruct (x <? 2097152); [reflexivity |].
  destruct (N.leb_spec x 268435455) as [_ | H4]; [reflexivity | lia].
Qed.

Lemma varint_len_bounds x : 1 <= varint_len x <= 4.
Proof.
  unfold varint_len. destruct (x <? 128); [lia |]. destruct (x <? 16384); [lia |].
  destruct (x <? 2097152); lia.
Qed.

Lemma put_uvarint_rlb f : forall x buf,
  x < 128 ^ N.of_nat (S f) -> blen (remaining_length_bytes (S f) x) <= blen buf ->
  put_uvarint buf x =
  Some (blen (remaining_length_bytes (S f) x),
        remaining_length_bytes (S f) x ++ drop (blen (remaining_length_bytes (S f) x)) buf).
Proof.
  induction f as [| f IH]; intros x buf Hx; rewrite rlb_step;
    (destruct buf as [| b0 r]; [destruct (x <? 128); rewrite blen_cons, blen_nil; lia |]);
    cbn [put_uvarint]; destruct (N.ltb_spec x 128) as [H | H]; intros Hc.
  - reflexivity.
  - change (N.of_nat 1) with 1 in Hx. lia.
  - reflexivity.
  - rewrite !blen_cons in Hc. rewrite (IH (x / 128) r) by (apply pow128_succ; exact Hx) || lia.
    rewrite lor_128, blen_cons, drop_cons by lia.
    replace (1 + blen (remaining_length_bytes (S f) (x / 128)) - 1)
      with (blen (remaining_length_bytes (S f) (x / 128))) by lia.
    rewrite N.add_comm. reflexivity.
Qed.

Lemma remlen_last fuel mult b r :
  b2n b < 128 -> RefDecode.remlen (S fuel) mult (b :: r) = Some (b2n b * mult, 1, r).
Proof. intros H. cbn [RefDecode.remlen]. apply N.ltb_lt in H. unfold b2n in H. rewrite H. reflexivity. Qed.

Lemma remlen_more fuel mult b r :
  128 <= b2n b ->
  RefDecode.remlen (S fuel) mult (b :: r) =
  match RefDecode.remlen fuel (mult * 128) r with
  | Some (v, k, r') => Some ((b2n b - 128) * mult + v, k + 1, r')
  | None => None
  end.
Proof. intros H. cbn [RefDecode.remlen]. apply N.ltb_ge in H. unfold b2n in H. rewrite H. reflexivity. Qed.

Lemma remlen_rlb f : forall x mult tail, x < 128 ^ N.of_nat (S f) ->
  RefDecode.remlen (S f) mult (remaining_length_bytes (S f) x ++ tail) =
  Some (x * mult, blen (remaining_length_bytes (S f) x), tail).
Proof.
  induction f as [| f IH]; intros x mult tail Hx; rewrite rlb_step;
    destruct (N.ltb_spec x 128) as [H | H]; cbn [app].
  - rewrite remlen_last, b2n_n2b_small by (rewrite ?b2n_n2b_small; lia). reflexivity.
  - change (N.of_nat 1) with 1 in Hx. lia.
  - rewrite remlen_last, b2n_n2b_small by (rewrite ?b2n_n2b_small; lia). reflexivity.
  - pose proof (N.mod_lt x 128 ltac:(lia)) as Hm.
    rewrite remlen_more, b2n_n2b_small by (rewrite ?b2n_n2b_small; lia).
    rewrite IH by (apply pow128_succ; exact Hx). rewrite blen_cons, N.add_sub, (N.add_comm _ 1).
    do 3 f_equal. rewrite (N.div_mod x 128) at 3 by lia. lia.
Qed.

Lemma remaining_length_rlb x tail : x <= max_remaining ->
  RefDecode.remaining_length (remaining_length x ++ tail) = Some (x, varint_len x, tail).
Proof.
  intros H. unfold RefDecode.remaining_length, remaining_length.
  rewrite remlen_rlb by (unfold max_remaining in H; change (128 ^ N.of_nat 4) with 268435456; lia).
  fold (remaining_length x). rewrite blen_remaining_length, N.mul_1_r by exact H. reflexivity.
Qed.
