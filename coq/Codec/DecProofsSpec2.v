(* DecProofsSpec2.v — C02 spec equivalence, part 2: PUBLISH, SUBACK, SUBSCRIBE,
   UNSUBSCRIBE on framed buffers. *)
From Coq Require Import List NArith ZArith Bool Lia ZifyN ZifyNat ZifyBool.
From Coq.Strings Require Import Byte.
From GM Require Import Codec.Packet Codec.Dec Codec.RefDecode Codec.Bytes Codec.DecProofsBase Codec.DecProofsSafe
     Codec.DecProofsLocal Codec.DecProofsSpec.
Import ListNotations.
Open Scope N_scope.

Lemma u16_short cur : len cur < 2 -> u16 cur = None.
Proof. rewrite u16_eq. destruct cur as [| b0 [| b1 r]]; rewrite ?len_cons; try reflexivity; lia. Qed.

Lemma u8_short cur : len cur < 1 -> u8 cur = None.
Proof. destruct cur; rewrite ?len_cons; [reflexivity | lia]. Qed.

(* ---------- PUBLISH ---------- *)
Lemma publish_framed src :
  extent src = Some (len src) -> ok_part (decode_publish src) = ref_decode TPublish src.
Proof.
  intros He. unfold decode_publish. apply (framed_reduce _ _ _ He). intros b0 k rl body Hl Ht Hat Hcut.
  rewrite Hcut.
  rewrite bit_testbit, land1_testbit, land_shiftr_3. change (2 ^ 1) with 2.
  set (flags := nibble_lo b0). set (qos := (flags / 2) mod 4).
  cbn [body_grammar]. unfold publish_body. fold qos.
  unfold parse_all, bind, guard, ret, RefDecode.rest. cbv zeta.
  rewrite qos_successful_le.
  destruct (qos <=? 2) eqn:Eq; [| reflexivity]. cbn [negb].
  step rp_lp Hat topic rs Ep Hat'; [| reflexivity].
  apply lp_len in Ep. destruct Ep as [Ep _]. change (blen topic) with (len topic).
  destruct (len topic =? 0) eqn:Et; [reflexivity |]. cbn [negb].
  pose proof (at_len _ _ _ Hat') as Hl'.
  assert (Hh : 1 + k <= len src - len rs) by lia.
  destruct (qos =? 0) eqn:E0; cbn [negb].
  - rewrite (payload_part src (1 + k) rl) by lia. cbn [ok_part]. rewrite (proj2 Hat'). reflexivity.
  - unfold packet_id, bind, guard, ret.
    destruct (len src <? len src - len rs + 2) eqn:E2.
    + rewrite u16_short by lia. reflexivity.
    + step rp_u16 Hat' pid rs' Ep' Hat''; [| reflexivity].
      apply u16_len in Ep'. destruct Ep' as [Ep' _].
      destruct (pid =? 0); [reflexivity |]. cbn [negb].
      rewrite (payload_part src (1 + k) rl) by lia. cbn [ok_part]. rewrite (proj2 Hat''). reflexivity.
Qed.

(* ---------- many ---------- *)
Lemma many_fuel_rest {A} (p : parser A) : forall fuel s l r, many_fuel fuel p s = Some (l, r) -> r = [].
Proof.
  induction fuel as [| fuel IH]; intros s l r; destruct s as [| b s']; cbn [many_fuel]; intros H.
  - apply Some_inj2 in H. destruct H; auto.
  - discriminate.
  - apply Some_inj2 in H. destruct H; auto.
  - destruct (p (b :: s')) as [[a s''] |]; [| discriminate].
    destruct (many_fuel fuel p s'') as [[l' r'] |] eqn:E; [| discriminate].
    apply Some_inj2 in H. destruct H as [_ <-]. apply (IH _ _ _ E).
Qed.

(* parse_all of `id <- packet_id ;; xs <- many1 elem ;; ret (mk id xs)` once the id has been read *)
Lemma many1_tail {A} (elem : parser A) (mk : list A -> packet) (cur : bytes) (L : N) :
  (match
     match (xs <- many1 elem ;; (fun s : bytes => Some (mk xs, s))) cur with
     | Some (a, []) => Some a
     | _ => None
     end
   with
   | Some p => Some (p, L)
   | None => None
   end) =
  (match many_fuel (length cur) elem cur with
   | Some (l, _) => match l with [] => None | _ => Some (mk l, L) end
   | None => None
   end).
Proof.
  unfold bind, many1. destruct cur as [| b r]; [reflexivity |].
  destruct (many_fuel (length (b :: r)) elem (b :: r)) as [[l rs] |] eqn:E; [| reflexivity].
  pose proof (many_fuel_rest _ _ _ _ _ E) as ->.
  cbn [many_fuel length] in E.
  destruct (elem (b :: r)) as [[a s''] |]; [| discriminate].
  destruct (many_fuel (length r) elem s'') as [[l' r'] |]; [| discriminate].
  apply Some_inj2 in E. destruct E as [<- _]. reflexivity.
Qed.

(* ---------- SUBACK ---------- *)
Definition suback_elem : parser N := c <- u8 ;; check (c <=? 2) || (c =? 128) ;; ret c.

Lemma suback_loop_framed src id : forall count fuel total cur codes,
  at_ src total cur -> N.of_nat count = len cur -> (count <= fuel)%nat ->
  ok_part (suback_loop count src id total codes) =
  match many_fuel fuel suback_elem cur with
  | Some (l, _) => Some (Suback id (codes ++ l), len src)
  | None => None
  end.
Proof.
  induction count as [| count IH]; intros fuel total cur codes Hat Hc Hf.
  - assert (cur = []) by (apply len_0; lia). subst cur.
    pose proof (proj1 (at_end _ _ _ Hat) eq_refl) as ->.
    destruct fuel; cbn [many_fuel suback_loop ok_part]; rewrite app_nil_r; reflexivity.
  - destruct fuel as [| fuel]; [lia |].
    destruct cur as [| b r]; [rewrite len_nil in Hc; lia |].
    cbn [suback_loop many_fuel].
    step rp_u8 Hat rc rs Ep Hat'.
    + unfold suback_elem at 1. unfold bind, guard, ret. rewrite Ep.
      pose proof (u8_len _ _ _ Ep) as [Hl _]. rewrite qos_successful_le.
      destruct ((rc <=? 2) || (rc =? 128)) eqn:Eg.
      * replace (negb (rc <=? 2) && negb (rc =? 128)) with false by lia.
        rewrite (IH fuel _ rs) by (assumption || lia).
        destruct (many_fuel fuel suback_elem rs) as [[l r'] |]; [| reflexivity].
        rewrite <- app_assoc. reflexivity.
      * replace (negb (rc <=? 2) && negb (rc =? 128)) with true by lia. reflexivity.
    + unfold suback_elem at 1. unfold bind. rewrite Ep. reflexivity.
Qed.

Lemma suback_framed src :
  extent src = Some (len src) -> ok_part (decode_suback src) = ref_decode TSuback src.
Proof.
  intros He. unfold decode_suback. apply (framed_reduce _ _ _ He). intros b0 k rl body Hl Ht Hat Hcut.
  rewrite Hcut.
  cbn [body_grammar]. unfold suback_body, parse_all. fold suback_elem.
  unfold packet_id. unfold bind at 1 2 3. unfold guard, ret.
  step rp_u16 Hat pid rs Ep Hat'; [| reflexivity].
  apply u16_len in Ep. destruct Ep as [Ep _].
  destruct (pid =? 0) eqn:E0; [reflexivity |]. cbn [negb]. cbv zeta.
  rewrite (many1_tail suback_elem (Suback pid) rs (len src)).
  destruct (Z.of_N rl - 2 <? 1)%Z eqn:Er.
  - assert (rs = []) by (apply len_0; lia). subst rs. reflexivity.
  - rewrite (suback_loop_framed src pid _ (length rs) _ rs) by (assumption || (unfold len in *; lia)).
    destruct (many_fuel (length rs) suback_elem rs) as [[l r'] |] eqn:Em; [| reflexivity].
    cbn [app]. destruct l as [| c l']; [| reflexivity].
    destruct rs as [| x y]; [rewrite len_nil in Ep; lia |].
    cbn [many_fuel length] in Em.
    destruct (suback_elem (x :: y)) as [[a s''] |]; [| discriminate].
    destruct (many_fuel (length y) suback_elem s'') as [[l2 r2] |]; discriminate.
Qed.

(* ---------- SUBSCRIBE ---------- *)
Definition subscribe_elem : parser (bytes * N) := filter <- lp_bytes ;; q <- qos_byte ;; ret (filter, q).

Lemma subscribe_loop_framed src id : forall fuel1 fuel2 total cur subs,
  at_ src total cur -> len cur < N.of_nat fuel1 -> len cur <= N.of_nat fuel2 ->
  ok_part (subscribe_loop fuel1 src id total (Z.of_N (len cur)) subs) =
  match many_fuel fuel2 subscribe_elem cur with
  | Some (l, _) => match subs ++ l with [] => None | _ => Some (Subscribe id (subs ++ l), len src) end
  | None => None
  end.
Proof.
  induction fuel1 as [| fuel1 IH]; intros fuel2 total cur subs Hat H1 H2; [lia |].
  cbn [subscribe_loop].
  destruct cur as [| b r].
  - rewrite len_nil. change (0 <? Z.of_N 0)%Z with false. cbv iota.
    pose proof (proj1 (at_end _ _ _ Hat) eq_refl) as ->.
    assert (Hm : many_fuel fuel2 subscribe_elem [] = Some ([], [])) by (destruct fuel2; reflexivity).
    rewrite Hm, app_nil_r. destruct subs; reflexivity.
  - set (cur := b :: r) in *.
    assert (Hpos : (0 <? Z.of_N (len cur))%Z = true) by (unfold cur; rewrite len_cons; lia).
    rewrite Hpos.
    destruct fuel2 as [| fuel2]; [unfold cur in H2; rewrite len_cons in H2; lia |].
    assert (Hm : many_fuel (S fuel2) subscribe_elem cur =
                 match subscribe_elem cur with
                 | Some (a, s') => match many_fuel fuel2 subscribe_elem s' with
                                   | Some (l, s'') => Some (a :: l, s'')
                                   | None => None
                                   end
                 | None => None
                 end) by reflexivity.
    rewrite Hm. clear Hm.
    unfold subscribe_elem at 1. unfold qos_byte. unfold bind at 1 2 3 4. unfold guard, ret.
    step rp_lp Hat topic rs Ep Hat'; [| reflexivity].
    pose proof (lp_len _ _ _ Ep) as [Hl _].
    pose proof (at_len _ _ _ Hat') as Hl'.
    destruct (len src <? len src - len rs + 1) eqn:E1.
    + rewrite u8_short by lia. reflexivity.
    + step rp_u8' Hat' q rs' Ep' Hat''; [| reflexivity].
      pose proof (u8_len _ _ _ Ep') as [Hl2 _].
      rewrite qos_successful_le. destruct (q <=? 2) eqn:Eq; [| reflexivity]. cbn [negb].
      replace (Z.of_N (len cur) - (2 + Z.of_N (len topic) + 1))%Z with (Z.of_N (len rs')) by lia.
      rewrite (IH fuel2 _ rs') by (assumption || lia).
      destruct (many_fuel fuel2 subscribe_elem rs') as [[l r'] |]; [| reflexivity].
      rewrite <- app_assoc. reflexivity.
Qed.

Lemma subscribe_framed src :
  extent src = Some (len src) -> ok_part (decode_subscribe src) = ref_decode TSubscribe src.
Proof.
  intros He. unfold decode_subscribe. apply (framed_reduce _ _ _ He). intros b0 k rl body Hl Ht Hat Hcut.
  rewrite Hcut.
  cbn [body_grammar]. unfold subscribe_body, parse_all. fold subscribe_elem.
  unfold packet_id. unfold bind at 1 2 3. unfold guard, ret.
  destruct (len src <? 1 + k + 2) eqn:E2.
  - rewrite u16_short by lia. reflexivity.
  - step rp_u16 Hat pid rs Ep Hat'; [| reflexivity].
    apply u16_len in Ep. destruct Ep as [Ep _].
    destruct (pid =? 0) eqn:E0; [reflexivity |]. cbn [negb].
      rewrite (many1_tail subscribe_elem (Subscribe pid) rs (len src)).
    replace (Z.of_N rl - 2)%Z with (Z.of_N (len rs)) by lia.
    rewrite (subscribe_loop_framed src pid _ (length rs) _ rs) by (assumption || (unfold len in *; lia)).
    reflexivity.
Qed.

(* ---------- UNSUBSCRIBE ---------- *)
Lemma unsubscribe_loop_framed src id : forall fuel1 fuel2 total cur topics,
  at_ src total cur -> len cur < N.of_nat fuel1 -> len cur <= N.of_nat fuel2 ->
  ok_part (unsubscribe_loop fuel1 src id total (Z.of_N (len cur)) topics) =
  match many_fuel fuel2 lp_bytes cur with
  | Some (l, _) => match topics ++ l with [] => None | _ => Some (Unsubscribe id (topics ++ l), len src) end
  | None => None
  end.
Proof.
  induction fuel1 as [| fuel1 IH]; intros fuel2 total cur topics Hat H1 H2; [lia |].
  cbn [unsubscribe_loop].
  destruct cur as [| b r].
  - rewrite len_nil. change (0 <? Z.of_N 0)%Z with false. cbv iota.
    pose proof (proj1 (at_end _ _ _ Hat) eq_refl) as ->.
    assert (Hm : many_fuel fuel2 lp_bytes [] = Some ([], [])) by (destruct fuel2; reflexivity).
    rewrite Hm, app_nil_r. destruct topics; reflexivity.
  - set (cur := b :: r) in *.
    assert (Hpos : (0 <? Z.of_N (len cur))%Z = true) by (unfold cur; rewrite len_cons; lia).
    rewrite Hpos.
    destruct fuel2 as [| fuel2]; [unfold cur in H2; rewrite len_cons in H2; lia |].
    assert (Hm : many_fuel (S fuel2) lp_bytes cur =
                 match lp_bytes cur with
                 | Some (a, s') => match many_fuel fuel2 lp_bytes s' with
                                   | Some (l, s'') => Some (a :: l, s'')
                                   | None => None
                                   end
                 | None => None
                 end) by reflexivity.
    rewrite Hm. clear Hm.
    destruct Hat as [Ht Hc]. rewrite slice_from_ok by assumption. rewrite Hc.
    pose proof (rp_lp cur) as Hrp. pose proof (lp_value cur) as Hn.
    destruct (read_lp_bytes cur) as [topic n | n |] eqn:Er.
    + destruct Hrp as [Hle Hp]. rewrite Hp. destruct (Hn _ _ eq_refl) as (_ & Hn1 & _).
      pose proof (len_skipn (N.to_nat total) src) as Hls. rewrite Hc in Hls.
      replace (Z.of_N (len cur) - Z.of_N n)%Z with (Z.of_N (len (skipn (N.to_nat n) cur)))
        by (rewrite len_skipn; lia).
      rewrite (IH fuel2 _ (skipn (N.to_nat n) cur)).
      * destruct (many_fuel fuel2 lp_bytes (skipn (N.to_nat n) cur)) as [[l r'] |]; [| reflexivity].
        rewrite <- app_assoc. reflexivity.
      * split; [lia |]. rewrite <- Hc. rewrite skipn_add. f_equal. lia.
      * rewrite len_skipn. lia.
      * rewrite len_skipn. lia.
    + rewrite Hrp. reflexivity.
    + contradiction.
Qed.

Lemma unsubscribe_framed src :
  extent src = Some (len src) -> ok_part (decode_unsubscribe src) = ref_decode TUnsubscribe src.
Proof.
  intros He. unfold decode_unsubscribe. apply (framed_reduce _ _ _ He). intros b0 k rl body Hl Ht Hat Hcut.
  rewrite Hcut.
  cbn [body_grammar]. unfold unsubscribe_body, parse_all.
  unfold packet_id. unfold bind at 1 2 3. unfold guard, ret.
  step rp_u16 Hat pid rs Ep Hat'; [| reflexivity].
  apply u16_len in Ep. destruct Ep as [Ep _].
  destruct (pid =? 0) eqn:E0; [reflexivity |]. cbn [negb].
  rewrite (many1_tail lp_bytes (Unsubscribe pid) rs (len src)).
  replace (Z.of_N rl - 2)%Z with (Z.of_N (len rs)) by lia.
  rewrite (unsubscribe_loop_framed src pid _ (length rs) _ rs) by (assumption || (unfold len in *; lia)).
  reflexivity.
Qed.
