(* EncJudgeProofs.v — the model passes every judge of EncJudge.v, for every packet value,
   every fill byte, every extra capacity, every list of short capacities, every prior pool
   content.  Hence: a judge that fails on the implementation's observations is a clause of
   C01 failing on a concrete input. *)
From Coq Require Import List NArith ZArith Bool Lia ZifyN ZifyNat ZifyBool.
From Coq.Strings Require Import Byte.
From GM Require Import Codec.Packet Codec.PacketEqb Codec.WF Codec.Enc Codec.WireSpec Codec.Bytes Codec.Varint Codec.EncProofsBase Codec.EncProofsSpec
  Codec.EncProofsTypes Codec.EncProofs Codec.EncProofsTop Codec.EncProofsRoundTrip Codec.EncJudge.
From GM Require Codec.Dec.
Import ListNotations.
Open Scope N_scope.

(* ---------------------------------------------------------------- small facts *)
Lemma drop_repeat x a b : drop a (repeat x (N.to_nat (a + b))) = repeat x (N.to_nat b).
Proof.
  unfold drop. replace (N.to_nat (a + b)) with (N.to_nat a + N.to_nat b)%nat by lia.
  rewrite repeat_app, skipn_app, repeat_length, Nat.sub_diag.
  rewrite skipn_all2 by (rewrite repeat_length; lia). reflexivity.
Qed.

Lemma encoder_write_len p prior :
  match encoder_write prior p with
  | XSent bs => blen bs = len_go p
  | XErr => True
  | XPanic => False
  end.
Proof.
  unfold encoder_write. cbv zeta.
  pose proof (encode_fits (pool_buf prior (len_go p)) p) as F. rewrite blen_pool_buf in F.
  specialize (F (N.le_refl _)).
  destruct (encode_into (pool_buf prior (len_go p)) p) as [n d | n |]; cbn [fits_ok] in F.
  - destruct F as [_ F]. rewrite F. apply blen_pool_buf.
  - exact I.
  - exact F.
Qed.

(* ---------------------------------------------------------------- the model passes *)
Theorem model_passes p fill extra caps prior : all_judges p (model_obs p fill extra caps prior) = true.
Proof.
  unfold all_judges, model_obs. cbv zeta.
  set (L := len_go p). set (e := encode_go L p).
  assert (Hcnt : counts_len L e = true).
  { unfold counts_len. destruct e as [n bs | n |] eqn:E; try reflexivity.
    destruct (encode_len_is_written p L n bs E) as [-> ->]. fold L. rewrite !N.eqb_refl. reflexivity. }
  assert (Hnp : not_panic e = true).
  { unfold not_panic. destruct e eqn:E; try reflexivity. exfalso. exact (encode_no_panic p L E). }
  pose proof (encode_fits (repeat fill (N.to_nat (L + extra))) p) as F.
  rewrite blen_repeat, N2Nat.id in F. specialize (F (N.le_add_r _ _)).
  assert (Hshorts_np : forallb (fun cr : N * eres => not_panic (snd cr)) (map (fun c => (c, encode_go c p)) caps) = true).
  { apply forallb_forall. intros [c r] Hin. apply in_map_iff in Hin. destruct Hin as (c' & E & _).
    injection E as <- <-. cbn [snd]. unfold not_panic. destruct (encode_go c' p) eqn:E'; try reflexivity.
    exfalso. exact (encode_no_panic p c' E'). }
  assert (Hshort : forallb (fun cr : N * eres => negb (fst cr <? L) || is_err (snd cr)) (map (fun c => (c, encode_go c p)) caps) = true).
  { apply forallb_forall. intros [c r] Hin. apply in_map_iff in Hin. destruct Hin as (c' & E & _).
    injection E as <- <-. cbn [fst snd]. destruct (c' <? L) eqn:C; [| reflexivity]. apply N.ltb_lt in C.
    destruct (encode_short_buffer p c' C) as [n ->]. reflexivity. }
  pose proof (encoder_write_len p prior) as Wl.
  destruct (wf p) eqn:W.
  - (* well-formed *)
    pose proof (encode_layout p W) as El. fold L in El. fold e in El.
    pose proof (encode_dirty p (repeat fill (N.to_nat (L + extra))) W) as Ed.
    rewrite blen_repeat, N2Nat.id in Ed. specialize (Ed (N.le_add_r _ _)). fold L in Ed. rewrite drop_repeat in Ed.
    pose proof (encoder_write_exact p prior W) as Ew.
    pose proof (roundtrip p W) as Er. pose proof (len_go_total_len p W) as Et. fold L in Et.
    pose proof (blen_wire_spec p W) as Eb.
    unfold j_len_is_written, j_len_spec, j_encode_total, j_layout, j_dirty, j_short, j_wire_exact, j_roundtrip.
    cbn [o_len o_enc o_len2 o_again o_fill o_extra o_dirty o_shorts o_wr o_rt].
    rewrite Hcnt, Hnp, Hshorts_np, Hshort, Ed, Ew, El, W. cbn [negb orb andb is_ok has_layout].
    rewrite Er, packet_eqb_refl, !bytes_eqb_refl, blen_app, blen_repeat, Eb, <- Et.
    rewrite N2Nat.id.
    rewrite !N.eqb_refl. reflexivity.
  - (* any other packet *)
    unfold j_len_is_written, j_len_spec, j_encode_total, j_layout, j_dirty, j_short, j_wire_exact, j_roundtrip.
    cbn [o_len o_enc o_len2 o_again o_fill o_extra o_dirty o_shorts o_wr o_rt].
    rewrite Hcnt, Hnp, Hshorts_np, Hshort, W. cbn [negb orb andb]. rewrite N.eqb_refl.
    destruct (encode_into (repeat fill (N.to_nat (L + extra))) p) as [n d | n |]; cbn [fits_ok] in F.
    + destruct F as [F1 F2]. rewrite F1, F2, blen_repeat. fold L.
      rewrite N2Nat.id, !N.eqb_refl. cbn [andb].
      destruct (encoder_write prior p) as [bs | |]; [fold L in Wl; rewrite Wl, N.eqb_refl; reflexivity | reflexivity | contradiction].
    + destruct (encoder_write prior p) as [bs | |]; [fold L in Wl; rewrite Wl, N.eqb_refl; reflexivity | reflexivity | contradiction].
    + contradiction.
Qed.

(* several packets through the stream encoder, each with its own stale pool content *)
Theorem model_stream (pps : list (packet * bytes)) :
  j_stream (map fst pps)
           (concat (map (fun pp => match encoder_write (snd pp) (fst pp) with XSent b => b | _ => [] end) pps)) = true.
Proof.
  unfold j_stream. destruct (forallb wf (map fst pps)) eqn:W; [| reflexivity]. cbn [negb orb].
  replace (concat (map (fun pp => match encoder_write (snd pp) (fst pp) with XSent b => b | _ => [] end) pps))
    with (concat (map wire_spec (map fst pps))); [apply bytes_eqb_refl |].
  induction pps as [| [p prior] pps IH]; [reflexivity |].
  cbn [map fst snd forallb concat] in *. apply andb_true_iff in W. destruct W as [W1 W2].
  rewrite (encoder_write_exact p prior W1), IH by exact W2. reflexivity.
Qed.

(* encodeHeader *)
Theorem model_header t flags rl tl dst :
  j_header t flags rl tl (blen dst) (finish (encode_header dst flags rl tl t)) = true.
Proof.
  unfold j_header.
  destruct (N.ltb_spec (blen dst) (header_len_go rl)) as [C1 | C1].
  { cbn [orb]. unfold encode_header. rewrite (len_lt_true dst (header_len_go rl)) by exact C1. reflexivity. }
  destruct (N.ltb_spec (blen dst) tl) as [C2 | C2].
  { cbn [orb]. rewrite encode_header_short by exact C2. reflexivity. }
  cbn [orb]. rewrite encode_header_at by assumption. change 268435455 with max_varint.
  rewrite N.leb_antisym. destruct (N.ltb_spec max_varint rl) as [C3 | C3]; [reflexivity |]. cbn [negb].
  destruct (N.ltb_spec flags 16) as [C4 | C4]; [| reflexivity].
  rewrite finish_at. unfold header_bytes. rewrite byte_of_n2b, <- first_byte_eq by exact C4. fold (hdr t flags rl).
  rewrite N.eqb_refl, take_app_exact, bytes_eqb_refl, blen_app, blen_drop, blen_hdr by exact C3.
  apply N.eqb_eq. lia.
Qed.
