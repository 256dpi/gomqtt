(* EncProofsTop.v — the C01 theorems about Encode / Encoder.Write in the form Props/C01.v states them. *)
From Coq Require Import List NArith ZArith Bool Lia ZifyN ZifyNat ZifyBool.
From Coq.Strings Require Import Byte.
From GM Require Import Codec.Packet Codec.WF Codec.Enc Codec.WireSpec Codec.Bytes Codec.Varint Codec.EncProofsBase Codec.EncProofsSpec
  Codec.EncProofsTypes Codec.EncProofs.
Import ListNotations.
Open Scope N_scope.

Lemma len_go_wire_spec p : wf p = true -> blen (wire_spec p) = len_go p.
Proof. intros W. rewrite blen_wire_spec, len_go_total_len by exact W. reflexivity. Qed.

(* a well-formed packet into a buffer of at least Len() bytes with ANY prior content:
   Len() bytes written, they are wire_spec p, the rest of the buffer is untouched *)
Theorem encode_dirty p dst : wf p = true -> len_go p <= blen dst ->
  encode_into dst p = BOk (len_go p) (wire_spec p ++ drop (len_go p) dst).
Proof.
  intros W H. change (exact dst p).
  pose proof W as W'. unfold wf in W'. apply andb_true_iff in W'. destruct W' as [_ Wi].
  destruct p as [c | sp rc | dup m id | id | id | id | id | id subs | id codes | id ts | id | | |];
    [ apply exact_connect | apply exact_connack | apply exact_publish
    | apply exact_identified | apply exact_identified | apply exact_identified | apply exact_identified
    | apply exact_subscribe | apply exact_suback | apply exact_unsubscribe | apply exact_identified
    | apply exact_naked | apply exact_naked | apply exact_naked ].
  (* what remains is W, Wi (wf's clause for the type), H, and for exact_identified and exact_naked that
     the header they write is wire_spec p, which holds by computation *)
  all: first [assumption | reflexivity].
Qed.

Theorem encode_layout p : wf p = true -> encode_go (len_go p) p = EOk (len_go p) (wire_spec p).
Proof.
  intros W. unfold encode_go.
  rewrite encode_dirty by (exact W || (rewrite blen_zeros; lia)).
  cbn [observe]. f_equal. rewrite drop_all by (rewrite blen_zeros; lia). rewrite app_nil_r.
  apply take_all. rewrite len_go_wire_spec by exact W. lia.
Qed.

Theorem encode_total p : wf p = true -> exists bs, encode_go (len_go p) p = EOk (len_go p) bs.
Proof. intros W. exists (wire_spec p). apply encode_layout. exact W. Qed.

Theorem encode_short_buffer p cap : cap < len_go p -> exists n, encode_go cap p = EErr n.
Proof.
  intros H. unfold encode_go.
  destruct (encode_short (zeros cap) p) as [n E]; [rewrite blen_zeros; exact H |].
  exists n. rewrite E. reflexivity.
Qed.

Theorem encode_len_is_written p cap n bs :
  encode_go cap p = EOk n bs -> n = len_go p /\ blen bs = len_go p.
Proof.
  unfold encode_go. intros E.
  destruct (N.lt_ge_cases cap (len_go p)) as [H | H].
  - destruct (encode_short (zeros cap) p) as [m Em]; [rewrite blen_zeros; exact H |].
    rewrite Em in E. discriminate E.
  - pose proof (encode_fits (zeros cap) p) as F. rewrite blen_zeros in F. specialize (F H).
    destruct (encode_into (zeros cap) p) as [m d | m |]; cbn [observe] in E; try discriminate E.
    cbn [fits_ok] in F. destruct F as [F1 F2]. injection E as E1 E2. subst n bs m.
    rewrite blen_zeros in F2. split; [reflexivity |]. apply blen_take. lia.
Qed.

Theorem encode_no_panic p cap : encode_go cap p <> EPanic.
Proof.
  unfold encode_go.
  destruct (N.lt_ge_cases cap (len_go p)) as [H | H].
  - destruct (encode_short (zeros cap) p) as [m Em]; [rewrite blen_zeros; exact H |].
    rewrite Em. discriminate.
  - pose proof (encode_fits (zeros cap) p) as F. rewrite blen_zeros in F. specialize (F H).
    destruct (encode_into (zeros cap) p) as [m d | m |]; cbn [observe]; [discriminate | discriminate | contradiction].
Qed.

Lemma blen_pool_buf prior n : blen (pool_buf prior n) = n.
Proof. unfold pool_buf. apply blen_take. rewrite blen_app, blen_zeros. lia. Qed.

(* Encoder.Write: whatever the pooled buffer held, exactly wire_spec p goes to the writer *)
Theorem encoder_write_exact p prior : wf p = true -> encoder_write prior p = XSent (wire_spec p).
Proof.
  intros W. unfold encoder_write. cbv zeta.
  rewrite encode_dirty by (exact W || (rewrite blen_pool_buf; lia)).
  rewrite drop_all by (rewrite blen_pool_buf; lia). rewrite app_nil_r. reflexivity.
Qed.
