(* DecProofsSafe.v — C02 no_panic, consumed and forwardable: on every byte list, every Decode
   returns Ok/Err with a count within the buffer, a decoded PUBLISH or will message can be
   encoded again for forwarding, and DetectPacket returns.
   Structure: each checked slice is guarded by the length test that precedes it. *)
From Coq Require Import List NArith ZArith Bool Lia ZifyN ZifyNat ZifyBool.
From Coq.Strings Require Import Byte.
From GM Require Import Codec.Packet Codec.WF Codec.Dec Codec.RefDecode Codec.DecProofsBase.
Import ListNotations.
Open Scope N_scope.

(* no panic, the reported count is at most L, and a decoded packet satisfies Q *)
Definition dwp (Q : packet -> Prop) (L : N) (r : dres) : Prop :=
  match r with DOk p n => n <= L /\ Q p | DErr n => n <= L | DPanic => False end.

Definition safe (L : N) (r : dres) : Prop := dwp (fun _ => True) L r.

Lemma dwp_mono Q L L' r : L <= L' -> dwp Q L r -> dwp Q L' r.
Proof.
  intros H. destruct r as [p n | n |]; cbn [dwp]; [intros [H1 H2]; split; [lia | exact H2] | lia | trivial].
Qed.

(* arithmetic side conditions of the walks: the tests already made are in the context as
   inequalities; equations between booleans only slow lia down *)
Ltac bounds := repeat match goal with H : @eq bool _ _ |- _ => clear H end; lia.

(* ---------- one read: the helper never panics, reports a count inside what it was given,
   and tells how much it consumed ---------- *)
Lemma rd_at_wp {A} Q L src total (f : bytes -> rd A) k (W : A -> N -> Prop) :
  total <= len src -> len src <= L ->
  (forall buf, match f buf with ROk v n => n <= len buf /\ W v n | RErr n => n <= len buf | RPanic => False end) ->
  (forall v n, W v n -> total + n <= len src -> dwp Q L (k v (total + n))) ->
  dwp Q L (rd_at src total f k).
Proof.
  intros Ht HL Hf Hk. unfold rd_at. rewrite slice_from_ok by assumption.
  pose proof (Hf (skipn (N.to_nat total) src)) as Hb. rewrite len_skipn in Hb.
  destruct (f (skipn (N.to_nat total) src)) as [v n | n |].
  - apply Hk; [apply Hb | lia].
  - cbn [dwp]. lia.
  - contradiction.
Qed.

Lemma rd_at_u8 Q L src total k :
  total <= len src -> len src <= L ->
  (forall v, total + 1 <= len src -> dwp Q L (k v (total + 1))) -> dwp Q L (rd_at src total read_uint8 k).
Proof.
  intros Ht HL Hk. apply (rd_at_wp Q L src total _ k (fun _ n => n = 1)); [assumption | assumption | |].
  - intros buf. rewrite read_uint8_eq. destruct buf; rewrite ?len_cons; lia.
  - intros v n ->. apply Hk.
Qed.

Lemma rd_at_u16 Q L src total k :
  total <= len src -> len src <= L ->
  (forall v, total + 2 <= len src -> dwp Q L (k v (total + 2))) ->
  dwp Q L (rd_at src total (fun buf => read_uint buf 2) k).
Proof.
  intros Ht HL Hk. apply (rd_at_wp Q L src total _ k (fun _ n => n = 2)); [assumption | assumption | |].
  - intros buf. rewrite read_uint_2. destruct buf as [| b0 [| b1 r]]; rewrite ?len_cons; lia.
  - intros v n ->. apply Hk.
Qed.

Lemma lp_value buf v n : read_lp_bytes buf = ROk v n -> len v <= 65535 /\ n = 2 + len v /\ n <= len buf.
Proof.
  rewrite read_lp_bytes_eq. destruct buf as [| b0 [| b1 r]]; try discriminate.
  cbv zeta. destruct (N.ltb_spec (len r) (256 * b2n b0 + b2n b1)) as [E | E]; [discriminate |].
  intros H. apply ROk_inj in H. destruct H as [<- <-]. rewrite len_firstn, !len_cons.
  pose proof (b2n_lt b0). pose proof (b2n_lt b1). lia.
Qed.

Lemma read_lp_spec buf :
  match read_lp_bytes buf with
  | ROk v n => n <= len buf /\ len v <= 65535 /\ n = 2 + len v
  | RErr n => n <= len buf
  | RPanic => False
  end.
Proof.
  destruct (read_lp_bytes buf) as [v n | n |] eqn:E.
  - apply lp_value in E. lia.
  - rewrite read_lp_bytes_eq in E. destruct buf as [| b0 [| b1 r]]; try (injection E as <-; lia).
    cbv zeta in E. destruct (_ <? _); [injection E as <-; rewrite !len_cons; lia | discriminate].
  - rewrite read_lp_bytes_eq in E. destruct buf as [| b0 [| b1 r]]; try discriminate.
    cbv zeta in E. destruct (_ <? _); discriminate.
Qed.

Lemma rd_at_lp Q L src total k :
  total <= len src -> len src <= L ->
  (forall v, len v <= 65535 -> total + (2 + len v) <= len src -> dwp Q L (k v (total + (2 + len v)))) ->
  dwp Q L (rd_at src total read_lp_bytes k).
Proof.
  intros Ht HL Hk.
  apply (rd_at_wp Q L src total _ k (fun v n => len v <= 65535 /\ n = 2 + len v)); [assumption | assumption | |].
  - exact read_lp_spec.
  - intros v n [Hv ->]. apply Hk. exact Hv.
Qed.

(* one statement of a Decode, by its shape: an error return, a length test, any other test, a read *)
Ltac wp_step :=
  match goal with
  | |- dwp _ _ (DErr _) => cbn [dwp]; bounds
  | |- dwp _ _ (if ?a <? ?b then _ else _) => destruct (N.ltb_spec a b)
  | |- dwp _ _ (if ?b then _ else _) => destruct b eqn:?
  | |- dwp _ _ (rd_at _ _ read_uint8 _) => apply rd_at_u8; [bounds | bounds | intros ? ?]
  | |- dwp _ _ (rd_at _ _ (fun buf => read_uint buf 1) _) => apply rd_at_u8; [bounds | bounds | intros ? ?]
  | |- dwp _ _ (rd_at _ _ (fun buf => read_uint buf 2) _) => apply rd_at_u16; [bounds | bounds | intros ? ?]
  | |- dwp _ _ (rd_at _ _ read_lp_bytes _) => apply rd_at_lp; [bounds | bounds | intros ? ? ?]
  end.
Ltac wp_walk := cbv zeta; repeat (wp_step; cbv zeta).

(* ---------- the header step, shared by all types ---------- *)
Lemma header_cases src t (P : hres -> Prop) :
  (forall n, n <= len src -> P (HErr n)) ->
  (forall total flags rl, 2 <= total -> total + rl <= len src -> rl <= 268435455 -> P (HOk total flags rl)) ->
  P (decode_header src t).
Proof.
  intros He Ho. destruct (decode_header src t) as [total flags rl | n |] eqn:E.
  - destruct (header_ok_inv _ _ _ _ _ E) as (b0 & r & k & _ & _ & _ & _ & _ & Ht & Hk1 & _ & Hl & Hrl).
    apply Ho; lia.
  - apply He. apply (header_err_bound _ _ _ E).
  - exfalso. apply (header_no_panic _ _ E).
Qed.

(* after the header: src cut to the packet; nothing beyond it is reported *)
Lemma cut_wp Q src hl rl (walk : bytes -> dres) :
  hl + rl <= len src ->
  (forall src', len src' = hl + rl -> dwp Q (len src') (walk src')) ->
  dwp Q (len src) (match slice_to src (hl + rl) with None => DPanic | Some s => walk s end).
Proof.
  intros Hl Hw. rewrite slice_to_ok by exact Hl.
  assert (Hs : len (firstn (N.to_nat (hl + rl)) src) = hl + rl) by (rewrite len_firstn; lia).
  apply (dwp_mono Q (len (firstn (N.to_nat (hl + rl)) src))); [lia | apply Hw; exact Hs].
Qed.

Lemma forwardable_intro m :
  len (m_topic m) <> 0 -> len (m_topic m) <= 65535 -> m_qos m <= 2 ->
  2 + len (m_topic m) + (if m_qos m =? 0 then 0 else 2) + len (m_payload m) <= 268435455 ->
  forwardable m.
Proof.
  intros Hne Ht Hq Hb q id retain Hle Hid. unfold wf. apply andb_true_iff. split.
  - apply N.leb_le. unfold body_len, lp, max_remaining. cbn [m_topic m_payload m_qos]. change WF.blen with len.
    destruct (N.eqb_spec q 0), (N.eqb_spec (m_qos m) 0); lia.
  - unfold msg_ok, str_ok, qos_ok. cbn [m_topic m_qos]. change WF.blen with len.
    assert (Hn : nonempty (m_topic m) = true) by (destruct (m_topic m); [rewrite len_nil in Hne; lia | reflexivity]).
    rewrite Hn, (proj2 (N.leb_le _ _) Ht), (proj2 (N.leb_le _ _) (N.le_trans _ _ _ Hle Hq)). cbn [andb].
    destruct (q =? 0); [apply N.eqb_eq |]; exact Hid.
Qed.

Definition forwards (p : packet) : Prop :=
  match p with
  | Publish _ m _ => forwardable m
  | Connect c => match c_will c with Some m => forwardable m | None => True end
  | _ => True
  end.

(* ---------- per type ---------- *)
Lemma connect_wp src : dwp forwards (len src) (decode_connect src).
Proof.
  unfold decode_connect. apply (header_cases src TConnect); [intros n Hn; exact Hn |].
  intros total flags rl Ht Hl _. wp_walk; cbn [dwp forwards c_will]; (split; [bounds | try exact I]);
    apply forwardable_intro; cbn [m_topic m_payload m_qos];
    first [ apply N.eqb_neq; assumption | bounds
          | apply N.leb_le; rewrite <- qos_successful_le; apply negb_false_iff; assumption
          | match goal with |- context [if ?b then 0 else 2] => destruct b end; bounds ].
Qed.

Lemma connack_wp src : dwp forwards (len src) (decode_connack src).
Proof.
  unfold decode_connack. apply (header_cases src TConnack); [intros n Hn; exact Hn |].
  intros total flags rl Ht Hl _. wp_walk. cbn [dwp forwards]. split; [bounds | exact I].
Qed.

Lemma identified_wp t mk src : (forall id, forwards (mk id)) -> dwp forwards (len src) (decode_identified t mk src).
Proof.
  intros Hmk. unfold decode_identified. apply (header_cases src t); [intros n Hn; exact Hn |].
  intros total flags rl Ht Hl _. wp_walk. cbn [dwp]. split; [bounds | apply Hmk].
Qed.

Lemma naked_wp t p src : forwards p -> dwp forwards (len src) (decode_naked t p src).
Proof.
  intros Hp. unfold decode_naked. apply (header_cases src t); [intros n Hn; exact Hn |].
  intros total flags rl Ht Hl _. wp_walk. cbn [dwp]. split; [bounds | exact Hp].
Qed.

Lemma payload_part src hl rl total dup topic qos retain id :
  len src = hl + rl -> hl <= total -> total <= len src ->
  (let l := (Z.of_N rl - (Z.of_N total - Z.of_N hl))%Z in
   if (0 <? l)%Z
   then match slice src total (total + Z.to_N l) with
        | Some payload => DOk (Publish dup (Msg topic payload qos retain) id) (total + len payload)
        | None => DPanic
        end
   else DOk (Publish dup (Msg topic [] qos retain) id) total)
  = DOk (Publish dup (Msg topic (skipn (N.to_nat total) src) qos retain) id) (len src).
Proof.
  intros Hs Hh Ht. cbv zeta. destruct (Z.ltb_spec 0 (Z.of_N rl - (Z.of_N total - Z.of_N hl))) as [E | E].
  - rewrite slice_ok by lia.
    rewrite firstn_all2 by (rewrite skipn_length; unfold len in *; lia). rewrite len_skipn. f_equal. lia.
  - assert (total = len src) by lia. subst total. rewrite skipn_all2 by (unfold len; lia). reflexivity.
Qed.

Lemma publish_wp src : dwp forwards (len src) (decode_publish src).
Proof.
  unfold decode_publish. apply (header_cases src TPublish); [intros n Hn; exact Hn |].
  intros hl flags rl Hh Hl Hrl. apply cut_wp; [exact Hl |]. intros src' Hs. cbv zeta.
  set (qos := N.land (N.shiftr flags 1) 3).
  assert (Hleaf : forall dup retain topic id total,
    len topic <> 0 -> len topic <= 65535 -> qos <= 2 ->
    total = hl + (2 + len topic) + (if qos =? 0 then 0 else 2) -> total <= len src' ->
    dwp forwards (len src') (DOk (Publish dup (Msg topic (skipn (N.to_nat total) src') qos retain) id) (len src'))).
  { intros dup retain topic id total H1 H2 H3 H4 H5. cbn [dwp forwards]. split; [lia |].
    apply forwardable_intro; cbn [m_topic m_payload m_qos]; rewrite ?len_skipn; lia. }
  destruct (qos_successful qos) eqn:Eq; cbn [negb]; [| cbn [dwp]; lia].
  rewrite qos_successful_le in Eq. apply N.leb_le in Eq.
  apply rd_at_lp; [lia | lia |]. intros topic Ht Hn.
  destruct (N.eqb_spec (len topic) 0) as [E0 | E0]; [cbn [dwp]; lia |].
  destruct (qos =? 0) eqn:Q0; cbn [negb].
  - rewrite payload_part by lia. apply Hleaf; try assumption; rewrite ?Q0; lia.
  - destruct (N.ltb_spec (len src') (hl + (2 + len topic) + 2)); [cbn [dwp]; lia |].
    apply rd_at_u16; [lia | lia |]. intros pid Hn'. destruct (pid =? 0); [cbn [dwp]; lia |].
    rewrite payload_part by lia. apply Hleaf; try assumption; rewrite ?Q0; lia.
Qed.

Lemma subscribe_loop_wp src id : forall fuel total sl subs,
  total <= len src -> len src < total + N.of_nat fuel ->
  dwp forwards (len src) (subscribe_loop fuel src id total sl subs).
Proof.
  induction fuel as [| fuel IH]; intros total sl subs Ht Hf; cbn [subscribe_loop]; destruct (0 <? sl)%Z.
  - exfalso. lia.
  - wp_walk; cbn [dwp forwards]; (split; [bounds | exact I]).
  - wp_walk. apply IH; bounds.
  - wp_walk; cbn [dwp forwards]; (split; [bounds | exact I]).
Qed.

Lemma subscribe_wp src : dwp forwards (len src) (decode_subscribe src).
Proof.
  unfold decode_subscribe. apply (header_cases src TSubscribe); [intros n Hn; exact Hn |].
  intros hl flags rl Hh Hl _. apply cut_wp; [exact Hl |]. intros src' Hs. wp_walk.
  apply subscribe_loop_wp; [bounds |]. unfold len. lia.
Qed.

Lemma suback_loop_wp src id : forall count total codes,
  total <= len src -> dwp forwards (len src) (suback_loop count src id total codes).
Proof.
  induction count as [| count IH]; intros total codes Ht; cbn [suback_loop].
  - cbn [dwp forwards]. split; [lia | exact I].
  - wp_walk. apply IH. bounds.
Qed.

Lemma suback_wp src : dwp forwards (len src) (decode_suback src).
Proof.
  unfold decode_suback. apply (header_cases src TSuback); [intros n Hn; exact Hn |].
  intros hl flags rl Hh Hl _. apply cut_wp; [exact Hl |]. intros src' Hs. wp_walk.
  apply suback_loop_wp. bounds.
Qed.

Lemma unsubscribe_loop_wp src id : forall fuel total tl topics,
  total <= len src -> len src < total + N.of_nat fuel ->
  dwp forwards (len src) (unsubscribe_loop fuel src id total tl topics).
Proof.
  induction fuel as [| fuel IH]; intros total tl topics Ht Hf; cbn [unsubscribe_loop]; destruct (0 <? tl)%Z.
  - exfalso. lia.
  - wp_walk; cbn [dwp forwards]; (split; [bounds | exact I]).
  - rewrite slice_from_ok by lia. pose proof (read_lp_spec (skipn (N.to_nat total) src)) as Hb.
    rewrite len_skipn in Hb. destruct (read_lp_bytes (skipn (N.to_nat total) src)) as [topic n | n |].
    + apply IH; lia.
    + cbn [dwp]. lia.
    + contradiction.
  - wp_walk; cbn [dwp forwards]; (split; [bounds | exact I]).
Qed.

Lemma unsubscribe_wp src : dwp forwards (len src) (decode_unsubscribe src).
Proof.
  unfold decode_unsubscribe. apply (header_cases src TUnsubscribe); [intros n Hn; exact Hn |].
  intros hl flags rl Hh Hl _. apply cut_wp; [exact Hl |]. intros src' Hs. wp_walk.
  apply unsubscribe_loop_wp; [bounds |]. unfold len. lia.
Qed.

Theorem decode_wp t src : dwp forwards (len src) (decode_go t src).
Proof.
  destruct t; cbn [decode_go];
    first [ apply connect_wp | apply connack_wp | apply publish_wp | apply identified_wp; intros; exact I
          | apply subscribe_wp | apply suback_wp | apply unsubscribe_wp | apply naked_wp; exact I ].
Qed.

Theorem decode_safe t src : safe (len src) (decode_go t src).
Proof. pose proof (decode_wp t src) as H. destruct (decode_go t src); cbn [safe dwp] in *; tauto. Qed.

Theorem detect_no_panic src : detect_go src <> DetPanic.
Proof.
  destruct src as [| b0 [| b1 r]]; try discriminate. rewrite detect_go_eq. destruct (uvarint _); discriminate.
Qed.

Theorem decode_no_panic t src : decode_go t src <> DPanic.
Proof. pose proof (decode_wp t src) as H. intros E. rewrite E in H. exact H. Qed.

Theorem decode_consumed t src r n :
  decode_go t src = DOk r n \/ decode_go t src = DErr n -> n <= len src.
Proof.
  pose proof (decode_wp t src) as H. intros [E | E]; rewrite E in H; cbn [dwp] in H; tauto.
Qed.
