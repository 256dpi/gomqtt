(* PacketEqb.v — the boolean equalities of Codec/Packet.v (bytes, message, connect, packet,
   lifted to lists and options) decide Leibniz equality. *)
From Coq Require Import List NArith Bool.
From Coq.Strings Require Import Byte.
From GM Require Import Codec.Packet.
Import ListNotations.
Open Scope N_scope.

Lemma bytes_eqb_eq a b : bytes_eqb a b = true -> a = b.
Proof.
  revert b; induction a as [|x a IH]; intros [|y b] H; cbn [bytes_eqb] in H; try discriminate; [reflexivity|].
  apply andb_true_iff in H as [H1 H2]. apply Byte.byte_dec_bl in H1. f_equal; [exact H1|apply IH, H2].
Qed.

Lemma bytes_eqb_refl a : bytes_eqb a a = true.
Proof.
  induction a as [|x a IH]; cbn [bytes_eqb]; [reflexivity|].
  rewrite IH, andb_true_r. apply Byte.byte_dec_lb. reflexivity.
Qed.

Lemma list_eqb_eq {A} (eqb : A -> A -> bool) :
  (forall x y, eqb x y = true -> x = y) -> forall a b, list_eqb eqb a b = true -> a = b.
Proof.
  intros Heq a; induction a as [|x a IH]; intros [|y b] H; cbn [list_eqb] in H; try discriminate; [reflexivity|].
  apply andb_true_iff in H as [H1 H2]. f_equal; [apply Heq, H1|apply IH, H2].
Qed.

Lemma list_eqb_refl {A} (eqb : A -> A -> bool) :
  (forall x, eqb x x = true) -> forall a, list_eqb eqb a a = true.
Proof.
  intros Hr a; induction a as [|x a IH]; cbn [list_eqb]; [reflexivity|]. rewrite Hr, IH. reflexivity.
Qed.

Lemma message_eqb_eq a b : message_eqb a b = true -> a = b.
Proof.
  destruct a as [t p q r], b as [t' p' q' r']. unfold message_eqb; cbn [m_topic m_payload m_qos m_retain].
  intros H. repeat (apply andb_true_iff in H as [H ?]).
  repeat match goal with
  | Hx : bytes_eqb _ _ = true |- _ => apply bytes_eqb_eq in Hx
  | Hx : N.eqb _ _ = true |- _ => apply N.eqb_eq in Hx
  | Hx : Bool.eqb _ _ = true |- _ => apply Bool.eqb_prop in Hx
  end.
  congruence.
Qed.

Lemma message_eqb_refl a : message_eqb a a = true.
Proof.
  unfold message_eqb. rewrite !bytes_eqb_refl, N.eqb_refl, Bool.eqb_reflx. reflexivity.
Qed.

Lemma option_eqb_eq {A} (eqb : A -> A -> bool) :
  (forall x y, eqb x y = true -> x = y) -> forall a b, option_eqb eqb a b = true -> a = b.
Proof. intros Heq [x|] [y|] H; cbn in H; try discriminate; [f_equal; apply Heq, H|reflexivity]. Qed.

Lemma connect_eqb_eq a b : connect_eqb a b = true -> a = b.
Proof.
  destruct a as [a1 a2 a3 a4 a5 a6 a7], b as [b1 b2 b3 b4 b5 b6 b7]. unfold connect_eqb;
    cbn [c_client_id c_keep_alive c_username c_password c_clean c_will c_version].
  intros H. repeat (apply andb_true_iff in H as [H ?]).
  repeat match goal with
  | Hx : bytes_eqb _ _ = true |- _ => apply bytes_eqb_eq in Hx
  | Hx : N.eqb _ _ = true |- _ => apply N.eqb_eq in Hx
  | Hx : Bool.eqb _ _ = true |- _ => apply Bool.eqb_prop in Hx
  | Hx : option_eqb message_eqb _ _ = true |- _ => apply (option_eqb_eq _ message_eqb_eq) in Hx
  end.
  congruence.
Qed.

Lemma sub_eqb_eq (x y : bytes * N) : bytes_eqb (fst x) (fst y) && N.eqb (snd x) (snd y) = true -> x = y.
Proof.
  destruct x, y; cbn [fst snd]. intros H. apply andb_true_iff in H as [H1 H2].
  apply bytes_eqb_eq in H1. apply N.eqb_eq in H2. congruence.
Qed.

Lemma packet_eqb_eq a b : packet_eqb a b = true -> a = b.
Proof.
  destruct a, b; cbn [packet_eqb]; intros H; try discriminate; try reflexivity.
  - f_equal. apply connect_eqb_eq, H.
  - apply andb_true_iff in H as [H1 H2]. apply Bool.eqb_prop in H1. apply N.eqb_eq in H2. congruence.
  - apply andb_true_iff in H as [H H3]. apply andb_true_iff in H as [H1 H2].
    apply Bool.eqb_prop in H1. apply message_eqb_eq in H2. apply N.eqb_eq in H3. congruence.
  - apply N.eqb_eq in H. congruence.
  - apply N.eqb_eq in H. congruence.
  - apply N.eqb_eq in H. congruence.
  - apply N.eqb_eq in H. congruence.
  - apply andb_true_iff in H as [H1 H2]. apply N.eqb_eq in H1. apply (list_eqb_eq _ sub_eqb_eq) in H2. congruence.
  - apply andb_true_iff in H as [H1 H2]. apply N.eqb_eq in H1.
    apply (list_eqb_eq N.eqb (fun x y => proj1 (N.eqb_eq x y))) in H2. congruence.
  - apply andb_true_iff in H as [H1 H2]. apply N.eqb_eq in H1. apply (list_eqb_eq _ bytes_eqb_eq) in H2. congruence.
  - apply N.eqb_eq in H. congruence.
Qed.

Lemma option_eqb_refl {A} (eqb : A -> A -> bool) : (forall x, eqb x x = true) -> forall a, option_eqb eqb a a = true.
Proof. intros H [x|]; cbn [option_eqb]; [apply H|reflexivity]. Qed.

Lemma connect_eqb_refl a : connect_eqb a a = true.
Proof.
  unfold connect_eqb. rewrite !bytes_eqb_refl, !N.eqb_refl, Bool.eqb_reflx, (option_eqb_refl _ message_eqb_refl).
  reflexivity.
Qed.

Lemma packet_eqb_refl a : packet_eqb a a = true.
Proof.
  destruct a; cbn [packet_eqb]; rewrite ?N.eqb_refl, ?Bool.eqb_reflx, ?message_eqb_refl; try reflexivity.
  - apply connect_eqb_refl.
  - apply (list_eqb_refl (fun x y => bytes_eqb (fst x) (fst y) && N.eqb (snd x) (snd y))).
    intros x. rewrite bytes_eqb_refl, N.eqb_refl. reflexivity.
  - apply (list_eqb_refl N.eqb). apply N.eqb_refl.
  - apply (list_eqb_refl bytes_eqb). apply bytes_eqb_refl.
Qed.
