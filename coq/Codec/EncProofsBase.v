(* EncProofsBase.v — what each encoder helper of Enc.v does (C01): on a buffer that is large
   enough (_fits), on one that is too short (_short), and that it never panics (_safe); the cursor
   after a written prefix (cur_at) and the fixed header (first_byte, hdr) in which the later files
   state what a whole Encode writes. *)
From Coq Require Import List NArith ZArith Bool Lia ZifyN ZifyNat ZifyBool.
From Coq.Strings Require Import Byte.
From GM Require Import Codec.Packet Codec.WF Codec.Enc Codec.WireSpec Codec.Bytes Codec.Varint.
Import ListNotations.
Open Scope N_scope.

Lemma n2b_b2n b : n2b (b2n b) = b.
Proof.
  unfold n2b. rewrite N.mod_small by apply b2n_lt. unfold b2n. rewrite Byte.of_to_N. reflexivity.
Qed.

Lemma take_0 l : take 0 l = []. Proof. reflexivity. Qed.
Lemma take_drop n l : take n l ++ drop n l = l.
Proof. apply firstn_skipn. Qed.
Lemma drop_1 x l : drop 1 (x :: l) = l.
Proof. reflexivity. Qed.
Lemma drop_2 x y l : drop 2 (x :: y :: l) = l.
Proof. reflexivity. Qed.
Lemma take_2 x y l : take 2 (x :: y :: l) = [x; y].
Proof. reflexivity. Qed.

(* len(buf) < n *)
Lemma len_lt_spec buf : forall n, len_lt buf n = (blen buf <? n).
Proof.
  induction buf as [| x r IH]; intros n; cbn [len_lt].
  - rewrite blen_nil. reflexivity.
  - rewrite blen_cons. destruct (n =? 0) eqn:E.
    + symmetry. apply N.ltb_ge. lia.
    + rewrite IH. apply eq_true_iff_eq. rewrite !N.ltb_lt. lia.
Qed.

Lemma len_lt_false buf n : n <= blen buf -> len_lt buf n = false.
Proof. intros H. rewrite len_lt_spec. apply N.ltb_ge. exact H. Qed.
Lemma len_lt_true buf n : blen buf < n -> len_lt buf n = true.
Proof. intros H. rewrite len_lt_spec. apply N.ltb_lt. exact H. Qed.

(* copy with a source that fits *)
Lemma copy_into_fits src : forall dst, blen src <= blen dst ->
  copy_into dst src = src ++ drop (blen src) dst.
Proof.
  induction src as [| s src IH]; intros dst H.
  - destruct dst; reflexivity.
  - destruct dst as [| d dst]; [rewrite blen_cons, blen_nil in H; lia |].
    cbn [copy_into]. rewrite !blen_cons in H. rewrite IH by lia.
    rewrite blen_cons, drop_cons by lia. cbn [app]. do 3 f_equal. lia.
Qed.

Lemma copy_count_fits src : forall dst, blen src <= blen dst -> copy_count dst src = blen src.
Proof.
  induction src as [| s src IH]; intros dst H.
  - destruct dst; reflexivity.
  - destruct dst as [| d dst]; [rewrite blen_cons, blen_nil in H; lia |].
    cbn [copy_count]. rewrite !blen_cons in H. rewrite IH by lia. rewrite blen_cons. reflexivity.
Qed.

Lemma copy_into_len src : forall dst, blen (copy_into dst src) = blen dst.
Proof.
  induction src as [| s src IH]; intros dst.
  - destruct dst; reflexivity.
  - destruct dst as [| d dst]; [reflexivity |]. cbn [copy_into]. rewrite !blen_cons, IH. reflexivity.
Qed.

Lemma copy_count_le src : forall dst, copy_count dst src <= blen dst.
Proof.
  induction src as [| s src IH]; intros dst.
  - destruct dst; cbn [copy_count]; lia.
  - destruct dst as [| d dst]; [cbn [copy_count]; lia |]. cbn [copy_count].
    rewrite blen_cons. specialize (IH dst). lia.
Qed.

(* ---------------------------------------------------------------- the writers *)
(* writeUint(…, 2) leaves the two byte integer of 1.5.2, for every v: uint16(v) keeps v mod 65536 *)
Lemma two_byte_int_go v : [n2b ((v mod 65536) / 256); n2b (v mod 65536)] = two_byte_int v.
Proof.
  unfold two_byte_int. change byte_of with n2b.
  apply (f_equal2 cons); [| apply (f_equal2 cons); [| reflexivity]]; apply n2b_eq; dlia.
Qed.

Lemma blen_two_byte_int v : blen (two_byte_int v) = 2.
Proof. reflexivity. Qed.
Lemma blen_prefixed s : blen (prefixed s) = 2 + blen s.
Proof. unfold prefixed. rewrite blen_app, blen_two_byte_int. reflexivity. Qed.

Lemma write_u8_fits buf v : 1 <= blen buf -> write_u8 buf v = WOk 1 ([n2b v] ++ drop 1 buf).
Proof.
  intros H. unfold write_u8. rewrite len_lt_false by exact H.
  destruct buf as [| x r]; [rewrite blen_nil in H; lia | reflexivity].
Qed.
Lemma write_u8_short buf v : blen buf < 1 -> write_u8 buf v = WErr 0.
Proof. intros H. unfold write_u8. rewrite len_lt_true by exact H. reflexivity. Qed.

Lemma write_u16_fits buf v : 2 <= blen buf -> write_u16 buf v = WOk 2 (two_byte_int v ++ drop 2 buf).
Proof.
  intros H. unfold write_u16. rewrite len_lt_false by exact H.
  destruct buf as [| x [| y r]]; rewrite ?blen_cons, ?blen_nil in H; try lia.
  cbv zeta. rewrite <- two_byte_int_go. reflexivity.
Qed.
Lemma write_u16_short buf v : blen buf < 2 -> write_u16 buf v = WErr 0.
Proof. intros H. unfold write_u16. rewrite len_lt_true by exact H. reflexivity. Qed.

Lemma write_lp_fits buf bs : blen bs <= 65535 -> 2 + blen bs <= blen buf ->
  write_lp_bytes buf bs = WOk (2 + blen bs) (prefixed bs ++ drop (2 + blen bs) buf).
Proof.
  intros Hs Hc. unfold write_lp_bytes.
  destruct (65535 <? blen bs) eqn:E; [apply N.ltb_lt in E; lia |].
  rewrite write_u16_fits by lia.
  assert (Hl : blen (two_byte_int (blen bs) ++ drop 2 buf) = blen buf).
  { rewrite blen_app, blen_two_byte_int, blen_drop. lia. }
  rewrite !len_lt_false by lia.
  rewrite (drop_app_n 2) by reflexivity. rewrite (take_app_n 2) by reflexivity.
  rewrite copy_count_fits by (rewrite blen_drop; lia).
  rewrite copy_into_fits by (rewrite blen_drop; lia).
  rewrite drop_drop. unfold prefixed. rewrite <- app_assoc. reflexivity.
Qed.

Lemma write_lp_too_long buf bs : 65535 < blen bs -> write_lp_bytes buf bs = WErr 0.
Proof.
  intros H. unfold write_lp_bytes. apply N.ltb_lt in H. rewrite H. reflexivity.
Qed.

(* whatever the buffer: never a panic, and a success returns the buffer at its old length
   with a count inside it *)
Lemma write_lp_safe buf bs :
  match write_lp_bytes buf bs with
  | WOk n b => n <= blen b /\ blen b = blen buf
  | WErr _ => True
  | WPanic => False
  end.
Proof.
  unfold write_lp_bytes. destruct (65535 <? blen bs); [exact I |].
  destruct (N.lt_ge_cases (blen buf) 2) as [H | H].
  - rewrite write_u16_short by exact H. exact I.
  - rewrite write_u16_fits by exact H.
    assert (Hl : blen (two_byte_int (blen bs) ++ drop 2 buf) = blen buf).
    { rewrite blen_app, blen_two_byte_int, blen_drop. lia. }
    destruct (len_lt _ (blen bs)); [exact I |].
    rewrite (len_lt_false _ 2) by lia.
    rewrite (drop_app_n 2) by reflexivity. rewrite (take_app_n 2) by reflexivity.
    rewrite blen_app, copy_into_len, blen_drop, blen_two_byte_int.
    pose proof (copy_count_le bs (drop 2 buf)) as Hc. rewrite blen_drop in Hc. lia.
Qed.

(* ---------------------------------------------------------------- varint *)
Lemma blen_remaining_length_go x : x <= max_varint -> blen (remaining_length x) = varint_len_go x.
Proof. intros H. rewrite varint_len_go_eq, blen_remaining_length by exact H. reflexivity. Qed.

Lemma write_varint_fits x buf : x <= max_varint -> varint_len_go x <= blen buf ->
  write_varint buf x = WOk (varint_len_go x) (remaining_length x ++ drop (varint_len_go x) buf).
Proof.
  intros Hx Hc. unfold write_varint.
  destruct (max_varint <? x) eqn:E; [apply N.ltb_lt in E; lia |].
  rewrite len_lt_false by exact Hc. rewrite <- blen_remaining_length_go in * by exact Hx.
  (* remaining_length is remaining_length_bytes 4: at most four bytes, since max_varint < 128 ^ 4 *)
  rewrite (put_uvarint_rlb 3) by (exact Hc || (unfold max_varint in Hx; change (128 ^ N.of_nat 4) with 268435456; lia)).
  reflexivity.
Qed.

Lemma write_varint_too_big x buf : max_varint < x -> write_varint buf x = WErr 0.
Proof. intros H. unfold write_varint. apply N.ltb_lt in H. rewrite H. reflexivity. Qed.

Lemma write_varint_short x buf : blen buf < varint_len_go x -> write_varint buf x = WErr 0.
Proof.
  intros H. unfold write_varint. destruct (max_varint <? x); [reflexivity |].
  rewrite len_lt_true by exact H. reflexivity.
Qed.

(* ---------------------------------------------------------------- the cursor *)
(* the cursor of an Encode that has written w at the start of dst *)
Definition cur_at (dst w : bytes) : cur := Cur (rev w) (drop (blen w) dst).

Lemma total_at dst w : total (cur_at dst w) = blen w.
Proof. apply blen_rev. Qed.

Lemma done_at dst w : c_done (cur_at dst w) = w.
Proof. unfold c_done. cbn [cur_at c_rdone]. rewrite rev_append_rev, app_nil_r. apply rev_involutive. Qed.

Lemma finish_at dst w : finish (SOk (cur_at dst w)) = BOk (blen w) (w ++ drop (blen w) dst).
Proof. unfold finish. rewrite total_at, done_at. reflexivity. Qed.

Lemma advance_at dst w n x : n = blen x ->
  advance (cur_at dst w) (WOk n (x ++ drop n (c_rest (cur_at dst w)))) = SOk (cur_at dst (w ++ x)).
Proof.
  intros ->. unfold advance. rewrite len_lt_false by (rewrite blen_app; lia).
  rewrite take_app_exact, drop_app_exact. unfold cur_at. cbn [c_rdone c_rest].
  rewrite drop_drop, <- blen_app, rev_append_rev, <- rev_app_distr. reflexivity.
Qed.

Lemma blen_rest_at dst w : blen (c_rest (cur_at dst w)) = blen dst - blen w.
Proof. apply blen_drop. Qed.

Lemma put_u8_at dst w v : blen w + 1 <= blen dst ->
  put_u8 (cur_at dst w) v = SOk (cur_at dst (w ++ [n2b v])).
Proof.
  intros H. unfold put_u8. rewrite write_u8_fits by (rewrite blen_rest_at; lia).
  apply advance_at. reflexivity.
Qed.

Lemma put_u16_at dst w v : blen w + 2 <= blen dst ->
  put_u16 (cur_at dst w) v = SOk (cur_at dst (w ++ two_byte_int v)).
Proof.
  intros H. unfold put_u16. rewrite write_u16_fits by (rewrite blen_rest_at; lia).
  apply advance_at. reflexivity.
Qed.

Lemma put_lp_at dst w bs : blen w + (2 + blen bs) <= blen dst ->
  put_lp (cur_at dst w) bs =
  if blen bs <=? 65535 then SOk (cur_at dst (w ++ prefixed bs)) else SErr (blen w).
Proof.
  intros H. unfold put_lp. destruct (N.leb_spec (blen bs) 65535) as [E | E].
  - rewrite write_lp_fits by (rewrite ?blen_rest_at; lia).
    apply advance_at. symmetry. apply blen_prefixed.
  - rewrite write_lp_too_long by exact E. unfold advance. rewrite total_at, N.add_0_r. reflexivity.
Qed.

(* without any assumption on the capacity: no panic *)
Lemma put_lp_safe c bs : put_lp c bs <> SPanic.
Proof.
  unfold put_lp. pose proof (write_lp_safe (c_rest c) bs) as H.
  destruct (write_lp_bytes (c_rest c) bs) as [n b | n |]; cbn [advance].
  - destruct H as [H1 H2]. rewrite len_lt_false by exact H1. discriminate.
  - discriminate.
  - contradiction.
Qed.

(* ---------------------------------------------------------------- encodeHeader *)
Definition first_byte (t : ptype) (flags : N) : byte :=
  n2b (N.lor (N.lor ((type_code t * 16) mod 256) (N.land (default_flags t) 15)) flags).

(* the fixed header as encodeHeader writes it *)
Definition hdr (t : ptype) (flags rl : N) : bytes := first_byte t flags :: remaining_length rl.

Lemma blen_hdr t f rl : rl <= max_varint -> blen (hdr t f rl) = header_len_go rl.
Proof. intros H. unfold hdr, header_len_go. rewrite blen_cons, blen_remaining_length_go by exact H. reflexivity. Qed.

Lemma encode_header_short dst flags rl tl t : blen dst < tl -> encode_header dst flags rl tl t = SErr 0.
Proof.
  intros H. unfold encode_header. rewrite (len_lt_true dst tl) by exact H.
  rewrite orb_true_r. reflexivity.
Qed.

Lemma encode_header_at dst flags rl tl t :
  header_len_go rl <= blen dst -> tl <= blen dst ->
  encode_header dst flags rl tl t = if rl <=? max_varint then SOk (cur_at dst (hdr t flags rl)) else SErr 0.
Proof.
  intros Hh Ht. unfold encode_header. rewrite !len_lt_false by assumption. cbn [orb].
  unfold header_len_go in Hh.
  destruct dst as [| b0 d1]; [rewrite blen_nil in Hh; lia |]. rewrite blen_cons in Hh.
  destruct (N.leb_spec rl max_varint) as [Hr | Hr]; [| rewrite write_varint_too_big by exact Hr; reflexivity].
  pose proof (blen_remaining_length_go rl Hr) as Hl.
  rewrite write_varint_fits by (assumption || lia).
  rewrite len_lt_false by (rewrite blen_app; lia).
  rewrite take_app_n, drop_app_n by (symmetry; exact Hl).
  unfold cur_at, hdr. rewrite blen_cons, Hl, drop_cons by lia.
  replace (1 + varint_len_go rl - 1) with (varint_len_go rl) by lia.
  rewrite rev_append_rev. reflexivity.
Qed.

(* as every Encode calls it: tl = Len() *)
Lemma encode_header_len dst flags rl t :
  header_len_go rl + rl <= blen dst ->
  encode_header dst flags rl (header_len_go rl + rl) t =
  if rl <=? max_varint then SOk (cur_at dst (hdr t flags rl)) else SErr 0.
Proof. intros H. apply encode_header_at; lia. Qed.

Lemma encode_header_never_panics dst flags rl tl t : encode_header dst flags rl tl t <> SPanic.
Proof.
  destruct (N.lt_ge_cases (blen dst) tl) as [H | H]; [rewrite encode_header_short by exact H; discriminate |].
  destruct (N.lt_ge_cases (blen dst) (header_len_go rl)) as [H' | H'].
  - unfold encode_header. rewrite (len_lt_true dst _ H'). discriminate.
  - rewrite encode_header_at by assumption. destruct (rl <=? max_varint); discriminate.
Qed.

Lemma encode_header_big dst flags rl tl t :
  max_varint < rl -> exists n, encode_header dst flags rl tl t = SErr n.
Proof.
  intros Hr.
  destruct (N.lt_ge_cases (blen dst) tl) as [H | H]; [rewrite encode_header_short by exact H; eexists; reflexivity |].
  destruct (N.lt_ge_cases (blen dst) (header_len_go rl)) as [H' | H'].
  - unfold encode_header. rewrite (len_lt_true dst _ H'). eexists; reflexivity.
  - rewrite encode_header_at by assumption. apply N.leb_gt in Hr. rewrite Hr. eexists; reflexivity.
Qed.
