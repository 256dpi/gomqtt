(* DecProofsLocal.v — C02 locality: for every type other than CONNECT, Decode only
   inspects the header-declared extent of the packet, so what follows it in the
   buffer changes neither the result nor the count (decode_trunc, decode_local).
   For CONNECT this is false, it reads on past the extent: the witness is in Props/C02.v,
   the part that does hold (successful decoding within the declared end) in DecProofsFwd.v. *)
From Coq Require Import List NArith ZArith Bool Lia ZifyN ZifyNat ZifyBool.
From Coq.Strings Require Import Byte.
From GM Require Import Codec.Packet Codec.Dec Codec.RefDecode Codec.DecProofsBase Codec.DecProofsSafe.
Import ListNotations.
Open Scope N_scope.

(* remlen only looks at the bytes it consumes *)
Lemma remlen_prefix fuel : forall mult buf buf' v k rest,
  remlen fuel mult buf = Some (v, k, rest) ->
  firstn (N.to_nat k) buf' = firstn (N.to_nat k) buf ->
  remlen fuel mult buf' = Some (v, k, skipn (N.to_nat k) buf').
Proof.
  induction fuel as [| fuel IH]; intros mult buf buf' v k rest H Hp.
  - discriminate.
  - destruct buf as [| b r]; [discriminate |]. cbn [remlen] in H.
    destruct (Byte.to_N b <? 128) eqn:E.
    + apply Some_inj3 in H. destruct H as (<- & <- & <-).
      change (N.to_nat 1) with 1%nat in *. cbn [firstn] in Hp.
      destruct buf' as [| b' r']; [discriminate |]. cbn [firstn] in Hp.
      assert (b' = b) by congruence. subst b'.
      cbn [remlen]. rewrite E. reflexivity.
    + destruct (remlen fuel (mult * 128) r) as [[[v' k'] rest'] |] eqn:Er; [| discriminate].
      apply Some_inj3 in H. destruct H as (<- & <- & <-).
      replace (N.to_nat (k' + 1)) with (S (N.to_nat k')) in * by lia.
      destruct buf' as [| b' r']; [discriminate |]. cbn [firstn] in Hp.
      assert (b' = b) by congruence. subst b'.
      assert (Hp' : firstn (N.to_nat k') r' = firstn (N.to_nat k') r) by congruence.
      cbn [remlen]. rewrite E. rewrite (IH _ _ _ _ _ _ Er Hp'). reflexivity.
Qed.

(* the extent in terms of the header *)
Lemma extent_inv src n :
  extent src = Some n ->
  exists b0 r rl k, src = b0 :: r /\ remaining_length r = Some (rl, k, skipn (N.to_nat k) r) /\
                    n = 1 + k + rl /\ 1 <= k /\ k <= 4 /\ k <= len r.
Proof.
  unfold extent. destruct src as [| b0 r]; [discriminate |].
  destruct (remaining_length r) as [[[rl k] after] |] eqn:Er; [| discriminate].
  intros H. apply Some_inj in H. subst n.
  destruct (remlen_bounds _ _ _ _ _ _ Er) as (H1 & H2 & H3 & H4).
  exists b0, r, rl, k. subst after. repeat split; try lia; assumption.
Qed.

Lemma firstn_firstn_le {A} (a b : nat) (l : list A) : (a <= b)%nat -> firstn a (firstn b l) = firstn a l.
Proof. intros H. rewrite firstn_firstn. f_equal. lia. Qed.

(* decodeHeader gives the same answer on the packet cut to its extent *)
Lemma header_trunc src n t :
  extent src = Some n -> n <= len src ->
  decode_header (firstn (N.to_nat n) src) t = decode_header src t /\
  (forall total flags rl, decode_header src t = HOk total flags rl -> total + rl = n /\ 2 <= total).
Proof.
  intros He Hn. destruct (extent_inv _ _ He) as (b0 & r & rl & k & -> & Er & -> & Hk1 & Hk4 & Hkl).
  rewrite len_cons in Hn.
  replace (N.to_nat (1 + k + rl)) with (S (N.to_nat (k + rl))) by lia. cbn [firstn].
  rewrite !decode_header_eq. unfold header_spec.
  assert (Er' : remaining_length (firstn (N.to_nat (k + rl)) r)
                = Some (rl, k, skipn (N.to_nat k) (firstn (N.to_nat (k + rl)) r))).
  { apply (remlen_prefix _ _ _ _ _ _ _ Er). apply firstn_firstn_le. lia. }
  rewrite Er, Er'.
  assert (Hne : exists x y, r = x :: y) by (destruct r; [rewrite len_nil in Hkl; lia | eauto]).
  destruct Hne as (x & y & ->).
  assert (Hne' : exists x' y', firstn (N.to_nat (k + rl)) (x :: y) = x' :: y').
  { replace (N.to_nat (k + rl)) with (S (N.to_nat (k + rl - 1))) by lia. cbn [firstn]. eauto. }
  destruct Hne' as (x' & y' & Hx). rewrite Hx. rewrite <- Hx.
  rewrite !len_skipn, len_firstn.
  assert (E1 : (N.min (N.of_nat (N.to_nat (k + rl))) (len (x :: y)) - N.of_nat (N.to_nat k) <? rl) = false) by lia.
  assert (E2 : (len (x :: y) - N.of_nat (N.to_nat k) <? rl) = false) by lia.
  rewrite E1, E2. split; [reflexivity |].
  intros total flags rl'.
  destruct (negb _); [discriminate |]. destruct (_ && _); [discriminate |].
  intros H. apply HOk_inj in H. destruct H as (<- & _ & <-). lia.
Qed.

(* reads that stay inside the cut see the same bytes *)
Lemma skipn_firstn_N (src : bytes) m total :
  skipn (N.to_nat total) (firstn (N.to_nat m) src) = firstn (N.to_nat (m - total)) (skipn (N.to_nat total) src).
Proof. rewrite skipn_firstn_comm. f_equal. lia. Qed.

Lemma rd_at_trunc_u8 src m total k1 k2 :
  total + 1 <= m -> m <= len src ->
  (forall v, k1 v (total + 1) = k2 v (total + 1)) ->
  rd_at (firstn (N.to_nat m) src) total read_uint8 k1 = rd_at src total read_uint8 k2.
Proof.
  intros H1 H2 Hk. unfold rd_at.
  rewrite !slice_from_ok by (rewrite ?len_firstn; lia).
  rewrite skipn_firstn_N. rewrite !read_uint8_eq.
  destruct (skipn (N.to_nat total) src) as [| b rest] eqn:Es.
  - pose proof (len_skipn (N.to_nat total) src) as Hl. rewrite Es, len_nil in Hl. lia.
  - replace (N.to_nat (m - total)) with (S (N.to_nat (m - total - 1))) by lia. cbn [firstn]. apply Hk.
Qed.

Lemma rd_at_trunc_u16 src m total k1 k2 :
  total + 2 <= m -> m <= len src ->
  (forall v, k1 v (total + 2) = k2 v (total + 2)) ->
  rd_at (firstn (N.to_nat m) src) total (fun buf => read_uint buf 2) k1
  = rd_at src total (fun buf => read_uint buf 2) k2.
Proof.
  intros H1 H2 Hk. unfold rd_at.
  rewrite !slice_from_ok by (rewrite ?len_firstn; lia).
  rewrite skipn_firstn_N. rewrite !read_uint_2.
  destruct (skipn (N.to_nat total) src) as [| b0 [| b1 rest]] eqn:Es.
  - pose proof (len_skipn (N.to_nat total) src) as Hl. rewrite Es, len_nil in Hl. lia.
  - pose proof (len_skipn (N.to_nat total) src) as Hl. rewrite Es, len_cons, len_nil in Hl. lia.
  - replace (N.to_nat (m - total)) with (S (S (N.to_nat (m - total - 2)))) by lia. cbn [firstn]. apply Hk.
Qed.

(* ---------- the key lemma: Decode of a non-CONNECT type only inspects the extent ---------- *)
Lemma slice_to_trunc (src : bytes) n :
  n <= len src ->
  slice_to (firstn (N.to_nat n) src) n = Some (firstn (N.to_nat n) src) /\
  slice_to src n = Some (firstn (N.to_nat n) src).
Proof.
  intros H. split.
  - rewrite slice_to_ok by (rewrite len_firstn; lia). f_equal. apply firstn_firstn_le. lia.
  - apply slice_to_ok. assumption.
Qed.

Ltac header_step src n t He Hn :=
  let Hh := fresh "Hh" in let Hx := fresh "Hx" in
  destruct (header_trunc src n t He Hn) as [Hh Hx]; rewrite Hh;
  let total := fresh "total" in let flags := fresh "flags" in let rl := fresh "rl" in
  let E := fresh "E" in
  destruct (decode_header src t) as [total flags rl | ? |] eqn:E; [| reflexivity | reflexivity];
  destruct (Hx total flags rl eq_refl) as [Hx1 Hx2].

Lemma bounded_trunc src n t (walk : bytes -> N -> N -> N -> dres) :
  extent src = Some n -> n <= len src ->
  (match decode_header (firstn (N.to_nat n) src) t with
   | HPanic => DPanic | HErr e => DErr e
   | HOk total flags rl => match slice_to (firstn (N.to_nat n) src) (total + rl) with
                           | None => DPanic | Some s => walk s total flags rl end
   end) =
  (match decode_header src t with
   | HPanic => DPanic | HErr e => DErr e
   | HOk total flags rl => match slice_to src (total + rl) with
                           | None => DPanic | Some s => walk s total flags rl end
   end).
Proof.
  intros He Hn. header_step src n t He Hn.
  rewrite Hx1. destruct (slice_to_trunc src n Hn) as [-> ->]. reflexivity.
Qed.

Theorem decode_trunc t src n :
  t <> TConnect -> extent src = Some n -> n <= len src ->
  decode_go t (firstn (N.to_nat n) src) = decode_go t src.
Proof.
  intros Ht He Hn.
  assert (Hid : forall t' mk, decode_identified t' mk (firstn (N.to_nat n) src) = decode_identified t' mk src).
  { intros t' mk. unfold decode_identified. header_step src n t' He Hn.
    destruct (negb (rl =? 2)) eqn:E2; [reflexivity |].
    apply rd_at_trunc_u16; [lia | lia | reflexivity]. }
  assert (Hnk : forall t' p, decode_naked t' p (firstn (N.to_nat n) src) = decode_naked t' p src).
  { intros t' p. unfold decode_naked. header_step src n t' He Hn. reflexivity. }
  destruct t; cbn [decode_go]; try apply Hid; try apply Hnk.
  - contradiction.
  - (* connack *)
    unfold decode_connack. header_step src n TConnack He Hn.
    destruct (negb (rl =? 2)) eqn:E2; [reflexivity |].
    apply rd_at_trunc_u8; [lia | lia |]. intros v.
    destruct (negb (N.land v 254 =? 0)); [reflexivity |].
    apply rd_at_trunc_u8; [lia | lia | reflexivity].
  - (* publish *)
    unfold decode_publish.
    exact (bounded_trunc src n TPublish _ He Hn).
  - unfold decode_subscribe. exact (bounded_trunc src n TSubscribe _ He Hn).
  - unfold decode_suback. exact (bounded_trunc src n TSuback _ He Hn).
  - unfold decode_unsubscribe. exact (bounded_trunc src n TUnsubscribe _ He Hn).
Qed.

Lemma extent_app bs tail n : extent bs = Some n -> extent (bs ++ tail) = Some n.
Proof.
  intros He. destruct (extent_inv _ _ He) as (b0 & r & rl & k & -> & Er & -> & Hk1 & Hk4 & Hkl).
  cbn [app extent]. unfold remaining_length in *.
  rewrite (remlen_prefix _ _ _ (r ++ tail) _ _ _ Er); [reflexivity |].
  rewrite firstn_app. replace (N.to_nat k - length r)%nat with 0%nat by (unfold len in Hkl; lia).
  cbn [firstn]. apply app_nil_r.
Qed.

(* C02_local *)
Theorem decode_local t bs tail n :
  t <> TConnect -> extent bs = Some n -> n <= len bs ->
  decode_go t (bs ++ tail) = decode_go t (firstn (N.to_nat n) bs).
Proof.
  intros Ht He Hn.
  rewrite <- (decode_trunc t (bs ++ tail) n Ht (extent_app _ _ _ He)) by (rewrite len_app; lia).
  f_equal. rewrite firstn_app. replace (N.to_nat n - length bs)%nat with 0%nat by (unfold len in Hn; lia).
  cbn [firstn]. apply app_nil_r.
Qed.
