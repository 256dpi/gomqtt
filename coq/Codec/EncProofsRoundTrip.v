(* EncProofsRoundTrip.v — C01_roundtrip: decoding wire_spec p gives p back and consumes all.

   Route: the decoder side proved (DecProofsSpec3.spec_equiv_framed) that on a buffer framed to
   its header-declared extent the Go decoder model decode_go and the reference decoder
   RefDecode.ref_decode (a parser-combinator grammar written from the standard) agree.  Here:
   wire_spec p is framed, and ref_decode parses it back to p. *)
From Coq Require Import List NArith ZArith Bool Lia ZifyN ZifyNat ZifyBool.
From Coq.Strings Require Import Byte.
From GM Require Import Codec.Packet Codec.WF Codec.Enc Codec.WireSpec Codec.Bytes Codec.Varint Codec.EncProofsBase Codec.EncProofsSpec
  Codec.EncProofsTypes Codec.EncProofs Codec.EncProofsTop.
From GM Require Codec.Dec Codec.RefDecode Codec.DecProofsSpec3.
Import ListNotations.
Open Scope N_scope.

Module R := RefDecode.

(* ---------------------------------------------------------------- parser steps on encoded pieces *)
Lemma u8_n2b v r : R.u8 (n2b v :: r) = Some (v mod 256, r).
Proof. cbn [R.u8]. fold (b2n (n2b v)). rewrite b2n_n2b. reflexivity. Qed.

Lemma u16_two_byte_int v r : v <= 65535 -> R.u16 (two_byte_int v ++ r) = Some (v, r).
Proof.
  intros H. unfold two_byte_int. cbn [app]. change byte_of with n2b.
  unfold R.u16, R.bind. rewrite u8_n2b, u8_n2b. unfold R.ret. do 2 f_equal. lia.
Qed.

Lemma take_app s r : R.take (blen s) (s ++ r) = Some (s, r).
Proof.
  unfold R.take. replace (blen s <=? R.blen (s ++ r)) with true.
  - fold (Enc.take (blen s) (s ++ r)). fold (Enc.drop (blen s) (s ++ r)).
    rewrite take_app_exact, drop_app_exact. reflexivity.
  - symmetry. apply N.leb_le. change R.blen with blen. rewrite blen_app. lia.
Qed.

Lemma lp_bytes_prefixed s r : blen s <= 65535 -> R.lp_bytes (prefixed s ++ r) = Some (s, r).
Proof.
  intros H. unfold prefixed, R.lp_bytes, R.bind. rewrite <- app_assoc, size_blen.
  rewrite u16_two_byte_int by exact H. apply take_app.
Qed.

Lemma packet_id_ok id r : 1 <= id <= 65535 -> R.packet_id (two_byte_int id ++ r) = Some (id, r).
Proof.
  intros H. unfold R.packet_id, R.bind. rewrite u16_two_byte_int by lia.
  replace (id =? 0) with false by (symmetry; apply N.eqb_neq; lia). reflexivity.
Qed.

(* lists: every element encoded by enc, parsed back by p *)
Lemma many_fuel_concat {A} (p : R.parser A) (enc : A -> bytes) (l : list A) :
  (forall x r, In x l -> p (enc x ++ r) = Some (x, r)) ->
  (forall x, In x l -> enc x <> []) ->
  forall fuel, (length l <= fuel)%nat -> R.many_fuel fuel p (concat (map enc l)) = Some (l, []).
Proof.
  induction l as [| x l IH]; intros Hp Hn fuel Hf.
  - destruct fuel; reflexivity.
  - cbn [map concat]. destruct fuel as [| fuel]; [cbn [length] in Hf; lia |].
    assert (Hx : enc x <> []) by (apply Hn; left; reflexivity).
    destruct (enc x ++ concat (map enc l)) as [| b s] eqn:E.
    { apply app_eq_nil in E. destruct E as [E _]. contradiction. }
    rewrite <- E. cbn [R.many_fuel]. rewrite E. rewrite <- E.
    rewrite Hp by (left; reflexivity).
    rewrite IH; [reflexivity | | | cbn [length] in Hf; lia].
    + intros y r Hy. apply Hp. right. exact Hy.
    + intros y Hy. apply Hn. right. exact Hy.
Qed.

Lemma concat_length_ge {A} (enc : A -> bytes) (l : list A) :
  (forall x, In x l -> enc x <> []) -> (length l <= length (concat (map enc l)))%nat.
Proof.
  induction l as [| x l IH]; intros Hn; [cbn; lia |].
  cbn [map concat length]. rewrite app_length.
  assert (Hx : enc x <> []) by (apply Hn; left; reflexivity).
  destruct (enc x) as [| b s]; [contradiction |]. cbn [length].
  specialize (IH (fun y Hy => Hn y (or_intror Hy))). lia.
Qed.

Lemma many1_concat {A} (p : R.parser A) (enc : A -> bytes) (l : list A) :
  l <> [] ->
  (forall x r, In x l -> p (enc x ++ r) = Some (x, r)) ->
  (forall x, In x l -> enc x <> []) ->
  R.many1 p (concat (map enc l)) = Some (l, []).
Proof.
  intros Hl Hp Hn. unfold R.many1.
  destruct (concat (map enc l)) as [| b s] eqn:E.
  - destruct l as [| x l]; [contradiction |]. cbn [map concat] in E.
    apply app_eq_nil in E. destruct E as [E _]. exfalso. apply (Hn x); [left; reflexivity | exact E].
  - rewrite <- E. apply many_fuel_concat; [exact Hp | exact Hn | apply concat_length_ge; exact Hn].
Qed.

(* ---------------------------------------------------------------- framing *)
Lemma wf_extent p : wf p = true -> R.extent (wire_spec p) = Some (Dec.len (wire_spec p)).
Proof.
  intros W. change Dec.len with blen. rewrite blen_wire_spec by exact W.
  rewrite wire_spec_shape. cbn [app R.extent].
  rewrite remaining_length_rlb by (apply wf_body_len in W; exact W).
  unfold total_len. reflexivity.
Qed.

(* ---------------------------------------------------------------- the first byte *)
Lemma first_byte_split tv fl : tv <= 15 -> fl <= 15 ->
  Byte.to_N (n2b (16 * tv + fl)) / 16 = tv /\ Byte.to_N (n2b (16 * tv + fl)) mod 16 = fl.
Proof. intros H1 H2. fold (b2n (n2b (16 * tv + fl))). rewrite b2n_n2b. split; lia. Qed.

Lemma type_value_code p : type_value p = type_code (ptype_of p).
Proof. destruct p; reflexivity. Qed.

Lemma type_value_le p : type_value p <= 15.
Proof. destruct p; cbn [type_value]; lia. Qed.

(* reading the fixed header of wire_spec p leaves the grammar of the type on the body *)
Lemma ref_decode_shape p : wf p = true -> flag_bits p <= 15 ->
  (ptype_of p = TPublish \/ flag_bits p = R.reserved_flags (ptype_of p)) ->
  R.ref_decode (ptype_of p) (wire_spec p) =
  match R.parse_all (R.body_grammar (ptype_of p) (flag_bits p)) (variable_header p ++ payload p) with
  | Some q => Some (q, total_len p)
  | None => None
  end.
Proof.
  intros W Hf Hr. rewrite wire_spec_shape. cbn [app R.ref_decode].
  destruct (first_byte_split (type_value p) (flag_bits p) (type_value_le p) Hf) as [E1 E2].
  rewrite E1, E2, type_value_code, N.eqb_refl. cbn [negb].
  assert (G : negb (ptype_eqb (ptype_of p) TPublish) && negb (flag_bits p =? R.reserved_flags (ptype_of p)) = false).
  { destruct Hr as [Hr | Hr]; [rewrite Hr; reflexivity | rewrite Hr, N.eqb_refl; apply andb_false_r]. }
  rewrite G. rewrite remaining_length_rlb by (apply wf_body_len in W; exact W).
  change R.blen with blen. rewrite body_size.
  replace (body_len p <? body_len p) with false by (symmetry; apply N.ltb_ge; lia).
  rewrite <- (body_size p) at 1. fold (Enc.take (blen (variable_header p ++ payload p)) (variable_header p ++ payload p)).
  rewrite take_all by lia. unfold total_len.
  destruct (R.parse_all _ _); reflexivity.
Qed.

(* ---------------------------------------------------------------- the grammar parses each body back *)
Definition parses (p : packet) : Prop :=
  R.parse_all (R.body_grammar (ptype_of p) (flag_bits p)) (variable_header p ++ payload p) = Some p.

Lemma parses_identified id (mk : N -> packet) :
  1 <= id <= 65535 -> R.parse_all (R.id_body mk) (two_byte_int id ++ []) = Some (mk id).
Proof.
  intros H. unfold R.parse_all, R.id_body, R.bind. rewrite packet_id_ok by exact H. reflexivity.
Qed.

Lemma parses_connack sp rc : rc <= 5 -> parses (Connack sp rc).
Proof.
  intros H. unfold parses. cbn [ptype_of flag_bits variable_header payload R.body_grammar app].
  unfold R.parse_all, R.connack_body, R.bind. change byte_of with n2b. rewrite u8_n2b.
  assert (B : bit sp mod 256 = bit sp) by (destruct sp; reflexivity). rewrite B.
  replace (bit sp <=? 1) with true by (destruct sp; reflexivity). cbn [R.guard].
  rewrite u8_n2b, N.mod_small by lia.
  replace (rc <=? 5) with true by (symmetry; apply N.leb_le; exact H). cbn [R.guard R.ret].
  destruct sp; reflexivity.
Qed.

Lemma publish_flag_bits dup retain qos : qos <= 2 ->
  let f := 8 * bit dup + 2 * qos + bit retain in
  R.testbit f 3 = dup /\ (f / 2) mod 4 = qos /\ R.testbit f 0 = retain.
Proof.
  intros H. cbv zeta. unfold R.testbit. change (2 ^ 3) with 8. change (2 ^ 0) with 1.
  destruct dup, retain; cbn [bit]; repeat split;
    first [ apply N.eqb_eq; lia | apply N.eqb_neq; lia | lia ].
Qed.

Lemma parses_publish dup m id :
  msg_ok m = true -> (if m_qos m =? 0 then id =? 0 else id_ok id) = true -> parses (Publish dup m id).
Proof.
  intros Wm Wi. unfold msg_ok in Wm. rewrite !andb_true_iff in Wm. destruct Wm as [[Wm1 Wm2] Wm3].
  rewrite nonempty_present in Wm1. unfold str_ok in Wm2. unfold qos_ok in Wm3. leb_hyps.
  unfold parses. cbn [ptype_of flag_bits variable_header payload R.body_grammar].
  destruct (publish_flag_bits dup (m_retain m) (m_qos m) Wm3) as (F1 & F2 & F3).
  unfold R.parse_all, R.publish_body, R.bind. rewrite F1, F2, F3.
  replace (m_qos m <=? 2) with true by (symmetry; apply N.leb_le; exact Wm3). cbn [R.guard].
  rewrite <- app_assoc. rewrite lp_bytes_prefixed by exact Wm2.
  change R.blen with blen. rewrite blen_eq0_present, Wm1. cbn [negb R.guard].
  destruct m as [topic pl qos retain]. cbn [m_qos m_topic m_payload m_retain] in *.
  destruct (qos =? 0) eqn:Q; leb_hyps.
  - subst id. cbn [app R.ret R.rest]. reflexivity.
  - apply id_ok_iff in Wi. rewrite packet_id_ok by exact Wi. cbn [R.rest]. reflexivity.
Qed.

Lemma parses_subscribe id subs :
  1 <= id <= 65535 -> subs <> [] ->
  forallb (fun s => str_ok (fst s) && qos_ok (snd s)) subs = true -> parses (Subscribe id subs).
Proof.
  intros Hid Hn Hl. unfold parses. cbn [ptype_of flag_bits variable_header payload R.body_grammar].
  unfold R.parse_all, R.subscribe_body, R.bind. rewrite packet_id_ok by exact Hid.
  rewrite many1_concat; [reflexivity | exact Hn | |].
  - intros [t q] r Hin. rewrite forallb_forall in Hl. specialize (Hl _ Hin). cbn [fst snd] in *.
    apply andb_true_iff in Hl. destruct Hl as [H1 H2]. unfold str_ok in H1. unfold qos_ok in H2. leb_hyps.
    rewrite <- app_assoc. rewrite lp_bytes_prefixed by exact H1. cbn [app]. change byte_of with n2b.
    unfold R.qos_byte, R.bind. rewrite u8_n2b, N.mod_small by lia.
    replace (q <=? 2) with true by (symmetry; apply N.leb_le; exact H2). reflexivity.
  - intros [t q] _ E. apply app_eq_nil in E. destruct E as [_ E]. discriminate E.
Qed.

Lemma map_singletons codes : map byte_of codes = concat (map (fun c => [byte_of c]) codes).
Proof. induction codes as [| c l IH]; [reflexivity |]. cbn [map concat app]. rewrite IH. reflexivity. Qed.

Lemma parses_suback id codes :
  1 <= id <= 65535 -> codes <> [] ->
  forallb (fun c => qos_ok c || (c =? 128)) codes = true -> parses (Suback id codes).
Proof.
  intros Hid Hn Hl. unfold parses. cbn [ptype_of flag_bits variable_header payload R.body_grammar].
  unfold R.parse_all, R.suback_body, R.bind. rewrite packet_id_ok by exact Hid.
  rewrite map_singletons.
  rewrite many1_concat; [reflexivity | exact Hn | |].
  - intros c r Hin. rewrite forallb_forall in Hl. specialize (Hl _ Hin).
    cbn [app]. change byte_of with n2b. rewrite u8_n2b.
    assert (Hc : c <= 128).
    { apply orb_true_iff in Hl. destruct Hl as [Hl | Hl]; unfold qos_ok in *; leb_hyps; lia. }
    rewrite N.mod_small by lia. unfold qos_ok in Hl. rewrite Hl. reflexivity.
  - intros c _ E. discriminate E.
Qed.

Lemma parses_unsubscribe id ts :
  1 <= id <= 65535 -> ts <> [] -> forallb str_ok ts = true -> parses (Unsubscribe id ts).
Proof.
  intros Hid Hn Hl. unfold parses. cbn [ptype_of flag_bits variable_header payload R.body_grammar].
  unfold R.parse_all, R.unsubscribe_body, R.bind. rewrite packet_id_ok by exact Hid.
  rewrite many1_concat; [reflexivity | exact Hn | |].
  - intros t r Hin. rewrite forallb_forall in Hl. specialize (Hl _ Hin). unfold str_ok in Hl. leb_hyps.
    apply lp_bytes_prefixed. exact Hl.
  - intros t _ E. unfold prefixed, two_byte_int in E. discriminate E.
Qed.

Lemma nonempty_neq {A} (l : list A) : nonempty l = true -> l <> [].
Proof. destruct l; [discriminate | discriminate]. Qed.

(* ---------------------------------------------------------------- connect *)
Definition cfb (bu bp bc : bool) (w : option (N * bool)) : N :=
  128 * bit bu + 64 * bit bp
  + match w with Some (q, r) => 32 * bit r + 8 * q + 4 | None => 0 end
  + 2 * bit bc.

Lemma cfb_bits bu bp bc w :
  match w with Some (q, _) => q <= 2 | None => True end ->
  let fl := cfb bu bp bc w in
  fl mod 256 = fl /\
  R.testbit fl 7 = bu /\ R.testbit fl 6 = bp /\
  R.testbit fl 5 = match w with Some (_, r) => r | None => false end /\
  (fl / 8) mod 4 = match w with Some (q, _) => q | None => 0 end /\
  R.testbit fl 2 = match w with Some _ => true | None => false end /\
  R.testbit fl 1 = bc /\ R.testbit fl 0 = false.
Proof.
  intros H. destruct w as [[q r] |].
  - assert (C : q = 0 \/ q = 1 \/ q = 2) by lia.
    destruct C as [-> | [-> | ->]]; destruct bu, bp, bc, r; vm_compute; repeat split; reflexivity.
  - destruct bu, bp, bc; vm_compute; repeat split; reflexivity.
Qed.

Lemma connect_flag_byte_cfb k :
  connect_flag_byte k =
  cfb (present (c_username k)) (present (c_password k)) (c_clean k)
      (match c_will k with Some w => Some (m_qos w, m_retain w) | None => None end).
Proof. unfold connect_flag_byte, cfb. destruct (c_will k); reflexivity. Qed.

Lemma optional_parse flag s r : blen s <= 65535 -> flag = present s ->
  (if flag then R.lp_bytes else R.ret []) (optional s ++ r) = Some (s, r).
Proof.
  intros H ->. unfold optional. destruct s as [| x s'] eqn:E.
  - reflexivity.
  - cbn [present]. rewrite <- E in *. apply lp_bytes_prefixed. exact H.
Qed.

Lemma parses_connect k : wf (Connect k) = true -> parses (Connect k).
Proof.
  intros W. destruct (wf_connect k W) as (Hv & Wk & Wc & Wu & Wp & Wcc & Wup & Ww).
  unfold parses. cbn [ptype_of flag_bits variable_header payload R.body_grammar].
  rewrite <- !app_assoc. cbn [app]. change byte_of with n2b.
  unfold R.parse_all, R.connect_body. unfold R.bind at 1.
  rewrite lp_bytes_prefixed by (rewrite blen_protocol_name; unfold proto_name_len; destruct (c_version k =? 3); lia).
  unfold R.bind at 1. rewrite u8_n2b.
  assert (Hg : (bytes_eqb (protocol_name (c_version k)) R.MQTT && (c_version k mod 256 =? 4))
               || (bytes_eqb (protocol_name (c_version k)) R.MQIsdp && (c_version k mod 256 =? 3)) = true).
  { destruct Hv as [-> | ->]; reflexivity. }
  unfold R.bind at 1. rewrite Hg. cbn [R.guard].
  assert (Hm : c_version k mod 256 = c_version k) by (destruct Hv as [-> | ->]; reflexivity).
  rewrite Hm.
  unfold R.bind at 1. rewrite u8_n2b. rewrite connect_flag_byte_cfb.
  set (wopt := match c_will k with Some w => Some (m_qos w, m_retain w) | None => None end).
  assert (Hq : match wopt with Some (q, _) => q <= 2 | None => True end).
  { subst wopt. destruct (c_will k) as [w |]; [apply Ww | exact I]. }
  destruct (cfb_bits (present (c_username k)) (present (c_password k)) (c_clean k) wopt Hq)
    as (B0 & B7 & B6 & B5 & B43 & B2 & B1 & Bz).
  rewrite B0. cbv zeta. rewrite B7, B6, B5, B43, B2, B1, Bz. cbn [negb].
  unfold R.bind at 1. cbn [R.guard].
  assert (G2 : (match wopt with Some (q, _) => q | None => 0 end <=? 2) = true).
  { apply N.leb_le. destruct wopt as [[q r] |]; [exact Hq | apply N.le_0_l]. }
  unfold R.bind at 1. rewrite G2. cbn [R.guard].
  assert (G3 : match wopt with Some _ => true | None => false end
               || ((match wopt with Some (q, _) => q | None => 0 end =? 0)
                   && negb match wopt with Some (_, r) => r | None => false end) = true).
  { destruct wopt as [[q r] |]; reflexivity. }
  unfold R.bind at 1. rewrite G3. cbn [R.guard].
  unfold R.bind at 1. rewrite Wup. cbn [R.guard].
  unfold R.bind at 1. rewrite u16_two_byte_int by exact Wk.
  unfold R.bind at 1. rewrite lp_bytes_prefixed by exact Wc.
  change R.blen with blen. rewrite blen_eq0_present, negb_involutive.
  unfold R.bind at 1. rewrite Wcc. cbn [R.guard].
  destruct k as [cid ka user pass clean will ver]. cbn [c_client_id c_keep_alive c_username c_password c_clean c_will c_version] in *.
  subst wopt. destruct will as [w |].
  - destruct Ww as (Wt1 & Wt2 & _ & Wpl).
    unfold R.bind at 1. unfold R.bind at 1.
    rewrite <- !app_assoc. rewrite lp_bytes_prefixed by exact Wt2.
    unfold R.bind at 1. rewrite blen_eq0_present, Wt1. cbn [negb R.guard].
    unfold R.bind at 1. rewrite lp_bytes_prefixed by exact Wpl. cbn [R.ret].
    unfold R.bind at 1. rewrite optional_parse by (exact Wu || reflexivity).
    unfold R.bind at 1. rewrite <- (app_nil_r (optional pass)). rewrite optional_parse by (exact Wp || reflexivity).
    cbn [R.ret]. destruct w. reflexivity.
  - unfold R.bind at 1. cbn [R.ret app].
    unfold R.bind at 1. rewrite optional_parse by (exact Wu || reflexivity).
    unfold R.bind at 1. rewrite <- (app_nil_r (optional pass)). rewrite optional_parse by (exact Wp || reflexivity).
    reflexivity.
Qed.

(* ---------------------------------------------------------------- the theorem *)
Lemma wf_parses p : wf p = true -> parses p.
Proof.
  intros W. pose proof W as W0.
  destruct p as [c | sp rc | dup m id | id | id | id | id | id subs | id codes | id ts | id | | |];
    unfold wf in W; rewrite ?andb_true_iff in W; try apply proj2 in W.
  - apply parses_connect. exact W0.
  - apply parses_connack, N.leb_le, W.
  - apply parses_publish; apply W.
  - apply (parses_identified id Puback), id_ok_iff, W.
  - apply (parses_identified id Pubrec), id_ok_iff, W.
  - apply (parses_identified id Pubrel), id_ok_iff, W.
  - apply (parses_identified id Pubcomp), id_ok_iff, W.
  - apply parses_subscribe; [apply id_ok_iff | apply nonempty_neq |]; apply W.
  - apply parses_suback; [apply id_ok_iff | apply nonempty_neq |]; apply W.
  - apply parses_unsubscribe; [apply id_ok_iff | apply nonempty_neq |]; apply W.
  - apply (parses_identified id Unsuback), id_ok_iff, W.
  - reflexivity.
  - reflexivity.
  - reflexivity.
Qed.

Lemma wf_flag_bits p : wf p = true ->
  flag_bits p <= 15 /\ (ptype_of p = TPublish \/ flag_bits p = R.reserved_flags (ptype_of p)).
Proof.
  intros W. destruct p as [c | sp rc | dup m id | id | id | id | id | id subs | id codes | id ts | id | | |];
    cbn [flag_bits ptype_of R.reserved_flags]; try (split; [lia | right; reflexivity]).
  destruct (wf_publish dup m id W) as (_ & _ & _ & Wq & _).
  split; [destruct dup, (m_retain m); cbn [bit]; lia | left; reflexivity].
Qed.

Theorem ref_roundtrip p : wf p = true -> R.ref_decode (ptype_of p) (wire_spec p) = Some (p, total_len p).
Proof.
  intros W. destruct (wf_flag_bits p W) as [F1 F2].
  rewrite ref_decode_shape by assumption. pose proof (wf_parses p W) as P. unfold parses in P.
  rewrite P. reflexivity.
Qed.

Theorem roundtrip p : wf p = true -> Dec.decode_go (ptype_of p) (wire_spec p) = Dec.DOk p (total_len p).
Proof.
  intros W. apply (DecProofsSpec3.spec_equiv_framed _ _ _ _ (wf_extent p W)).
  apply ref_roundtrip. exact W.
Qed.
