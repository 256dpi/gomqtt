(* EncProofsSpec.v — the first byte of the fixed header as the standard writes it, Len() as
   the size computed from the fields, and what wf says per type. *)
From Coq Require Import List NArith ZArith Bool Lia ZifyN ZifyNat ZifyBool.
From Coq.Strings Require Import Byte.
From GM Require Import Codec.Packet Codec.WF Codec.Enc Codec.WireSpec Codec.Bytes Codec.Varint Codec.EncProofsBase.
Import ListNotations.
Open Scope N_scope.

Lemma size_blen b : size b = blen b.
Proof. reflexivity. Qed.

Lemma type_code_lt t : type_code t < 16.
Proof. destruct t; reflexivity. Qed.
Lemma default_flags_lt t : default_flags t < 16.
Proof. destruct t; reflexivity. Qed.

(* type nibble and flag nibble do not overlap: the lor of encodeHeader is a sum *)
Lemma first_byte_eq t flags : flags < 16 ->
  first_byte t flags = n2b (16 * type_code t + N.lor (default_flags t) flags).
Proof.
  intros Hf. pose proof (type_code_lt t) as Ht. pose proof (default_flags_lt t) as Hd.
  unfold first_byte. rewrite N.mod_small by lia.
  change 15 with (N.ones 4). rewrite N.land_ones, N.mod_small by exact Hd.
  rewrite <- N.lor_assoc, N.lor_comm. change 16 with (2 ^ 4) in *.
  rewrite <- N.shiftl_mul_pow2, lor_shiftl_add by (apply lor_lt_pow2; assumption).
  f_equal. lia.
Qed.

Lemma first_byte_plain t : first_byte t 0 = n2b (16 * type_code t + default_flags t).
Proof. rewrite first_byte_eq, N.lor_0_r by reflexivity. reflexivity. Qed.

(* the flag nibble Publish.Encode assembles: DUP(3) QoS(2-1) RETAIN(0) *)
Definition publish_flags (dup retain : bool) (qos : N) : N :=
  let flags := 0 in
  let flags := if dup then N.lor flags 8 else flags in
  let flags := if retain then N.lor flags 1 else flags in
  N.lor (N.land flags 249) ((qos * 2) mod 256).

Lemma publish_flags_eq dup retain qos : qos <= 2 ->
  publish_flags dup retain qos = 8 * bit dup + 2 * qos + bit retain.
Proof.
  intros H. assert (C : qos = 0 \/ qos = 1 \/ qos = 2) by lia.
  destruct C as [-> | [-> | ->]]; destruct dup, retain; reflexivity.
Qed.

(* ---------------------------------------------------------------- sums *)
Lemma subscribe_plen_loop_sum subs : forall acc,
  subscribe_plen_loop acc subs = acc + fold_right (fun s a => lp (fst s) + 1 + a) 0 subs.
Proof.
  induction subs as [| s more IH]; intros acc; cbn [subscribe_plen_loop fold_right]; [lia |].
  rewrite IH. unfold lp. lia.
Qed.

Lemma unsubscribe_plen_loop_sum ts : forall acc,
  unsubscribe_plen_loop acc ts = acc + fold_right (fun t a => lp t + a) 0 ts.
Proof.
  induction ts as [| t more IH]; intros acc; cbn [unsubscribe_plen_loop fold_right]; [lia |].
  rewrite IH. unfold lp. lia.
Qed.

Lemma present_blen s : (0 <? blen s) = present s.
Proof. destruct s; [reflexivity |]. rewrite blen_cons. cbn [present]. apply N.ltb_lt. lia. Qed.
Lemma nonempty_present s : nonempty s = present s.
Proof. destruct s; reflexivity. Qed.
Lemma blen_eq0_present s : (blen s =? 0) = negb (present s).
Proof. destruct s; [reflexivity |]. rewrite blen_cons. cbn [present negb]. apply N.eqb_neq. lia. Qed.

Lemma opt_lp_present s : opt_lp s = if present s then 2 + blen s else 0.
Proof. destruct s; reflexivity. Qed.

(* ---------------------------------------------------------------- Len() = total_len *)
(* the type's len() is the remaining length computed from the field sizes *)
Definition plen_go (p : packet) : N :=
  match p with
  | Connect c => connect_plen c
  | Connack _ _ => 2
  | Publish _ m _ => publish_plen m
  | Puback _ | Pubrec _ | Pubrel _ | Pubcomp _ | Unsuback _ => 2
  | Subscribe _ subs => subscribe_plen subs
  | Suback _ codes => suback_plen codes
  | Unsubscribe _ ts => unsubscribe_plen ts
  | Pingreq | Pingresp | Disconnect => 0
  end.

Lemma len_go_plen p : len_go p = header_len_go (plen_go p) + plen_go p.
Proof. destruct p; reflexivity. Qed.

Lemma plen_go_body_len p : plen_go p = body_len p.
Proof.
  destruct p as [c | | dup m id | | | | | id subs | id codes | id ts | | | |]; cbn [plen_go body_len]; try reflexivity.
  - unfold connect_plen, proto_name_len, will_len, lp. rewrite !present_blen, !opt_lp_present.
    destruct (c_version c =? 3), (c_will c), (present (c_username c)), (present (c_password c)); lia.
  - unfold publish_plen, lp. destruct (m_qos m =? 0); cbn [negb]; lia.
  - unfold subscribe_plen. rewrite subscribe_plen_loop_sum. reflexivity.
  - unfold unsubscribe_plen. rewrite unsubscribe_plen_loop_sum. reflexivity.
Qed.

Lemma wf_body_len p : wf p = true -> body_len p <= max_remaining.
Proof. unfold wf. intros H. apply andb_true_iff in H. destruct H as [H _]. apply N.leb_le. exact H. Qed.

Theorem len_go_total_len p : wf p = true -> len_go p = total_len p.
Proof.
  intros H. rewrite len_go_plen, plen_go_body_len. unfold total_len, header_len_go.
  rewrite varint_len_go_eq by (apply wf_body_len; exact H). lia.
Qed.

Lemma id_ok_iff i : id_ok i = true <-> 1 <= i <= 65535.
Proof. unfold id_ok. rewrite andb_true_iff, !N.leb_le. tauto. Qed.

Lemma msg_ok_inv m : msg_ok m = true ->
  present (m_topic m) = true /\ blen (m_topic m) <= 65535 /\ m_qos m <= 2.
Proof.
  unfold msg_ok, str_ok, qos_ok. rewrite !andb_true_iff, !N.leb_le, nonempty_present. tauto.
Qed.

Lemma wf_publish dup m id : wf (Publish dup m id) = true ->
  body_len (Publish dup m id) <= max_remaining /\ present (m_topic m) = true /\ blen (m_topic m) <= 65535 /\
  m_qos m <= 2 /\ (if m_qos m =? 0 then id =? 0 else id_ok id) = true.
Proof.
  intros W. pose proof (wf_body_len _ W) as Wb. unfold wf in W. rewrite !andb_true_iff in W.
  destruct W as [_ [Wm Wi]]. destruct (msg_ok_inv m Wm) as (W1 & W2 & W3). tauto.
Qed.

Lemma wf_connect k : wf (Connect k) = true ->
  (c_version k = 3 \/ c_version k = 4) /\ c_keep_alive k <= 65535 /\
  blen (c_client_id k) <= 65535 /\ blen (c_username k) <= 65535 /\ blen (c_password k) <= 65535 /\
  (present (c_client_id k) || c_clean k) = true /\
  (present (c_username k) || negb (present (c_password k))) = true /\
  match c_will k with
  | None => True
  | Some m => present (m_topic m) = true /\ blen (m_topic m) <= 65535 /\ m_qos m <= 2 /\ blen (m_payload m) <= 65535
  end.
Proof.
  unfold wf, str_ok. rewrite !andb_true_iff, orb_true_iff, !N.leb_le, !N.eqb_eq, !nonempty_present.
  intros (_ & ((((((Wv & Wk) & Wc) & Wu) & Wp) & Wcc) & Wup) & Ww). repeat (split; [assumption |]).
  destruct (c_will k) as [m |]; [| exact I]. apply andb_true_iff in Ww. destruct Ww as [Wm Wpl].
  destruct (msg_ok_inv m Wm) as (W1 & W2 & W3). apply N.leb_le in Wpl. tauto.
Qed.
