(* EncProofsTypes.v — every Encode of Enc.v walked once, for ALL packets, into a buffer that
   holds at least Len() bytes: either every check passes and the encoding stands at the start
   of the buffer (the _at lemmas), or an error is returned; never a panic.  Into a buffer that is
   too short encodeHeader fails first (the short_ lemmas). *)
From Coq Require Import List NArith ZArith Bool Lia ZifyN ZifyNat ZifyBool.
From Coq.Strings Require Import Byte.
From GM Require Import Codec.Packet Codec.WF Codec.Enc Codec.WireSpec Codec.Bytes Codec.Varint
  Codec.EncProofsBase Codec.EncProofsSpec.
Import ListNotations.
Open Scope N_scope.

(* what an Encode into a buffer of at least L bytes may do *)
Definition fits_ok (L : N) (dst : bytes) (r : bres) : Prop :=
  match r with
  | BOk n d => n = L /\ blen d = blen dst
  | BErr _ => True
  | BPanic => False
  end.

Definition is_err (r : bres) : Prop := exists n, r = BErr n.

Ltac leb_hyps :=
  repeat match goal with
  | H : (_ <=? _) = true |- _ => apply N.leb_le in H
  | H : (_ <=? _) = false |- _ => apply N.leb_gt in H
  | H : (_ <? _) = true |- _ => apply N.ltb_lt in H
  | H : (_ <? _) = false |- _ => apply N.ltb_ge in H
  | H : (_ =? _) = true |- _ => apply N.eqb_eq in H
  | H : (_ =? _) = false |- _ => apply N.eqb_neq in H
  end.

Lemma header_len_go_pos rl : 1 <= header_len_go rl.
Proof. unfold header_len_go. lia. Qed.

(* the length of what has been written so far, piece by piece *)
Ltac blens :=
  rewrite ?blen_app, ?blen_cons, ?blen_nil, ?blen_prefixed, ?blen_two_byte_int, ?blen_hdr
    by (assumption || (unfold max_varint; lia)).
(* a capacity side condition, from the hypothesis  header_len_go rl + rl <= blen dst *)
Ltac cap := blens; lia.

Lemma at_fits dst s w (ok : bool) n L :
  s = (if ok then SOk (cur_at dst w) else SErr n) -> (ok = true -> blen w = L) -> L <= blen dst ->
  fits_ok L dst (finish s).
Proof.
  intros -> Hw HL. destruct ok; [| exact I]. rewrite finish_at. cbn [fits_ok].
  rewrite blen_app, blen_drop, Hw by reflexivity. split; [reflexivity | lia].
Qed.

Lemma header_short dst flags rl tl t k :
  blen dst < tl -> is_err (finish (do c <- encode_header dst flags rl tl t; k c)).
Proof. intros H. rewrite encode_header_short by exact H. eexists; reflexivity. Qed.

(* ---------------------------------------------------------------- naked *)
Lemma encode_naked_at dst t : naked_len <= blen dst -> encode_naked dst t = SOk (cur_at dst (hdr t 0 0)).
Proof. intros H. unfold encode_naked. rewrite encode_header_at by exact H. reflexivity. Qed.

Lemma fits_naked dst t : naked_len <= blen dst -> fits_ok naked_len dst (finish (encode_naked dst t)).
Proof.
  intros H. apply (at_fits dst _ (hdr t 0 0) true 0); [apply encode_naked_at; exact H | reflexivity | exact H].
Qed.

Lemma short_naked dst t : blen dst < naked_len -> is_err (finish (encode_naked dst t)).
Proof. intros H. unfold encode_naked. rewrite encode_header_short by exact H. eexists; reflexivity. Qed.

(* ---------------------------------------------------------------- identified *)
Lemma encode_identified_at dst id t : identified_len <= blen dst ->
  exists n, encode_identified dst id t =
            if id_valid id then SOk (cur_at dst (hdr t 0 2 ++ two_byte_int id)) else SErr n.
Proof.
  unfold identified_len. intros H. unfold encode_identified.
  destruct (id_valid id); cbn [negb]; [| eexists; reflexivity].
  rewrite encode_header_len by exact H. change (2 <=? max_varint) with true. cbn [sbind].
  rewrite put_u16_at by cap. exists 0; reflexivity.
Qed.

Lemma fits_identified dst id t :
  identified_len <= blen dst -> fits_ok identified_len dst (finish (encode_identified dst id t)).
Proof.
  intros H. destruct (encode_identified_at dst id t H) as [n E].
  apply (at_fits _ _ _ _ _ _ E); [reflexivity | exact H].
Qed.

Lemma short_identified dst id t :
  blen dst < identified_len -> is_err (finish (encode_identified dst id t)).
Proof.
  intros H. unfold encode_identified. destruct (negb (id_valid id)); [eexists; reflexivity |].
  apply header_short. exact H.
Qed.

(* ---------------------------------------------------------------- connack *)
Lemma encode_connack_at dst sp rc : connack_len <= blen dst ->
  exists n, encode_connack dst sp rc =
            if rc <=? 5 then SOk (cur_at dst (hdr TConnack 0 2 ++ [n2b (bit sp); n2b rc])) else SErr n.
Proof.
  unfold connack_len. intros H. unfold encode_connack.
  rewrite encode_header_len by exact H. change (2 <=? max_varint) with true. cbn [sbind].
  rewrite put_u8_at by cap. cbn [sbind]. destruct (rc <=? 5); cbn [negb]; [| eexists; reflexivity].
  rewrite put_u8_at by cap. rewrite <- app_assoc. exists 0; reflexivity.
Qed.

Lemma fits_connack dst sp rc :
  connack_len <= blen dst -> fits_ok connack_len dst (finish (encode_connack dst sp rc)).
Proof.
  intros H. destruct (encode_connack_at dst sp rc H) as [n E].
  apply (at_fits _ _ _ _ _ _ E); [reflexivity | exact H].
Qed.

Lemma short_connack dst sp rc : blen dst < connack_len -> is_err (finish (encode_connack dst sp rc)).
Proof. apply header_short. Qed.

(* `loop` writes the elements of l one after the other with `step`; `step` writes enc a or fails *)
Lemma walk_at {A} (step : cur -> A -> sres) (enc : A -> bytes) (ok : A -> bool) (loop : cur -> list A -> sres) :
  (forall c, loop c [] = SOk c) ->
  (forall c a l, loop c (a :: l) = do c' <- step c a; loop c' l) ->
  (forall dst w a, blen w + blen (enc a) <= blen dst ->
     exists n, step (cur_at dst w) a = if ok a then SOk (cur_at dst (w ++ enc a)) else SErr n) ->
  forall l dst w, blen w + blen (concat (map enc l)) <= blen dst ->
  exists n, loop (cur_at dst w) l =
            if forallb ok l then SOk (cur_at dst (w ++ concat (map enc l))) else SErr n.
Proof.
  intros Hnil Hcons Hstep. induction l as [| a l IH]; intros dst w H; cbn [map concat forallb] in *.
  - rewrite Hnil, app_nil_r. exists 0; reflexivity.
  - rewrite blen_app in H. rewrite Hcons. destruct (Hstep dst w a ltac:(lia)) as [n ->].
    destruct (ok a); cbn [sbind andb]; [| eexists; reflexivity].
    destruct (IH dst (w ++ enc a) ltac:(rewrite blen_app; lia)) as [n' ->].
    rewrite <- app_assoc. eexists; reflexivity.
Qed.

Lemma blen_concat {A} (enc : A -> bytes) (f : A -> N) l :
  (forall a, blen (enc a) = f a) -> blen (concat (map enc l)) = fold_right (fun a acc => f a + acc) 0 l.
Proof.
  intros H. induction l as [| a l IH]; [reflexivity |]. cbn [map concat fold_right].
  rewrite blen_app, H, IH. reflexivity.
Qed.

(* ---------------------------------------------------------------- suback *)
Definition code_ok (rc : N) : bool := qos_successful rc || (rc =? 128).

Lemma encode_codes_at codes dst w : blen w + N.of_nat (length codes) <= blen dst ->
  exists n, encode_codes (cur_at dst w) codes =
            if forallb code_ok codes then SOk (cur_at dst (w ++ map n2b codes)) else SErr n.
Proof.
  assert (E : map n2b codes = concat (@map N bytes (fun rc => [n2b rc]) codes)).
  { induction codes as [| rc l IH]; [reflexivity |]. cbn [map concat app]. rewrite IH. reflexivity. }
  intros H. rewrite E.
  apply (walk_at (fun c rc => if negb (qos_successful rc) && negb (rc =? 128) then SErr 0 else put_u8 c rc)).
  - reflexivity.
  - intros c rc l. cbn [encode_codes]. destruct (negb _ && negb _); reflexivity.
  - intros dst' w' rc Hc. unfold code_ok. rewrite <- negb_orb.
    destruct (qos_successful rc || (rc =? 128)); cbn [negb]; [| eexists; reflexivity].
    rewrite put_u8_at by exact Hc. exists 0; reflexivity.
  - rewrite <- E. unfold blen at 2. rewrite map_length. exact H.
Qed.

Lemma encode_suback_at dst id codes : suback_len codes <= blen dst ->
  exists n, encode_suback dst id codes =
            if (suback_plen codes <=? max_varint) && id_valid id && forallb code_ok codes
            then SOk (cur_at dst (hdr TSuback 0 (suback_plen codes) ++ two_byte_int id ++ map n2b codes))
            else SErr n.
Proof.
  unfold suback_len. cbv zeta. intros H. unfold encode_suback.
  rewrite encode_header_len by exact H.
  destruct (suback_plen codes <=? max_varint) eqn:E; cbn [sbind andb]; [| eexists; reflexivity]. leb_hyps.
  destruct (id_valid id); cbn [negb andb]; [| eexists; reflexivity].
  rewrite put_u16_at by (unfold suback_plen in *; cap). cbn [sbind].
  destruct (encode_codes_at codes dst (hdr TSuback 0 (suback_plen codes) ++ two_byte_int id)) as [n ->];
    [unfold suback_plen in *; cap |].
  rewrite <- app_assoc. eexists; reflexivity.
Qed.

Lemma fits_suback dst id codes :
  suback_len codes <= blen dst -> fits_ok (suback_len codes) dst (finish (encode_suback dst id codes)).
Proof.
  intros H. destruct (encode_suback_at dst id codes H) as [n E].
  apply (at_fits _ _ _ _ _ _ E); [| exact H].
  intros O. rewrite !andb_true_iff in O. destruct O as [[O _] _]. leb_hyps.
  unfold suback_len, suback_plen in *. cbv zeta. blens. unfold blen at 1. rewrite map_length. lia.
Qed.

Lemma short_suback dst id codes :
  blen dst < suback_len codes -> is_err (finish (encode_suback dst id codes)).
Proof. apply header_short. Qed.

(* ---------------------------------------------------------------- publish *)
Definition publish_ok (m : message) (id : N) : bool :=
  negb (blen (m_topic m) =? 0) && qos_successful (m_qos m) && negb ((0 <? m_qos m) && negb (id_valid id))
  && (publish_plen m <=? max_varint) && (blen (m_topic m) <=? 65535).

(* the packet id is on the wire from QoS 1 *)
Definition publish_idb (qos id : N) : bytes := if qos =? 0 then [] else two_byte_int id.
Definition publish_body (m : message) (id : N) : bytes :=
  prefixed (m_topic m) ++ publish_idb (m_qos m) id ++ m_payload m.

Lemma blen_publish_idb qos id : blen (publish_idb qos id) = if qos =? 0 then 0 else 2.
Proof. unfold publish_idb. destruct (qos =? 0); reflexivity. Qed.

Lemma publish_plen_eq m :
  publish_plen m = 2 + blen (m_topic m) + (if m_qos m =? 0 then 0 else 2) + blen (m_payload m).
Proof. unfold publish_plen. destruct (m_qos m =? 0); cbn [negb]; lia. Qed.

Lemma blen_publish_body m id : blen (publish_body m id) = publish_plen m.
Proof. unfold publish_body. rewrite publish_plen_eq. blens. rewrite blen_publish_idb. lia. Qed.

Lemma put_id_at dst w qos id : blen w + (if qos =? 0 then 0 else 2) <= blen dst ->
  (if negb (qos =? 0) then put_u16 (cur_at dst w) id else SOk (cur_at dst w)) =
  SOk (cur_at dst (w ++ publish_idb qos id)).
Proof.
  unfold publish_idb. destruct (qos =? 0); cbn [negb]; intros H; [rewrite app_nil_r; reflexivity |].
  apply put_u16_at. exact H.
Qed.

(* copy(dst[total:], payload); total += len(payload); return total, nil *)
Lemma finish_copy dst w pl : blen w + blen pl <= blen dst ->
  BOk (total (cur_at dst w) + blen pl) (c_done (cur_at dst w) ++ copy_into (c_rest (cur_at dst w)) pl) =
  finish (SOk (cur_at dst (w ++ pl))).
Proof.
  intros H. rewrite finish_at, total_at, done_at. cbn [cur_at c_rest].
  rewrite copy_into_fits by (rewrite blen_drop; lia). rewrite drop_drop, blen_app, <- app_assoc. reflexivity.
Qed.

Lemma encode_publish_at dst dup m id : publish_len m <= blen dst ->
  exists n, encode_publish dst dup m id =
            if publish_ok m id
            then finish (SOk (cur_at dst (hdr TPublish (publish_flags dup (m_retain m) (m_qos m)) (publish_plen m)
                                          ++ publish_body m id)))
            else BErr n.
Proof.
  unfold publish_len. cbv zeta. intros H. pose proof (publish_plen_eq m) as Hp.
  unfold encode_publish, publish_ok, publish_body.
  destruct (blen (m_topic m) =? 0); [eexists; reflexivity |].
  destruct (qos_successful (m_qos m)); cbn [negb andb]; [| eexists; reflexivity].
  destruct ((0 <? m_qos m) && negb (id_valid id)); cbn [negb andb]; [eexists; reflexivity |].
  fold (publish_flags dup (m_retain m) (m_qos m)). rewrite encode_header_len by exact H.
  destruct (publish_plen m <=? max_varint) eqn:E; cbn [sbind andb]; [| eexists; reflexivity]. leb_hyps.
  rewrite put_lp_at by cap.
  destruct (blen (m_topic m) <=? 65535); cbn [sbind]; [| eexists; reflexivity].
  rewrite put_id_at by cap. rewrite finish_copy by (blens; rewrite blen_publish_idb; lia).
  rewrite <- !app_assoc. exists 0; reflexivity.
Qed.

Lemma fits_publish dst dup m id :
  publish_len m <= blen dst -> fits_ok (publish_len m) dst (encode_publish dst dup m id).
Proof.
  intros H. destruct (encode_publish_at dst dup m id H) as [n ->].
  destruct (publish_ok m id) eqn:O; [| exact I].
  eapply (at_fits dst _ _ true 0); [reflexivity | | exact H].
  intros _. unfold publish_ok in O. rewrite !andb_true_iff in O. destruct O as [[_ O] _]. leb_hyps.
  rewrite blen_app, blen_publish_body, blen_hdr by exact O. reflexivity.
Qed.

Lemma short_publish dst dup m id :
  blen dst < publish_len m -> is_err (encode_publish dst dup m id).
Proof.
  intros H. unfold encode_publish.
  destruct (blen (m_topic m) =? 0); [eexists; reflexivity |].
  destruct (negb (qos_successful (m_qos m))); [eexists; reflexivity |].
  destruct ((0 <? m_qos m) && negb (id_valid id)); [eexists; reflexivity |].
  rewrite encode_header_short by exact H. eexists; reflexivity.
Qed.

(* ---------------------------------------------------------------- unsubscribe *)
Lemma encode_topics_at ts dst w : blen w + blen (concat (map prefixed ts)) <= blen dst ->
  exists n, encode_topics (cur_at dst w) ts =
            if forallb str_ok ts then SOk (cur_at dst (w ++ concat (map prefixed ts))) else SErr n.
Proof.
  apply (walk_at put_lp prefixed str_ok encode_topics); [reflexivity | reflexivity |].
  intros dst' w' t H. rewrite blen_prefixed in H. rewrite put_lp_at by exact H. eexists; reflexivity.
Qed.

Lemma blen_topics ts : blen (concat (map prefixed ts)) = fold_right (fun t a => lp t + a) 0 ts.
Proof. apply (blen_concat prefixed lp). intros t. apply blen_prefixed. Qed.

Lemma encode_unsubscribe_at dst id ts : unsubscribe_len ts <= blen dst ->
  exists n, encode_unsubscribe dst id ts =
            if (unsubscribe_plen ts <=? max_varint) && id_valid id && forallb str_ok ts
            then SOk (cur_at dst (hdr TUnsubscribe 0 (unsubscribe_plen ts) ++ two_byte_int id
                                  ++ concat (map prefixed ts)))
            else SErr n.
Proof.
  unfold unsubscribe_len. cbv zeta. intros H. unfold encode_unsubscribe.
  assert (Hp : unsubscribe_plen ts = 2 + blen (concat (map prefixed ts))).
  { unfold unsubscribe_plen. rewrite unsubscribe_plen_loop_sum, blen_topics. reflexivity. }
  rewrite encode_header_len by exact H.
  destruct (unsubscribe_plen ts <=? max_varint) eqn:E; cbn [sbind andb]; [| eexists; reflexivity]. leb_hyps.
  destruct (id_valid id); cbn [negb andb]; [| eexists; reflexivity].
  rewrite put_u16_at by cap. cbn [sbind].
  destruct (encode_topics_at ts dst (hdr TUnsubscribe 0 (unsubscribe_plen ts) ++ two_byte_int id)) as [n ->]; [cap |].
  rewrite <- app_assoc. eexists; reflexivity.
Qed.

Lemma fits_unsubscribe dst id ts : unsubscribe_len ts <= blen dst ->
  fits_ok (unsubscribe_len ts) dst (finish (encode_unsubscribe dst id ts)).
Proof.
  intros H. destruct (encode_unsubscribe_at dst id ts H) as [n E].
  apply (at_fits _ _ _ _ _ _ E); [| exact H].
  intros O. rewrite !andb_true_iff in O. destruct O as [[O _] _]. leb_hyps.
  unfold unsubscribe_len, unsubscribe_plen in *. cbv zeta. rewrite unsubscribe_plen_loop_sum in *.
  blens. rewrite blen_topics. lia.
Qed.

Lemma short_unsubscribe dst id ts :
  blen dst < unsubscribe_len ts -> is_err (finish (encode_unsubscribe dst id ts)).
Proof. apply header_short. Qed.

(* ---------------------------------------------------------------- subscribe *)
Definition sub_ok (s : bytes * N) : bool := str_ok (fst s) && qos_successful (snd s).
Definition sub_bytes (s : bytes * N) : bytes := prefixed (fst s) ++ [n2b (snd s)].

Lemma encode_subs_at subs dst w : blen w + blen (concat (map sub_bytes subs)) <= blen dst ->
  exists n, encode_subs (cur_at dst w) subs =
            if forallb sub_ok subs then SOk (cur_at dst (w ++ concat (map sub_bytes subs))) else SErr n.
Proof.
  apply (walk_at (fun c s => do c <- put_lp c (fst s);
                             if negb (qos_successful (snd s)) then fail c else put_u8 c (snd s))).
  - reflexivity.
  - intros c s l. cbn [encode_subs]. destruct (put_lp c (fst s)); cbn [sbind]; [| reflexivity | reflexivity].
    destruct (negb (qos_successful (snd s))); reflexivity.
  - intros dst' w' s. unfold sub_bytes, sub_ok, str_ok. blens. intros H. rewrite put_lp_at by lia.
    destruct (blen (fst s) <=? 65535); cbn [sbind andb]; [| eexists; reflexivity].
    destruct (qos_successful (snd s)); cbn [negb]; [| eexists; reflexivity].
    rewrite put_u8_at by cap. rewrite <- app_assoc. exists 0; reflexivity.
Qed.

Lemma blen_subs subs : blen (concat (map sub_bytes subs)) = fold_right (fun s a => lp (fst s) + 1 + a) 0 subs.
Proof. apply (blen_concat sub_bytes (fun s => lp (fst s) + 1)). intros s. unfold sub_bytes, lp. blens. reflexivity. Qed.

Lemma encode_subscribe_at dst id subs : subscribe_len subs <= blen dst ->
  exists n, encode_subscribe dst id subs =
            if id_valid id && (subscribe_plen subs <=? max_varint) && forallb sub_ok subs
            then SOk (cur_at dst (hdr TSubscribe 0 (subscribe_plen subs) ++ two_byte_int id
                                  ++ concat (map sub_bytes subs)))
            else SErr n.
Proof.
  unfold subscribe_len. cbv zeta. intros H. unfold encode_subscribe.
  assert (Hp : subscribe_plen subs = 2 + blen (concat (map sub_bytes subs))).
  { unfold subscribe_plen. rewrite subscribe_plen_loop_sum, blen_subs. reflexivity. }
  destruct (id_valid id); cbn [negb andb]; [| eexists; reflexivity].
  rewrite encode_header_len by exact H.
  destruct (subscribe_plen subs <=? max_varint) eqn:E; cbn [sbind andb]; [| eexists; reflexivity]. leb_hyps.
  rewrite put_u16_at by cap. cbn [sbind].
  destruct (encode_subs_at subs dst (hdr TSubscribe 0 (subscribe_plen subs) ++ two_byte_int id)) as [n ->]; [cap |].
  rewrite <- app_assoc. eexists; reflexivity.
Qed.

Lemma fits_subscribe dst id subs : subscribe_len subs <= blen dst ->
  fits_ok (subscribe_len subs) dst (finish (encode_subscribe dst id subs)).
Proof.
  intros H. destruct (encode_subscribe_at dst id subs H) as [n E].
  apply (at_fits _ _ _ _ _ _ E); [| exact H].
  intros O. rewrite !andb_true_iff in O. destruct O as [[_ O] _]. leb_hyps.
  unfold subscribe_len, subscribe_plen in *. cbv zeta. rewrite subscribe_plen_loop_sum in *.
  blens. rewrite blen_subs. lia.
Qed.

Lemma short_subscribe dst id subs :
  blen dst < subscribe_len subs -> is_err (finish (encode_subscribe dst id subs)).
Proof.
  intros H. unfold encode_subscribe. destruct (negb (id_valid id)); [eexists; reflexivity |].
  apply header_short. exact H.
Qed.

(* ---------------------------------------------------------------- connect *)
Definition will_bytes (w : option message) : bytes :=
  match w with Some m => prefixed (m_topic m) ++ prefixed (m_payload m) | None => [] end.
Definition will_ok (w : option message) : bool :=
  match w with Some m => str_ok (m_topic m) && str_ok (m_payload m) | None => true end.

(* the version Encode works with: 0 becomes 4 *)
Definition go_version (k : connect) : N := if c_version k =? 0 then 4 else c_version k.
Definition go_flags (k : connect) : N := match connect_flags k with Some f => f | None => 0 end.

Definition connect_body (k : connect) : bytes :=
  prefixed (version_name (go_version k)) ++ [n2b (go_version k)] ++ [n2b (go_flags k)]
  ++ two_byte_int (c_keep_alive k) ++ prefixed (c_client_id k) ++ will_bytes (c_will k)
  ++ optional (c_username k) ++ optional (c_password k).

Definition connect_ok (k : connect) : bool :=
  (connect_plen k <=? max_varint) && negb (negb (go_version k =? 4) && negb (go_version k =? 3))
  && (match connect_flags k with Some _ => true | None => false end)
  && str_ok (c_client_id k) && will_ok (c_will k)
  && negb ((blen (c_username k) =? 0) && (0 <? blen (c_password k)))
  && str_ok (c_username k) && str_ok (c_password k).

Lemma blen_optional s : blen (optional s) = opt_lp s.
Proof. destruct s; [reflexivity |]. cbn [optional present opt_lp]. apply blen_prefixed. Qed.

Lemma put_optional_at dst w s : blen w + blen (optional s) <= blen dst ->
  (if 0 <? blen s then put_lp (cur_at dst w) s else SOk (cur_at dst w)) =
  if str_ok s then SOk (cur_at dst (w ++ optional s)) else SErr (blen w).
Proof.
  destruct s as [| x s']; [intros _; cbn [optional present]; rewrite app_nil_r; reflexivity |].
  cbn [optional present]. rewrite blen_prefixed. intros H.
  replace (0 <? blen (x :: s')) with true by (symmetry; apply N.ltb_lt; rewrite blen_cons; lia).
  apply put_lp_at. exact H.
Qed.

Lemma put_will_at dst w wl : blen w + blen (will_bytes wl) <= blen dst ->
  exists n, match wl with
            | Some m => do c <- put_lp (cur_at dst w) (m_topic m); put_lp c (m_payload m)
            | None => SOk (cur_at dst w)
            end = if will_ok wl then SOk (cur_at dst (w ++ will_bytes wl)) else SErr n.
Proof.
  destruct wl as [m |]; cbn [will_bytes will_ok]; [| rewrite app_nil_r; exists 0; reflexivity].
  unfold str_ok. blens. intros H. rewrite put_lp_at by lia.
  destruct (blen (m_topic m) <=? 65535); cbn [sbind andb]; [| eexists; reflexivity].
  rewrite put_lp_at by cap. rewrite <- app_assoc. eexists; reflexivity.
Qed.

Lemma version_name_short v : (blen (version_name v) <=? 65535) = true.
Proof. unfold version_name. destruct (v =? 3), (v =? 4); reflexivity. Qed.

Lemma go_version_ok k : negb (go_version k =? 4) && negb (go_version k =? 3) = false ->
  blen (version_name (go_version k)) = proto_name_len (c_version k).
Proof.
  unfold go_version, version_name, proto_name_len. destruct (N.eqb_spec (c_version k) 0) as [-> | _]; [reflexivity |].
  destruct (c_version k =? 3); [reflexivity |]. destruct (c_version k =? 4); [reflexivity | discriminate].
Qed.

Lemma connect_plen_eq k :
  connect_plen k = 2 + proto_name_len (c_version k) + 1 + 1 + 2 + (2 + blen (c_client_id k))
                   + blen (will_bytes (c_will k)) + blen (optional (c_username k)) + blen (optional (c_password k)).
Proof.
  unfold connect_plen, proto_name_len. rewrite !blen_optional, !present_blen.
  destruct (c_version k =? 3), (c_will k), (c_username k), (c_password k);
    cbn [will_bytes opt_lp present]; unfold lp; blens; lia.
Qed.

Lemma encode_connect_at dst k : connect_len k <= blen dst ->
  exists n, encode_connect dst k =
            if connect_ok k then SOk (cur_at dst (hdr TConnect 0 (connect_plen k) ++ connect_body k)) else SErr n.
Proof.
  unfold connect_len. cbv zeta. intros H. pose proof (connect_plen_eq k) as Hp.
  unfold encode_connect, connect_ok, connect_body, go_flags. fold (go_version k).
  rewrite encode_header_len by exact H.
  destruct (connect_plen k <=? max_varint) eqn:E; cbn [sbind andb]; [| eexists; reflexivity]. leb_hyps.
  destruct (negb (go_version k =? 4) && negb (go_version k =? 3)) eqn:EV; cbn [negb andb]; [eexists; reflexivity |].
  apply go_version_ok in EV.
  rewrite put_lp_at by cap. rewrite version_name_short. cbn [sbind]. rewrite put_u8_at by cap. cbn [sbind].
  destruct (connect_flags k) as [flags |]; cbn [andb]; [| eexists; reflexivity].
  rewrite put_u8_at by cap. cbn [sbind]. rewrite put_u16_at by cap. cbn [sbind].
  rewrite put_lp_at by cap. unfold str_ok at 1.
  destruct (blen (c_client_id k) <=? 65535); cbn [sbind andb]; [| eexists; reflexivity].
  match goal with |- context [cur_at dst ?w] => destruct (put_will_at dst w (c_will k)) as [n ->]; [cap |] end.
  destruct (will_ok (c_will k)); cbn [sbind andb]; [| eexists; reflexivity].
  destruct ((blen (c_username k) =? 0) && (0 <? blen (c_password k))); cbn [negb andb]; [eexists; reflexivity |].
  rewrite put_optional_at by cap. destruct (str_ok (c_username k)); cbn [sbind andb]; [| eexists; reflexivity].
  rewrite put_optional_at by cap. rewrite <- !app_assoc. eexists; reflexivity.
Qed.

Lemma fits_connect dst k : connect_len k <= blen dst ->
  fits_ok (connect_len k) dst (finish (encode_connect dst k)).
Proof.
  intros H. destruct (encode_connect_at dst k H) as [n E].
  apply (at_fits _ _ _ _ _ _ E); [| exact H].
  unfold connect_ok. intros O. rewrite !andb_true_iff in O. destruct O as [[[[[[[O EV] _] _] _] _] _] _].
  leb_hyps. apply negb_true_iff, go_version_ok in EV.
  unfold connect_len, connect_body. cbv zeta. rewrite connect_plen_eq in *. blens. lia.
Qed.

Lemma short_connect dst k : blen dst < connect_len k -> is_err (finish (encode_connect dst k)).
Proof. apply header_short. Qed.
