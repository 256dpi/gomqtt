(* EncProofs.v — the C01 statements about the encoder model:
     encode_short   a buffer shorter than Len(): an error (any packet)
     encode_fits    a buffer of at least Len() bytes: never a panic; success writes exactly Len() bytes (any packet)
     exact_*        per packet type, a well-formed packet: success, and the first Len() bytes are wire_spec p,
                    whatever the buffer held before; the bytes beyond stay untouched (EncProofsTop.encode_dirty) *)
From Coq Require Import List NArith ZArith Bool Lia ZifyN ZifyNat ZifyBool.
From Coq.Strings Require Import Byte.
From GM Require Import Codec.Packet Codec.WF Codec.Enc Codec.WireSpec Codec.Bytes Codec.Varint
  Codec.EncProofsBase Codec.EncProofsSpec Codec.EncProofsTypes.
Import ListNotations.
Open Scope N_scope.

(* ---------------------------------------------------------------- all packets *)
Theorem encode_short dst p : blen dst < len_go p -> exists n, encode_into dst p = BErr n.
Proof.
  destruct p; cbn [len_go encode_into];
    [ apply short_connect | apply short_connack | apply short_publish
    | apply short_identified | apply short_identified | apply short_identified | apply short_identified
    | apply short_subscribe | apply short_suback | apply short_unsubscribe | apply short_identified
    | apply short_naked | apply short_naked | apply short_naked ].
Qed.

Theorem encode_fits dst p : len_go p <= blen dst -> fits_ok (len_go p) dst (encode_into dst p).
Proof.
  destruct p; cbn [len_go encode_into];
    [ apply fits_connect | apply fits_connack | apply fits_publish
    | apply fits_identified | apply fits_identified | apply fits_identified | apply fits_identified
    | apply fits_subscribe | apply fits_suback | apply fits_unsubscribe | apply fits_identified
    | apply fits_naked | apply fits_naked | apply fits_naked ].
Qed.

Lemma blen_protocol_name v : blen (protocol_name v) = proto_name_len v.
Proof. unfold protocol_name, proto_name_len. destruct (v =? 3); reflexivity. Qed.

Lemma body_size p : blen (variable_header p ++ payload p) = body_len p.
Proof.
  destruct p as [c | sp rc | dup m id | | | | | id subs | id codes | id ts | | | |];
    cbn [variable_header payload body_len]; rewrite ?app_nil_r; try reflexivity; blens.
  - rewrite !blen_optional, blen_protocol_name. unfold will_len, lp. destruct (c_will c); blens; lia.
  - unfold lp. destruct (m_qos m =? 0); blens; lia.
  - f_equal. apply blen_subs.
  - unfold blen. rewrite map_length. reflexivity.
  - f_equal. apply blen_topics.
Qed.

Lemma wire_spec_shape p :
  wire_spec p =
  (n2b (16 * type_value p + flag_bits p) :: remaining_length (body_len p)) ++ variable_header p ++ payload p.
Proof. unfold wire_spec, fixed_header. cbv zeta. rewrite size_blen, body_size. reflexivity. Qed.

Theorem blen_wire_spec p : wf p = true -> blen (wire_spec p) = total_len p.
Proof.
  intros H. apply wf_body_len in H. rewrite wire_spec_shape.
  rewrite blen_app, blen_cons, body_size, blen_remaining_length by exact H. unfold total_len. lia.
Qed.

(* what encodeHeader and the field walk of a type wrote is the layout, once the first byte and
   the body are the standard's *)
Lemma wire_spec_hdr p flags body :
  first_byte (ptype_of p) flags = n2b (16 * type_value p + flag_bits p) ->
  body = variable_header p ++ payload p ->
  hdr (ptype_of p) flags (plen_go p) ++ body = wire_spec p.
Proof. intros Hf ->. rewrite wire_spec_shape, plen_go_body_len. unfold hdr. rewrite Hf. reflexivity. Qed.

Definition exact (dst : bytes) (p : packet) : Prop :=
  encode_into dst p = BOk (len_go p) (wire_spec p ++ drop (len_go p) dst).

Lemma at_exact dst p s w (ok : bool) n :
  wf p = true -> s = (if ok then SOk (cur_at dst w) else SErr n) -> ok = true -> w = wire_spec p ->
  finish s = BOk (len_go p) (wire_spec p ++ drop (len_go p) dst).
Proof.
  intros W -> -> ->. rewrite finish_at, blen_wire_spec, <- len_go_total_len by exact W. reflexivity.
Qed.

Lemma wf_plen_ok p : wf p = true -> (plen_go p <=? max_varint) = true.
Proof. intros W. rewrite plen_go_body_len. apply N.leb_le, wf_body_len, W. Qed.

Lemma id_ok_valid id : id_ok id = true -> id_valid id = true.
Proof. intros H. apply id_ok_iff in H. unfold id_valid. apply negb_true_iff, N.eqb_neq. lia. Qed.

Lemma exact_naked dst t p :
  wf p = true -> naked_len <= blen dst -> hdr t 0 0 = wire_spec p ->
  finish (encode_naked dst t) = BOk (len_go p) (wire_spec p ++ drop (len_go p) dst).
Proof.
  intros W H S. apply (at_exact dst p _ (hdr t 0 0) true 0 W); [apply encode_naked_at; exact H | reflexivity | exact S].
Qed.

Lemma exact_identified dst id t p :
  wf p = true -> id_ok id = true -> identified_len <= blen dst -> hdr t 0 2 ++ two_byte_int id = wire_spec p ->
  finish (encode_identified dst id t) = BOk (len_go p) (wire_spec p ++ drop (len_go p) dst).
Proof.
  intros W Wi H S. destruct (encode_identified_at dst id t H) as [n E].
  apply (at_exact dst p _ _ _ _ W E); [apply id_ok_valid; exact Wi | exact S].
Qed.

Lemma exact_connack dst sp rc :
  wf (Connack sp rc) = true -> len_go (Connack sp rc) <= blen dst -> exact dst (Connack sp rc).
Proof.
  intros W H. destruct (encode_connack_at dst sp rc H) as [n E].
  apply (at_exact dst _ _ _ _ _ W E); [| reflexivity]. apply andb_true_iff in W. apply W.
Qed.

Lemma exact_publish dst dup m id :
  wf (Publish dup m id) = true -> len_go (Publish dup m id) <= blen dst -> exact dst (Publish dup m id).
Proof.
  intros W H. unfold exact. cbn [encode_into]. destruct (encode_publish_at dst dup m id H) as [n ->].
  destruct (wf_publish dup m id W) as (Wb & Wt & Ws & Wq & Wi).
  assert (O : publish_ok m id = true).
  { unfold publish_ok. rewrite blen_eq0_present, Wt, qos_successful_le.
    change (publish_plen m) with (plen_go (Publish dup m id)).
    rewrite (wf_plen_ok (Publish dup m id) W), (proj2 (N.leb_le _ _) Wq), (proj2 (N.leb_le _ _) Ws). cbn [negb andb].
    rewrite !andb_true_r. apply negb_true_iff. destruct (N.eqb_spec (m_qos m) 0) as [-> | Q]; [reflexivity |].
    rewrite (id_ok_valid id Wi). apply andb_false_r. }
  rewrite O. apply (at_exact dst (Publish dup m id) _ _ true 0 W eq_refl eq_refl).
  apply (wire_spec_hdr (Publish dup m id)); [| cbn [variable_header payload]; rewrite <- app_assoc; reflexivity].
  rewrite publish_flags_eq by exact Wq. rewrite first_byte_eq by (destruct dup, (m_retain m); cbn [bit]; lia).
  reflexivity.
Qed.

Lemma forallb_ext {A} (f g : A -> bool) l : (forall a, f a = g a) -> forallb f l = forallb g l.
Proof. intros H. induction l as [| a l IH]; [reflexivity |]. cbn [forallb]. rewrite H, IH. reflexivity. Qed.

Lemma list_checks p id : wf p = true -> id_ok id = true ->
  id_valid id = true /\ (plen_go p <=? max_varint) = true.
Proof. intros W Wi. split; [apply id_ok_valid; exact Wi | apply wf_plen_ok; exact W]. Qed.

Lemma exact_subscribe dst id subs :
  wf (Subscribe id subs) = true -> len_go (Subscribe id subs) <= blen dst -> exact dst (Subscribe id subs).
Proof.
  intros W H. destruct (encode_subscribe_at dst id subs H) as [n E].
  apply (at_exact dst _ _ _ _ _ W E); [| apply (wire_spec_hdr (Subscribe id subs)); reflexivity].
  pose proof W as W'. unfold wf in W'. rewrite !andb_true_iff in W'. destruct W' as [_ [[Wi _] Wl]].
  destruct (list_checks _ id W Wi) as [Hi Hp]. cbn [plen_go] in Hp. rewrite Hi, Hp. cbn [andb]. rewrite <- Wl. apply forallb_ext. intros s.
  unfold sub_ok, qos_ok. rewrite qos_successful_le. reflexivity.
Qed.

Lemma exact_unsubscribe dst id ts :
  wf (Unsubscribe id ts) = true -> len_go (Unsubscribe id ts) <= blen dst -> exact dst (Unsubscribe id ts).
Proof.
  intros W H. destruct (encode_unsubscribe_at dst id ts H) as [n E].
  apply (at_exact dst _ _ _ _ _ W E); [| apply (wire_spec_hdr (Unsubscribe id ts)); reflexivity].
  pose proof W as W'. unfold wf in W'. rewrite !andb_true_iff in W'. destruct W' as [_ [[Wi _] Wl]].
  destruct (list_checks _ id W Wi) as [Hi Hp]. cbn [plen_go] in Hp. rewrite Hi, Hp. cbn [andb]. exact Wl.
Qed.

Lemma exact_suback dst id codes :
  wf (Suback id codes) = true -> len_go (Suback id codes) <= blen dst -> exact dst (Suback id codes).
Proof.
  intros W H. destruct (encode_suback_at dst id codes H) as [n E].
  apply (at_exact dst _ _ _ _ _ W E); [| apply (wire_spec_hdr (Suback id codes)); reflexivity].
  pose proof W as W'. unfold wf in W'. rewrite !andb_true_iff in W'. destruct W' as [_ [[Wi _] Wl]].
  destruct (list_checks _ id W Wi) as [Hi Hp]. cbn [plen_go] in Hp. rewrite Hi, Hp. cbn [andb]. rewrite <- Wl. apply forallb_ext. intros c.
  unfold code_ok, qos_ok. rewrite qos_successful_le. reflexivity.
Qed.

(* ---------------------------------------------------------------- connect *)
(* the flags byte Connect.Encode assembles bit by bit is the one of 3.1.2.3 *)
Lemma connect_flags_wf k :
  (present (c_client_id k) || c_clean k) = true ->
  match c_will k with None => True | Some m => present (m_topic m) = true /\ m_qos m <= 2 end ->
  connect_flags k = Some (connect_flag_byte k).
Proof.
  intros Hc Hw. unfold connect_flags, connect_flag_byte. rewrite !present_blen, !blen_eq0_present.
  destruct (c_will k) as [w |].
  - destruct Hw as [Ht Hq]. rewrite blen_eq0_present, Ht, qos_successful_le, (proj2 (N.leb_le _ _) Hq). cbn [negb].
    assert (C : m_qos w = 0 \/ m_qos w = 1 \/ m_qos w = 2) by lia.
    destruct (present (c_client_id k)), (c_clean k); try discriminate Hc; cbn [negb andb];
    destruct C as [-> | [-> | ->]];
    destruct (present (c_username k)), (present (c_password k)), (m_retain w); reflexivity.
  - destruct (present (c_client_id k)), (c_clean k); try discriminate Hc; cbn [negb andb];
    destruct (present (c_username k)), (present (c_password k)); reflexivity.
Qed.

Lemma exact_connect dst k :
  wf (Connect k) = true -> len_go (Connect k) <= blen dst -> exact dst (Connect k).
Proof.
  intros W H. destruct (encode_connect_at dst k H) as [n E].
  destruct (wf_connect k W) as (Wv & _ & Wc & Wu & Wp & Wcc & Wup & Ww).
  assert (Gv : go_version k = c_version k) by (unfold go_version; destruct Wv as [-> | ->]; reflexivity).
  assert (Gn : version_name (c_version k) = protocol_name (c_version k)) by (destruct Wv as [-> | ->]; reflexivity).
  assert (Gf : connect_flags k = Some (connect_flag_byte k)).
  { apply connect_flags_wf; [exact Wcc |]. destruct (c_will k); tauto. }
  apply (at_exact dst _ _ _ _ _ W E).
  - unfold connect_ok, str_ok. rewrite Gv, Gf, blen_eq0_present, present_blen.
    change (connect_plen k) with (plen_go (Connect k)).
    rewrite (wf_plen_ok (Connect k) W), (proj2 (N.leb_le _ _) Wc),
      (proj2 (N.leb_le _ _) Wu), (proj2 (N.leb_le _ _) Wp).
    rewrite !negb_andb, !negb_involutive, Wup, !andb_true_r. cbn [andb].
    apply andb_true_iff. split; [destruct Wv as [-> | ->]; reflexivity |].
    destruct (c_will k) as [m |]; [| reflexivity]. cbn [will_ok]. unfold str_ok.
    apply andb_true_iff. split; apply N.leb_le; tauto.
  - apply (wire_spec_hdr (Connect k)); [apply first_byte_plain |].
    unfold connect_body, go_flags. rewrite Gv, Gn, Gf. cbn [variable_header payload].
    rewrite <- !app_assoc. reflexivity.
Qed.
