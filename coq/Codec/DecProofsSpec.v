(* DecProofsSpec.v — C02 spec equivalence, part 1: the bridge between the offset walk
   of Dec.v and the parser combinators of RefDecode.v, the header, and the simple types.
   `ok_part (decode_go t src) = ref_decode t src` on buffers framed to their extent. *)
From Coq Require Import List NArith ZArith Bool Lia ZifyN ZifyNat ZifyBool.
From Coq.Strings Require Import Byte.
From GM Require Import Codec.Packet Codec.Dec Codec.RefDecode Codec.Bytes Codec.DecProofsBase Codec.DecProofsSafe
     Codec.DecProofsLocal.
Import ListNotations.
Open Scope N_scope.

Definition ok_part (d : dres) : option (packet * N) :=
  match d with DOk p n => Some (p, n) | _ => None end.

(* the walk is at offset `total` of src, the unread remainder is cur *)
Definition at_ (src : bytes) (total : N) (cur : bytes) : Prop :=
  total <= len src /\ skipn (N.to_nat total) src = cur.

Lemma at_len src total cur : at_ src total cur -> len cur = len src - total.
Proof. intros [H <-]. rewrite len_skipn. lia. Qed.

(* a read helper and a parser that do the same thing *)
Definition rp {A} (f : bytes -> rd A) (p : parser A) : Prop :=
  forall buf, match f buf with
              | ROk v n => n <= len buf /\ p buf = Some (v, skipn (N.to_nat n) buf)
              | RErr _ => p buf = None
              | RPanic => False
              end.

Lemma rp_u8 : rp read_uint8 u8.
Proof.
  intros buf. rewrite read_uint8_eq. destruct buf as [| b r]; [reflexivity |].
  rewrite len_cons. split; [lia | reflexivity].
Qed.

Lemma rp_u8' : rp (fun buf => read_uint buf 1) u8.
Proof. exact rp_u8. Qed.

Lemma u16_eq buf : u16 buf = match buf with
                             | b0 :: b1 :: r => Some (256 * b2n b0 + b2n b1, r)
                             | _ => None
                             end.
Proof. destruct buf as [| b0 [| b1 r]]; reflexivity. Qed.

Lemma rp_u16 : rp (fun buf => read_uint buf 2) u16.
Proof.
  intros buf. rewrite read_uint_2, u16_eq. destruct buf as [| b0 [| b1 r]]; try reflexivity.
  rewrite !len_cons. split; [lia | reflexivity].
Qed.

Lemma lp_bytes_eq buf :
  lp_bytes buf = match buf with
                 | b0 :: b1 :: r =>
                     let l := 256 * b2n b0 + b2n b1 in
                     if l <=? len r then Some (firstn (N.to_nat l) r, skipn (N.to_nat l) r) else None
                 | _ => None
                 end.
Proof.
  unfold lp_bytes, bind. rewrite u16_eq. destruct buf as [| b0 [| b1 r]]; reflexivity.
Qed.

Lemma rp_lp : rp read_lp_bytes lp_bytes.
Proof.
  intros buf. rewrite read_lp_bytes_eq, lp_bytes_eq. destruct buf as [| b0 [| b1 r]]; try reflexivity.
  cbv zeta. set (l := 256 * b2n b0 + b2n b1).
  destruct (len r <? l) eqn:E.
  - destruct (l <=? len r) eqn:E'; [lia | reflexivity].
  - destruct (l <=? len r) eqn:E'; [| lia]. rewrite !len_cons. split; [lia |].
    replace (N.to_nat (2 + l)) with (S (S (N.to_nat l))) by lia. reflexivity.
Qed.

(* parsers consume a suffix *)
Lemma u8_len cur v rest : u8 cur = Some (v, rest) -> len cur = 1 + len rest /\ v < 256.
Proof.
  destruct cur as [| b r]; [discriminate |]. intros H. apply Some_inj2 in H. destruct H as [<- <-].
  rewrite len_cons. split; [reflexivity | apply b2n_lt].
Qed.

Lemma u16_len cur v rest : u16 cur = Some (v, rest) -> len cur = 2 + len rest /\ v < 65536.
Proof.
  rewrite u16_eq. destruct cur as [| b0 [| b1 r]]; try discriminate.
  intros H. apply Some_inj2 in H. destruct H as [<- <-]. rewrite !len_cons.
  pose proof (b2n_lt b0). pose proof (b2n_lt b1). split; lia.
Qed.

Lemma lp_len cur v rest : lp_bytes cur = Some (v, rest) -> len cur = 2 + len v + len rest /\ len v < 65536.
Proof.
  rewrite lp_bytes_eq. destruct cur as [| b0 [| b1 r]]; try discriminate.
  cbv zeta. destruct (_ <=? _) eqn:E; [| discriminate].
  intros H. apply Some_inj2 in H. destruct H as [<- <-].
  rewrite !len_cons, len_firstn, len_skipn.
  pose proof (b2n_lt b0). pose proof (b2n_lt b1). split; lia.
Qed.

(* one read step of the walk = one parser step on the remainder *)
Lemma ok_rd_at {A} src total cur (f : bytes -> rd A) (p : parser A) k :
  rp f p -> at_ src total cur ->
  ok_part (rd_at src total f k) =
    match p cur with
    | Some (v, rest) => ok_part (k v (len src - len rest))
    | None => None
    end
  /\ (forall v rest, p cur = Some (v, rest) -> at_ src (len src - len rest) rest).
Proof.
  intros Hrp [Ht Hc]. unfold rd_at. rewrite slice_from_ok by assumption. rewrite Hc.
  pose proof (Hrp cur) as H. pose proof (len_skipn (N.to_nat total) src) as Hl. rewrite Hc in Hl.
  destruct (f cur) as [v n | n |] eqn:E.
  - destruct H as [Hn Hp]. rewrite Hp. rewrite len_skipn.
    replace (len src - (len cur - N.of_nat (N.to_nat n))) with (total + n) by lia.
    split; [reflexivity |].
    intros v' rest' H'. apply Some_inj2 in H'. destruct H' as [_ <-].
    rewrite len_skipn. split; [lia |].
    replace (len src - (len cur - N.of_nat (N.to_nat n))) with (total + n) by lia.
    rewrite <- Hc. rewrite skipn_add. f_equal. lia.
  - rewrite H. split; [reflexivity | discriminate].
  - contradiction.
Qed.

Ltac step f_rp Hat v rest Ep Hat' :=
  match goal with
  | |- context [ok_part (rd_at ?src ?total ?f ?k)] =>
      let Hs := fresh "Hs" in let Hn := fresh "Hn" in
      destruct (ok_rd_at src total _ f _ k f_rp Hat) as [Hs Hn]; rewrite Hs; clear Hs;
      match goal with
      | |- context [match ?p ?cur with _ => _ end] =>
          destruct (p cur) as [[v rest] |] eqn:Ep; [pose proof (Hn _ _ eq_refl) as Hat'; clear Hn | clear Hn]
      end
  end.

Lemma flags_tables t : default_flags t = reserved_flags t.
Proof. destruct t; reflexivity. Qed.

Lemma ptype_eqb_publish t : ptype_eqb t TPublish = true -> t = TPublish.
Proof. destruct t; try reflexivity; discriminate. Qed.

(* on a buffer that is exactly its header-declared extent (header, then the declared number of
   body bytes) both sides reject a bad first byte alike, and what is left to compare is the walk
   after decodeHeader against the grammar on the body *)
Lemma framed_reduce src t (walk : N -> N -> N -> dres) :
  extent src = Some (len src) ->
  (forall b0 k rl body,
     len body = rl -> len src = 1 + k + rl -> at_ src (1 + k) body -> slice_to src (1 + k + rl) = Some src ->
     ok_part (walk (1 + k) (nibble_lo b0) rl) =
     match parse_all (body_grammar t (nibble_lo b0)) body with
     | Some p => Some (p, len src)
     | None => None
     end) ->
  ok_part (match decode_header src t with
           | HPanic => DPanic | HErr n => DErr n
           | HOk total flags rl => walk total flags rl end) = ref_decode t src.
Proof.
  intros He H. destruct (extent_inv _ _ He) as (b0 & r & rl & k & -> & Er & Hn & Hk1 & Hk4 & Hkl).
  rewrite len_cons in Hn. set (body := skipn (N.to_nat k) r) in *.
  assert (Hl : len body = rl) by (unfold body; rewrite len_skipn; lia).
  specialize (H b0 k rl body Hl).
  rewrite decode_header_eq. unfold header_spec, ref_decode.
  change (Byte.to_N b0 / 16) with (nibble_hi b0). change (Byte.to_N b0 mod 16) with (nibble_lo b0).
  rewrite <- (flags_tables t). destruct r as [| x y]; [discriminate |].
  destruct (negb _); [reflexivity |]. destruct (_ && _); [reflexivity |].
  rewrite Er. change blen with len. fold body. replace (len body <? rl) with false by lia.
  rewrite firstn_all2 by (unfold len in Hl; lia). rewrite <- Hn, <- (len_cons b0). apply H; [rewrite len_cons; lia | |].
  - split; [rewrite len_cons; lia |]. replace (N.to_nat (1 + k)) with (S (N.to_nat k)) by lia. reflexivity.
  - rewrite slice_to_ok by (rewrite len_cons; lia). f_equal. apply firstn_all2.
    unfold len in Hn. cbn [length] in *. lia.
Qed.

Lemma at_end src total cur : at_ src total cur -> (cur = [] <-> total = len src).
Proof.
  intros H. pose proof (at_len _ _ _ H) as Hl. destruct H as [Ht _]. split.
  - intros ->. rewrite len_nil in Hl. lia.
  - intros ->. apply len_0. lia.
Qed.

(* ---------- naked types ---------- *)
Lemma naked_framed t p src :
  extent src = Some (len src) -> (forall fl, body_grammar t fl = ret p) ->
  ok_part (decode_naked t p src) = ref_decode t src.
Proof.
  intros He Hg. unfold decode_naked. apply (framed_reduce _ _ _ He). intros b0 k rl body Hl Ht Hat _.
  rewrite Hg. unfold parse_all, ret.
  destruct (negb (rl =? 0)) eqn:E.
  - destruct body; [rewrite len_nil in Hl; lia | reflexivity].
  - assert (body = []) by (apply len_0; lia). subst body. cbn [ok_part]. do 2 f_equal. lia.
Qed.

(* ---------- identified types ---------- *)
Lemma identified_framed t mk src :
  extent src = Some (len src) -> (forall fl, body_grammar t fl = id_body mk) ->
  ok_part (decode_identified t mk src) = ref_decode t src.
Proof.
  intros He Hg. unfold decode_identified. apply (framed_reduce _ _ _ He). intros b0 k rl body Hl Ht Hat _.
  rewrite Hg.
  unfold id_body, packet_id, parse_all, bind, guard, ret.
  destruct (negb (rl =? 2)) eqn:E2.
  - cbn [ok_part]. destruct (u16 body) as [[v rs] |] eqn:Ep; [| reflexivity].
    apply u16_len in Ep. destruct (negb (v =? 0)); [| reflexivity].
    destruct rs; [rewrite len_nil in Ep; lia | reflexivity].
  - step rp_u16 Hat v rs Ep Hat'; [| reflexivity].
    apply u16_len in Ep. assert (rs = []) by (apply len_0; lia). subst rs.
    rewrite len_nil, N.sub_0_r.
    destruct (v =? 0); reflexivity.
Qed.

(* ---------- connack ---------- *)
Lemma byte_land254 b : (N.land (b2n b) 254 =? 0) = (b2n b <=? 1).
Proof. destruct b; reflexivity. Qed.

Lemma u8_byte cur v rs : u8 cur = Some (v, rs) -> exists b, v = b2n b.
Proof. destruct cur as [| b r]; [discriminate |]. intros H. apply Some_inj2 in H. destruct H as [<- _]. eauto. Qed.

Lemma connack_framed src :
  extent src = Some (len src) -> ok_part (decode_connack src) = ref_decode TConnack src.
Proof.
  intros He. unfold decode_connack. apply (framed_reduce _ _ _ He). intros b0 k rl body Hl Ht Hat _.
  cbn [body_grammar]. unfold connack_body, parse_all, bind, guard, ret.
  destruct (negb (rl =? 2)) eqn:E2.
  - cbn [ok_part]. destruct (u8 body) as [[v rs] |] eqn:Ep; [| reflexivity].
    apply u8_len in Ep. destruct (v <=? 1); [| reflexivity].
    destruct (u8 rs) as [[v' rs'] |] eqn:Ep'; [| reflexivity].
    apply u8_len in Ep'. destruct (v' <=? 5); [| reflexivity].
    destruct rs'; [rewrite len_nil in Ep'; lia | reflexivity].
  - step rp_u8 Hat v rs Ep Hat'; [| reflexivity].
    destruct (u8_byte _ _ _ Ep) as [b ->]. apply u8_len in Ep.
    rewrite byte_land254. destruct (b2n b <=? 1) eqn:Ev; [| reflexivity]. cbn [negb].
    step rp_u8 Hat' v' rs' Ep' Hat''; [| reflexivity].
    apply u8_len in Ep'. assert (rs' = []) by (apply len_0; lia). subst rs'.
    rewrite len_nil, N.sub_0_r.
    destruct (v' <=? 5); [| reflexivity]. cbn [negb ok_part].
    do 3 f_equal. apply N.leb_le in Ev. assert (C : b2n b = 0 \/ b2n b = 1) by lia.
    destruct C as [-> | ->]; reflexivity.
Qed.
