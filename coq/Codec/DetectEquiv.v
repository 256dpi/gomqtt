(* DetectEquiv.v — the two models of packet.DetectPacket agree on ALL byte lists.

   Dec.detect_go (C02)       : Go's Uvarint with lor / shift on uint64, result (l : Z, t) with
                               int64 wrap-around of 1 + n + int(rl), or DetPanic
   Stream.detect_impl (C03)  : arithmetic Uvarint, unsigned sum mod 2^64, every non-positive
                               length folded into DetNeedMore
   packet.Decoder.Read only tests `packetLength <= 0`; abs_det is that view of detect_go. *)
From Coq Require Import List NArith ZArith Bool Lia ZifyN ZifyNat ZifyBool.
From Coq.Strings Require Import Byte.
From GM Require Import Codec.Packet Codec.Dec Codec.RefDecode Codec.Bytes Codec.DecProofsBase.
From GM Require Stream.Stream.
Import ListNotations.
Open Scope N_scope.

Definition abs_det (r : detres) : Stream.detection :=
  match r with
  | Detected l t => if (0 <? l)%Z then Stream.DetLen (Z.to_N l) t else Stream.DetNeedMore
  | DetPanic => Stream.DetNeedMore
  end.

(* the view of binary.Uvarint both callers use: n <= 0 is one outcome *)
Definition uv_view (r : uvres) : option (N * N) :=
  match r with UvOk v n => Some (v, n) | _ => None end.

Lemma UvOk_inj v n v' n' : UvOk v n = UvOk v' n' -> v = v' /\ n = n'.
Proof. intros H; injection H; auto. Qed.
Lemma DetLen_inj a b a' b' : Stream.DetLen a b = Stream.DetLen a' b' -> a = a' /\ b = b'.
Proof. intros H; injection H; auto. Qed.

(* at index 10 both give up, whatever was accumulated *)
Lemma uv_at_10 buf x s x' s' :
  Stream.uvarint buf 10 x' s' = uv_view (uvarint_loop buf 10 x s).
Proof. destruct buf; reflexivity. Qed.

Lemma pow2_le_56 i : i <= 8 -> 2 ^ (7 * i) <= 72057594037927936.
Proof. intros H. change 72057594037927936 with (2 ^ 56). apply N.pow_le_mono_r; lia. Qed.

Lemma mul_lt_64 a p : a < 128 -> p <= 72057594037927936 -> a * p < 18446744073709551616.
Proof. intros; nia. Qed.

(* the loops agree, and a reported value fits in 64 bits *)
Lemma uv_equiv : forall buf i x,
  i <= 9 -> x < 2 ^ (7 * i) ->
  Stream.uvarint buf i x (7 * i) = uv_view (uvarint_loop buf i x (7 * i)) /\
  (forall v n, uvarint_loop buf i x (7 * i) = UvOk v n -> v < 18446744073709551616 /\ n <= 10).
Proof.
  induction buf as [| b r IH]; intros i x Hi Hx.
  - split; [reflexivity | discriminate].
  - cbn [Stream.uvarint uvarint_loop].
    destruct (i =? 10) eqn:E10; [lia |].
    change (Byte.to_N b) with (b2n b). pose proof (b2n_lt b) as Hb.
    set (p := 2 ^ (7 * i)) in *.
    destruct (b2n b <? 128) eqn:E128.
    + destruct ((i =? 9) && (1 <? b2n b)) eqn:E9; [split; [reflexivity | discriminate] |].
      assert (Hfit : b2n b * p < 18446744073709551616).
      { destruct (i =? 9) eqn:Ei.
        - assert (i = 9) by lia. subst i. unfold p. change (2 ^ (7 * 9)) with 9223372036854775808. lia.
        - apply mul_lt_64; [lia | apply pow2_le_56; lia]. }
      assert (Hv : N.lor x (u64 (N.shiftl (b2n b) (7 * i))) = x + b2n b * p).
      { rewrite u64_small by (rewrite N.shiftl_mul_pow2; exact Hfit).
        apply lor_shiftl_add. exact Hx. }
      rewrite Hv. split; [reflexivity |].
      intros v n H. apply UvOk_inj in H. destruct H as [<- <-]. split; [| lia].
      destruct (i =? 9) eqn:Ei.
      * assert (i = 9) by lia. subst i. unfold p in *. change (2 ^ (7 * 9)) with 9223372036854775808 in *. lia.
      * assert (Hp : p <= 72057594037927936) by (apply pow2_le_56; lia). nia.
    + rewrite land127 by lia.
      destruct (i =? 9) eqn:Ei.
      * (* the 10th byte continues: the next step gives up in both, the accumulators no longer matter *)
        assert (i = 9) by lia. subst i. change (9 + 1) with 10.
        split; [apply uv_at_10 |].
        intros v n H. destruct r; cbn [uvarint_loop] in H; discriminate.
      * assert (Hp : p <= 72057594037927936) by (apply pow2_le_56; lia).
        assert (Hv : N.lor x (u64 (N.shiftl (b2n b - 128) (7 * i))) = x + (b2n b - 128) * p).
        { rewrite u64_small by (rewrite N.shiftl_mul_pow2; apply mul_lt_64; [lia | exact Hp]).
          apply lor_shiftl_add. exact Hx. }
        rewrite Hv. replace (7 * i + 7) with (7 * (i + 1)) by lia.
        apply IH; [lia |].
        replace (7 * (i + 1)) with (7 * i + 7) by lia. rewrite N.pow_add_r. fold p.
        change (2 ^ 7) with 128. apply lt_pow_step; [exact Hx | lia].
Qed.

Lemma wrap_view n rl :
  n <= 10 -> rl < 18446744073709551616 ->
  let l := wrap_int64 (1 + Z.of_N n + int64_of_u64 rl) in
  let tot := (1 + n + rl) mod 2 ^ 64 in
  (0 <? l)%Z = (0 <? tot) && (tot <? 2 ^ 63) /\ ((0 < l)%Z -> Z.to_N l = tot).
Proof.
  intros Hn Hr. cbv zeta. change (2 ^ 64) with 18446744073709551616. change (2 ^ 63) with 9223372036854775808.
  unfold wrap_int64, int64_of_u64.
  destruct (rl <? 9223372036854775808) eqn:E; split; lia.
Qed.

(* the stream decoder's view of detect_go is detect_impl, on every byte list *)
Theorem detect_equiv : forall bs, Stream.detect_impl bs = abs_det (detect_go bs).
Proof.
  intros bs. destruct bs as [| b0 [| b1 r]]; try reflexivity.
  rewrite detect_go_eq. unfold Stream.detect_impl, uvarint.
  destruct (uv_equiv (b1 :: r) 0 0 ltac:(lia) ltac:(cbn; lia)) as [He Hb].
  change (7 * 0) with 0 in He, Hb. rewrite He.
  destruct (uvarint_loop (b1 :: r) 0 0 0) as [rl n | | ovf] eqn:Eu; cbn [uv_view]; try reflexivity.
  destruct (Hb rl n eq_refl) as [Hrl Hn].
  destruct (wrap_view n rl Hn Hrl) as [W1 W2]. cbv zeta in W1, W2.
  cbn [abs_det]. rewrite W1.
  destruct ((0 <? (1 + n + rl) mod 2 ^ 64) && ((1 + n + rl) mod 2 ^ 64 <? 2 ^ 63)) eqn:Et; [| reflexivity].
  rewrite W2 by lia. reflexivity.
Qed.

(* hence: detection never reports a length of 0 to the read loop, and a reported length
   is a positive int64 *)
Corollary detect_impl_len bs total t :
  Stream.detect_impl bs = Stream.DetLen total t -> 0 < total /\ total < 2 ^ 63 /\ t < 16.
Proof.
  unfold Stream.detect_impl. destruct bs as [| b0 [| b1 r]]; try discriminate.
  destruct (Stream.uvarint (b1 :: r) 0 0 0) as [[rl n] |]; [| discriminate].
  cbv zeta. change (2 ^ 64) with 18446744073709551616. change (2 ^ 63) with 9223372036854775808.
  destruct ((0 <? _) && (_ <? _)) eqn:E; [| discriminate].
  intros H.
  apply DetLen_inj in H. destruct H as [<- <-]. pose proof (Byte.to_N_bounded b0). split; [lia | split; lia].
Qed.

(* ---------- remaining length on prefixes ---------- *)
Lemma remlen_firstn_short fuel : forall mult buf v k rest j,
  remlen fuel mult buf = Some (v, k, rest) -> (j < N.to_nat k)%nat ->
  remlen fuel mult (firstn j buf) = None.
Proof.
  induction fuel as [| fuel IH]; intros mult buf v k rest j H Hj; [discriminate |].
  destruct buf as [| b r]; [discriminate |]. cbn [remlen] in H.
  destruct j as [| j]; [reflexivity |]. cbn [firstn remlen].
  destruct (Byte.to_N b <? 128) eqn:E.
  - apply Some_inj3 in H. destruct H as (_ & <- & _). lia.
  - destruct (remlen fuel (mult * 128) r) as [[[v' k'] rest'] |] eqn:Er; [| discriminate].
    apply Some_inj3 in H. destruct H as (_ & <- & _).
    rewrite (IH _ _ _ _ _ j Er) by lia. reflexivity.
Qed.

Lemma remlen_firstn_none fuel : forall mult buf j,
  remlen fuel mult buf = None -> remlen fuel mult (firstn j buf) = None.
Proof.
  induction fuel as [| fuel IH]; intros mult buf j H; [reflexivity |].
  destruct buf as [| b r]; [destruct j; reflexivity |]. cbn [remlen] in H.
  destruct j as [| j]; [reflexivity |]. cbn [firstn remlen].
  destruct (Byte.to_N b <? 128); [discriminate |].
  destruct (remlen fuel (mult * 128) r) as [[[v' k'] rest'] |] eqn:Er; [discriminate |].
  rewrite (IH _ _ j Er). reflexivity.
Qed.

(* ---------- DetectPacket on a header prefix ---------- *)
Lemma detect_needmore b0 r' :
  (length r' <= 4)%nat -> remlen 4 1 r' = None -> Stream.detect_impl (b0 :: r') = Stream.DetNeedMore.
Proof.
  intros Hl Hr. unfold Stream.detect_impl. destruct r' as [| b1 r'']; [reflexivity |].
  destruct (uv_equiv (b1 :: r'') 0 0 ltac:(lia) ltac:(cbn; lia)) as [He _].
  change (7 * 0) with 0 in He. rewrite He.
  rewrite (uvarint_loop_none 4 (b1 :: r'') 0 0 0 1 eq_refl eq_refl ltac:(lia) Hl Hr).
  reflexivity.
Qed.

Lemma detect_len b0 r' rl k rest :
  remlen 4 1 r' = Some (rl, k, rest) -> Stream.detect_impl (b0 :: r') = Stream.DetLen (1 + k + rl) (Byte.to_N b0 / 16).
Proof.
  intros Hr. unfold Stream.detect_impl.
  destruct (remlen_bounds _ _ _ _ _ _ Hr) as (Hk1 & Hk4 & Hkl & _).
  pose proof (remlen_value _ _ _ _ _ _ Hr) as Hv.
  destruct r' as [| b1 r'']; [discriminate |].
  destruct (uv_equiv (b1 :: r'') 0 0 ltac:(lia) ltac:(cbn; lia)) as [He _].
  change (7 * 0) with 0 in He. rewrite He.
  destruct (uvarint_loop_some 4 (b1 :: r'') 0 0 0 1 rl k rest eq_refl eq_refl ltac:(lia) ltac:(lia) Hr)
    as (H1 & _).
  rewrite H1. cbn [uv_view]. change (0 + rl) with rl. change (0 + k) with k.
  assert (Hp : 128 ^ k <= 128 ^ 4) by (apply N.pow_le_mono_r; lia).
  change (128 ^ 4) with 268435456 in Hp.
  change (2 ^ 64) with 18446744073709551616. change (2 ^ 63) with 9223372036854775808.
  rewrite N.mod_small by lia.
  destruct ((0 <? 1 + k + rl) && (1 + k + rl <? 9223372036854775808)) eqn:E; [reflexivity | lia].
Qed.
