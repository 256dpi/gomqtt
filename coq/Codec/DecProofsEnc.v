(* DecProofsEnc.v — what the decoder model does on canonically encoded pieces: the
   remaining length of 2.2.3 (through Varint.v), two-byte integers, length-prefixed strings. *)
From Coq Require Import List NArith ZArith Bool Lia ZifyN ZifyNat ZifyBool.
From Coq.Strings Require Import Byte.
From GM Require Import Codec.Packet Codec.WF Codec.Dec Codec.RefDecode Codec.DecProofsBase.
From GM Require Codec.Enc Codec.WireSpec Codec.Bytes Codec.Varint.
Import ListNotations.
Open Scope N_scope.

Definition n2b (n : N) : byte :=
  match Byte.of_N (n mod 256) with Some b => b | None => x00 end.

Lemma b2n_n2b n : b2n (n2b n) = n mod 256.
Proof. exact (Bytes.b2n_n2b n). Qed.

(* the canonical (minimal) remaining-length bytes of 2.2.3, per size class *)
Definition vbytes (rl : N) : bytes :=
  if rl <? 128 then [n2b rl]
  else if rl <? 16384 then [n2b (rl mod 128 + 128); n2b (rl / 128)]
  else if rl <? 2097152 then [n2b (rl mod 128 + 128); n2b ((rl / 128) mod 128 + 128); n2b (rl / 16384)]
  else [n2b (rl mod 128 + 128); n2b ((rl / 128) mod 128 + 128); n2b ((rl / 16384) mod 128 + 128);
        n2b (rl / 2097152)].

Lemma vbytes_rlb rl : rl <= 268435455 -> vbytes rl = WireSpec.remaining_length rl.
Proof.
  intros H. unfold vbytes, WireSpec.remaining_length.
  rewrite !Varint.rlb_step, !Varint.div128_ltb, !N.div_div by lia.
  change (128 * (128 * (128 * 128))) with 268435456. change (128 * (128 * 128)) with 2097152.
  change (128 * 128 * 128) with 2097152. change (128 * 128) with 16384.
  destruct (rl <? 128); [reflexivity |]. destruct (rl <? 16384); [reflexivity |].
  destruct (rl <? 2097152); [reflexivity |].
  destruct (N.ltb_spec rl 268435456) as [_ | H4]; [reflexivity | lia].
Qed.

Theorem read_varint_vbytes rl tail :
  rl <= 268435455 -> read_varint (vbytes rl ++ tail) = ROk rl (varint_len rl).
Proof.
  intros H. rewrite read_varint_eq, vbytes_rlb, Varint.remaining_length_rlb by exact H. reflexivity.
Qed.

Theorem decode_header_rlb b0 rl body t :
  b2n b0 / 16 = type_code t ->
  (t = TPublish \/ b2n b0 mod 16 = default_flags t) ->
  rl <= 268435455 -> rl <= len body ->
  decode_header (b0 :: WireSpec.remaining_length rl ++ body) t = HOk (1 + varint_len rl) (b2n b0 mod 16) rl.
Proof.
  intros Hty Hfl Hrl Hb. rewrite decode_header_eq. unfold header_spec.
  rewrite Varint.remaining_length_rlb by exact Hrl.
  destruct (WireSpec.remaining_length rl ++ body) as [| x y] eqn:Hr.
  { apply (f_equal (@length byte)) in Hr. pose proof (Varint.blen_remaining_length rl Hrl) as Hl.
    pose proof (Varint.varint_len_bounds rl). unfold WF.blen in Hl. rewrite app_length in Hr. cbn [length] in Hr. lia. }
  fold (nibble_hi b0) in Hty. fold (nibble_lo b0) in Hfl. fold (nibble_lo b0).
  assert (E1 : negb (nibble_hi b0 =? type_code t) = false) by lia.
  rewrite E1.
  assert (E2 : negb (ptype_eqb t TPublish) && negb (nibble_lo b0 =? default_flags t) = false).
  { destruct Hfl as [-> | Hfl]; [reflexivity |]. apply andb_false_iff. right. lia. }
  rewrite E2. destruct (len body <? rl) eqn:E3; [lia | reflexivity].
Qed.

Theorem read_uint2_enc l tail :
  l <= 65535 -> read_uint (n2b (l / 256) :: n2b (l mod 256) :: tail) 2 = ROk l 2.
Proof.
  intros H. rewrite read_uint_2. rewrite !b2n_n2b. f_equal. Bytes.dlia.
Qed.

Theorem read_lp_bytes_enc s tail :
  len s <= 65535 ->
  read_lp_bytes (n2b (len s / 256) :: n2b (len s mod 256) :: s ++ tail) = ROk s (2 + len s).
Proof.
  intros H. rewrite read_lp_bytes_eq. cbv zeta. rewrite !b2n_n2b.
  replace (256 * (len s / 256 mod 256) + len s mod 256 mod 256) with (len s) by Bytes.dlia.
  rewrite len_app. destruct (len s + len tail <? len s) eqn:E; [lia |].
  rewrite firstn_app. replace (N.to_nat (len s) - length s)%nat with 0%nat by (unfold len; lia).
  cbn [firstn]. rewrite app_nil_r. rewrite firstn_all2 by (unfold len; lia). reflexivity.
Qed.

Theorem read_uint8_enc n tail : n <= 255 -> read_uint8 (n2b n :: tail) = ROk n 1.
Proof. intros H. rewrite read_uint8_eq, b2n_n2b. f_equal. apply N.mod_small. lia. Qed.
