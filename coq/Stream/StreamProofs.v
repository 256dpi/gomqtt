(* StreamProofs.v — the chunked decoder model computes the flat-stream reference
   (StreamSpec.v), whatever the chunking; fuel is sufficient; limit clauses. *)
From Coq Require Import List NArith Bool Lia ZArith ZifyN ZifyNat ZifyBool.
From Coq.Strings Require Import Byte.
From GM Require Import Codec.Packet Stream.Stream Stream.StreamSpec.
Import ListNotations.
Open Scope N_scope.

(* ---------------------------------------------------------------- lists *)

Lemma len_nil {A} : len (@nil A) = 0.
Proof. reflexivity. Qed.

Lemma len_app {A} (a b : list A) : len (a ++ b) = len a + len b.
Proof. unfold len. rewrite app_length. lia. Qed.

Lemma len_cons {A} (x : A) l : len (x :: l) = 1 + len l.
Proof. unfold len. cbn [length]. lia. Qed.

Lemma len_zero {A} (l : list A) : len l = 0 -> l = [].
Proof. destruct l; [reflexivity|]. rewrite len_cons. lia. Qed.

Lemma takeN_firstn {A} (l : list A) : forall n, takeN n l = firstn (N.to_nat n) l.
Proof.
  induction l as [|x l IH]; intros n; cbn [takeN].
  - now rewrite firstn_nil.
  - destruct (N.eqb_spec n 0) as [->|Hn]; [reflexivity|].
    replace (N.to_nat n) with (S (N.to_nat (N.pred n))) by lia.
    cbn [firstn]. now rewrite IH.
Qed.

Lemma dropN_skipn {A} (l : list A) : forall n, dropN n l = skipn (N.to_nat n) l.
Proof.
  induction l as [|x l IH]; intros n; cbn [dropN].
  - now rewrite skipn_nil.
  - destruct (N.eqb_spec n 0) as [->|Hn]; [reflexivity|].
    replace (N.to_nat n) with (S (N.to_nat (N.pred n))) by lia.
    cbn [skipn]. now rewrite IH.
Qed.

Lemma takeN_cons {A} n (x : A) l : 1 <= n -> takeN n (x :: l) = x :: firstn (N.to_nat (n - 1)) l.
Proof.
  intros H. rewrite !takeN_firstn. replace (N.to_nat n) with (S (N.to_nat (n - 1))) by lia. reflexivity.
Qed.

Lemma takeN_dropN {A} n (l : list A) : takeN n l ++ dropN n l = l.
Proof. rewrite takeN_firstn, dropN_skipn. apply firstn_skipn. Qed.

Lemma takeN_app_le {A} n (a b : list A) : n <= len a -> takeN n (a ++ b) = takeN n a.
Proof.
  unfold len. intros H. rewrite !takeN_firstn, firstn_app.
  replace (N.to_nat n - length a)%nat with 0%nat by lia.
  cbn [firstn]. now rewrite app_nil_r.
Qed.

Lemma dropN_app_le {A} n (a b : list A) : n <= len a -> dropN n (a ++ b) = dropN n a ++ b.
Proof.
  unfold len. intros H. rewrite !dropN_skipn, skipn_app.
  replace (N.to_nat n - length a)%nat with 0%nat by lia. reflexivity.
Qed.

Lemma takeN_all {A} n (l : list A) : len l <= n -> takeN n l = l.
Proof. unfold len. intros H. rewrite takeN_firstn. apply firstn_all2. lia. Qed.

Lemma dropN_all {A} n (l : list A) : len l <= n -> dropN n l = [].
Proof. unfold len. intros H. rewrite dropN_skipn. apply skipn_all2. lia. Qed.

Lemma len_takeN {A} n (l : list A) : len (takeN n l) = N.min n (len l).
Proof. unfold len. rewrite takeN_firstn, firstn_length. lia. Qed.

Lemma len_dropN {A} n (l : list A) : len (dropN n l) = len l - n.
Proof. unfold len. rewrite dropN_skipn, skipn_length. lia. Qed.

Lemma takeN_takeN {A} n m (l : list A) : n <= m -> takeN n (takeN m l) = takeN n l.
Proof.
  intros H. rewrite !takeN_firstn, firstn_firstn. f_equal. lia.
Qed.

Lemma takeN_exact_app {A} (a b : list A) : takeN (len a) (a ++ b) = a.
Proof. rewrite takeN_app_le by lia. apply takeN_all. lia. Qed.

Lemma dropN_exact_app {A} (a b : list A) : dropN (len a) (a ++ b) = b.
Proof. rewrite dropN_app_le by lia. rewrite dropN_all by lia. reflexivity. Qed.

(* ---------------------------------------------------------------- pulling *)

Lemma gather_spec cs : forall need g r,
  gather need cs = (g, r) ->
  g ++ concat r = concat cs /\ (need <= len g \/ r = []) /\ (cs = [] -> r = []).
Proof.
  induction cs as [|c cs IH]; intros need g r H; cbn [gather] in H.
  - destruct (need =? 0) eqn:E; injection H as <- <-; cbn [concat app]; auto.
  - destruct (need =? 0) eqn:Hn.
    + apply N.eqb_eq in Hn. injection H as <- <-. rewrite len_nil. split; [reflexivity|split; [lia|discriminate]].
    + destruct (gather (need - len c) cs) as [g' r'] eqn:G. injection H as <- <-.
      destruct (IH _ _ _ G) as (E1 & E2 & _). split; [|split; [|discriminate]].
      * cbn [concat]. rewrite <- app_assoc, E1. reflexivity.
      * destruct E2 as [E2|E2]; [left|right; exact E2]. rewrite len_app. lia.
Qed.

(* what the decoder can see of a pull depends on the flat stream only;
   a source that has delivered everything delivers nothing more *)
Lemma pull_view n buf cs b' cs' :
  pull n buf cs = (b', cs') ->
  let F := buf ++ concat cs in
  b' ++ concat cs' = F /\
  (len b' <? n) = (len F <? n) /\
  (n <= len b' -> takeN n b' = takeN n F /\ dropN n b' ++ concat cs' = dropN n F) /\
  (len b' < n -> b' = F /\ cs' = []) /\
  (cs = [] -> cs' = []).
Proof.
  intros H F. unfold pull in H. destruct (gather (n - len buf) cs) as [g r] eqn:G. injection H as Eb <-.
  destruct (gather_spec _ _ _ _ G) as (E1 & E2 & E3).
  assert (E : b' ++ concat r = F) by (unfold F; rewrite <- Eb, <- app_assoc, E1; reflexivity).
  assert (HF : len F = len b' + len (concat r)) by (rewrite <- E, len_app; reflexivity).
  assert (E2' : n <= len b' \/ r = []) by (destruct E2; [left; rewrite <- Eb, len_app; lia|right; assumption]).
  split; [exact E|]. split; [|split; [|split; [|exact E3]]].
  - destruct E2' as [E2' | ->].
    + destruct (N.ltb_spec (len b') n), (N.ltb_spec (len F) n); try reflexivity; lia.
    + cbn [concat] in HF. rewrite len_nil in HF. rewrite HF. f_equal. lia.
  - intros Hn. rewrite <- E. rewrite takeN_app_le, dropN_app_le by exact Hn. split; reflexivity.
  - intros Hn. destruct E2' as [E2' | ->]; [lia|]. cbn [concat] in E. rewrite app_nil_r in E. split; [exact E|reflexivity].
Qed.


Section Body.
  Variable decode : N -> list byte -> option packet.

  Definition within (lim total : N) : Prop := lim = 0 \/ total <= lim.

  Lemma limit_spec lim total : BoolSpec (0 < lim /\ lim < total) (within lim total) ((0 <? lim) && (lim <? total)).
  Proof. unfold within. destruct (N.ltb_spec 0 lim), (N.ltb_spec lim total); constructor; lia. Qed.

  Lemma sdec_body_refuse lim dl total t bs e :
    0 < lim -> lim < total -> sdec_body decode lim dl total t bs e = (RFail EReadLimit, None, dl, bs).
  Proof. intros H0 H1. unfold sdec_body. destruct (limit_spec lim total) as [_|[Hz|Hle]]; [reflexivity|lia|lia]. Qed.

  Lemma sdec_body_cut lim dl total t bs e :
    within lim total -> type_of_code t <> None -> len bs < total ->
    sdec_body decode lim dl total t bs e = (RFail (end_err e (len bs)), Some total, dl, []).
  Proof.
    intros Hw Ht Hs. unfold sdec_body. destruct (limit_spec lim total) as [[H0 H1]|_]; [destruct Hw; lia|].
    destruct (type_of_code t); [|contradiction]. destruct (N.ltb_spec (len bs) total); [reflexivity|lia].
  Qed.

  Lemma sdec_body_frame lim dl total t bs e :
    within lim total -> type_of_code t <> None -> total <= len bs ->
    sdec_body decode lim dl total t bs e =
    (match decode t (takeN total bs) with Some p => RPacket (takeN total bs) p | None => RFail EDecode end,
     Some total, dl, dropN total bs).
  Proof.
    intros Hw Ht Hs. unfold sdec_body. destruct (limit_spec lim total) as [[H0 H1]|_]; [destruct Hw; lia|].
    destruct (type_of_code t); [|contradiction]. destruct (N.ltb_spec (len bs) total); [lia|].
    destruct (decode t (takeN total bs)); reflexivity.
  Qed.

  (* the ways a Read on the stream bs fails: the error, the allocation request made before it,
     what is left of the stream *)
  Inductive fail_view (lim : N) (bs : list byte) (e : src_end) : derr -> option N -> list byte -> Prop :=
  | fv_peek : fail_view lim bs e (end_err e (len bs)) None bs                 (* Peek came back short *)
  | fv_overflow : fail_view lim bs e EDetectionOverflow None bs
  | fv_limit total : 0 < lim -> lim < total -> fail_view lim bs e EReadLimit None bs
  | fv_type : fail_view lim bs e EInvalidType None bs
  | fv_cut total : within lim total -> fail_view lim bs e (end_err e (len bs)) (Some total) []   (* ReadFull came back short *)
  | fv_decode total t : within lim total -> type_of_code t <> None -> decode t (takeN total bs) = None ->
      fail_view lim bs e EDecode (Some total) (dropN total bs).

  (* every Read either fails in one of these ways or returns a non-empty prefix of the stream
     that New + Decode accepted, requested exactly its size and leaves the rest *)
  Definition read_view (lim : N) (bs : list byte) (e : src_end) (r : rres) (al : option N) (rest : list byte) : Prop :=
    match r with
    | RFail er => fail_view lim bs e er al rest
    | RPacket fr p => bs = fr ++ rest /\ len fr <> 0 /\ al = Some (len fr) /\ within lim (len fr) /\
                      exists t, decode t fr = Some p /\ type_of_code t <> None
    end.

  Lemma sdec_body_view lim dl total t bs e r al pk rest :
    total <> 0 -> sdec_body decode lim dl total t bs e = (r, al, pk, rest) -> pk = dl /\ read_view lim bs e r al rest.
  Proof.
    intros Hz. unfold sdec_body. destruct (limit_spec lim total) as [[H0 H1]|Hw].
    { intros [= <- <- <- <-]. split; [reflexivity|]. exact (fv_limit _ _ _ total H0 H1). }
    destruct (type_of_code t) as [ty|] eqn:Ety.
    2: { intros [= <- <- <- <-]. split; [reflexivity|apply fv_type]. }
    assert (Ht : Some ty <> None) by discriminate.
    destruct (N.ltb_spec (len bs) total) as [Hs|Hs].
    { intros [= <- <- <- <-]. split; [reflexivity|]. exact (fv_cut _ _ _ total Hw). }
    destruct (decode t (takeN total bs)) as [p|] eqn:D; intros [= <- <- <- <-]; (split; [reflexivity|]).
    - cbn [read_view]. rewrite takeN_dropN, len_takeN. replace (N.min total (len bs)) with total by lia.
      repeat split; auto. exists t. rewrite Ety. auto.
    - apply (fv_decode _ _ _ total t Hw); [rewrite Ety; exact Ht|exact D].
  Qed.

  Lemma end_err_neq e got er :
    er <> EEof -> er <> EUnexpectedEof -> (forall c, er <> ESource c) -> end_err e got <> er.
  Proof. intros H1 H2 H3. destruct e as [|c]; cbn [end_err]; [destruct (got =? 0)|]; auto. Qed.

  (* allocation requests respect the limit, none is made for a refused packet,
     and no Read reports fuel exhaustion *)
  Lemma fail_view_alloc lim bs e er al rest :
    fail_view lim bs e er al rest ->
    (forall a, al = Some a -> within lim a) /\ (er = EReadLimit -> al = None) /\ er <> EOutOfFuel.
  Proof.
    intros V. split; [|split].
    - intros a Ha. destruct V; try discriminate Ha; injection Ha as <-; assumption.
    - intros He. destruct V; try reflexivity; [exfalso; revert He; apply end_err_neq|]; discriminate.
    - destruct V; try discriminate; apply end_err_neq; discriminate.
  Qed.
End Body.

(* ---------------------------------------------------------------- the model computes the reference *)

Section Sim.
  Variable detect : list byte -> detection.
  Variable decode : N -> list byte -> option packet.

  Definition view (r : rout) : sres := (r_res r, r_alloc r, r_peeked r, flat (r_state r)).

  (* r, computed from chunks cs and ending e, shows the flat result x; the source keeps
     its ending and, once it has delivered everything, stays that way *)
  Definition shows (r : rout) (cs : list (list byte)) (e : src_end) (x : sres) : Prop :=
    view r = x /\ d_end (r_state r) = e /\ (cs = [] -> d_src (r_state r) = []).

  Lemma dec_body_flat lim dl total t buf cs e :
    shows (dec_body decode lim dl total t buf cs e) cs e (sdec_body decode lim dl total t (buf ++ concat cs) e).
  Proof.
    unfold dec_body, sdec_body, shows.
    destruct ((0 <? lim) && (lim <? total)); [auto|].
    destruct (type_of_code t); [|auto].
    destruct (pull total buf cs) as [b' cs'] eqn:P.
    destruct (pull_view _ _ _ _ _ P) as (E1 & E2 & E3 & E4 & E5).
    rewrite <- E2.
    destruct (N.ltb_spec (len b') total) as [Hlt|Hge].
    - destruct (E4 Hlt) as [-> ->]. auto.
    - destruct (E3 Hge) as [T D]. rewrite <- T.
      destruct (decode t (takeN total b')); unfold view, flat; cbn [r_res r_alloc r_peeked r_state d_buf d_src d_end];
        rewrite D; auto.
  Qed.

  Lemma dec_detect_flat fuel : forall lim dl buf cs e,
    shows (dec_detect detect decode fuel lim dl buf cs e) cs e (sdec_detect detect decode fuel lim dl (buf ++ concat cs) e).
  Proof.
    induction fuel as [|f IH]; intros lim dl buf cs e; cbn [dec_detect sdec_detect].
    - unfold shows. auto.
    - destruct (pull dl buf cs) as [b' cs'] eqn:P.
      destruct (pull_view _ _ _ _ _ P) as (E1 & E2 & E3 & E4 & E5).
      assert (K : forall r x, shows r cs' e x -> shows r cs e x).
      { intros r x (V & E & S). split; [exact V|]. split; [exact E|]. intros C. exact (S (E5 C)). }
      rewrite <- E2.
      destruct (N.ltb_spec (len b') dl) as [Hlt|Hge].
      + destruct (E4 Hlt) as [Eb ->]. unfold shows, view, flat; cbn [r_res r_alloc r_peeked r_state d_buf d_src d_end concat].
        rewrite app_nil_r, Eb. auto.
      + destruct (E3 Hge) as [T _]. rewrite <- T, <- E1. apply K.
        destruct (detect (takeN dl b')) as [|total t]; [apply IH|].
        destruct (total =? 0); [apply IH|apply dec_body_flat].
  Qed.

  Lemma dec_read_flat lim s :
    view (dec_read detect decode lim s) = sdec_read detect decode lim (flat s) (d_end s)
    /\ d_end (r_state (dec_read detect decode lim s)) = d_end s.
  Proof. destruct (dec_detect_flat 4 lim 2 (d_buf s) (d_src s) (d_end s)) as (V & E & _). split; assumption. Qed.

  Definition aview (a : dall) : sall := (a_frames a, a_err a, a_allocs a, a_peeked a).

  Lemma dec_all_f_flat fuel : forall lim s,
    aview (dec_all_f detect decode fuel lim s) = sdec_all_f detect decode fuel lim (flat s) (d_end s).
  Proof.
    induction fuel as [|f IH]; intros lim s; cbn [dec_all_f sdec_all_f]; [reflexivity|].
    destruct (dec_read_flat lim s) as [V E]. rewrite <- V. unfold view.
    destruct (r_res (dec_read detect decode lim s)) as [fr p|er]; [|reflexivity].
    rewrite <- E, <- IH. reflexivity.
  Qed.

  (* the chunked model computes the flat reference *)
  Theorem dec_all_flat lim cs e :
    aview (dec_all detect decode lim cs e) = sdec_all detect decode lim (concat cs) e.
  Proof. unfold dec_all, sdec_all. rewrite dec_all_f_flat. reflexivity. Qed.

  (* C03_chunking_irrelevant: packets (byte ranges and values), terminal error,
     allocation requests and the final peek are the same for every chunking *)
  Theorem chunking_irrelevant lim cs e :
    aview (dec_all detect decode lim cs e) = aview (dec_all detect decode lim [concat cs] e).
  Proof. rewrite !dec_all_flat. cbn [concat]. rewrite app_nil_r. reflexivity. Qed.

  Corollary chunking_irrelevant_two lim cs1 cs2 e :
    concat cs1 = concat cs2 ->
    aview (dec_all detect decode lim cs1 e) = aview (dec_all detect decode lim cs2 e).
  Proof. intros H. rewrite !dec_all_flat, H. reflexivity. Qed.


  Lemma sdec_detect_view fuel : forall lim dl bs e r al pk rest,
    sdec_detect detect decode fuel lim dl bs e = (r, al, pk, rest) ->
    pk <= dl + N.of_nat fuel - 1 /\ read_view decode lim bs e r al rest.
  Proof.
    induction fuel as [|f IH]; intros lim dl bs e r al pk rest; cbn [sdec_detect].
    - intros [= <- <- <- <-]. split; [lia|apply fv_overflow].
    - replace (dl + N.of_nat (S f)) with (dl + 1 + N.of_nat f) by lia.
      destruct (len bs <? dl).
      { intros [= <- <- <- <-]. split; [lia|apply fv_peek]. }
      destruct (detect (takeN dl bs)) as [|total t]; [apply IH|].
      destruct (N.eqb_spec total 0) as [_|Hz]; [apply IH|].
      intros H. destruct (sdec_body_view decode _ _ _ _ _ _ _ _ _ _ Hz H) as [-> V]. split; [lia|exact V].
  Qed.

  Lemma sdec_read_view lim bs e r al pk rest :
    sdec_read detect decode lim bs e = (r, al, pk, rest) -> pk <= 5 /\ read_view decode lim bs e r al rest.
  Proof. exact (sdec_detect_view 4 lim 2 bs e r al pk rest). Qed.

  (* the detection loop passes over the lengths at which DetectPacket sees nothing yet.
     sdec_read starts it at length 2 with fuel 4, so on reaching length h the fuel left is 6 - h:
     the callers below pass fuel = 4, dl = 2 and fuel' = 6 - h *)
  Lemma sdec_detect_skip lim bs e h : forall fuel fuel' dl,
    dl <= h -> dl + N.of_nat fuel = h + N.of_nat fuel' ->
    (forall k, dl <= k -> k < h -> k <= len bs /\ detect (takeN k bs) = DetNeedMore) ->
    sdec_detect detect decode fuel lim dl bs e = sdec_detect detect decode fuel' lim h bs e.
  Proof.
    induction fuel as [|f IH]; intros fuel' dl Hle Hf Hq;
      (destruct (N.eq_dec dl h) as [->|Hne]; [f_equal; lia|]); [lia|].
    cbn [sdec_detect]. destruct (Hq dl) as [Hl Hd]; [lia|lia|].
    destruct (N.ltb_spec (len bs) dl); [lia|]. rewrite Hd. apply IH; [lia|lia|]. intros k H1 H2. apply Hq; lia.
  Qed.

  (* … up to a complete header *)
  Lemma sdec_read_header lim bs e h total t :
    2 <= h -> h <= 5 -> h <= len bs -> total <> 0 ->
    (forall k, 2 <= k -> k <= h -> detect (takeN k bs) = if k <? h then DetNeedMore else DetLen total t) ->
    sdec_read detect decode lim bs e = sdec_body decode lim h total t bs e.
  Proof.
    intros H2 H5 Hl Hz Hd. unfold sdec_read.
    assert (Hq : forall k, 2 <= k -> k < h -> k <= len bs /\ detect (takeN k bs) = DetNeedMore).
    { intros k K1 K2. split; [lia|]. rewrite Hd by lia. destruct (N.ltb_spec k h); [reflexivity|lia]. }
    rewrite (sdec_detect_skip lim bs e h 4 (S (N.to_nat (5 - h))) 2) by (assumption || lia).
    cbn [sdec_detect]. destruct (N.ltb_spec (len bs) h); [lia|]. rewrite Hd, N.ltb_irrefl by lia.
    destruct (N.eqb_spec total 0); [contradiction|reflexivity].
  Qed.

  (* … up to the end of a stream of fewer than 5 bytes (h = 2 for fewer than 2) *)
  Lemma sdec_read_short lim bs e h :
    2 <= h -> h <= 5 -> len bs < h ->
    (forall k, 2 <= k -> k < h -> k <= len bs /\ detect (takeN k bs) = DetNeedMore) ->
    sdec_read detect decode lim bs e = (RFail (end_err e (len bs)), None, h, bs).
  Proof.
    intros H2 H5 Hl Hq. unfold sdec_read.
    rewrite (sdec_detect_skip lim bs e h 4 (S (N.to_nat (5 - h))) 2) by (assumption || lia).
    cbn [sdec_detect]. destruct (N.ltb_spec (len bs) h); [reflexivity|lia].
  Qed.

  (* … or over all four *)
  Lemma sdec_read_overflow lim bs e :
    (forall k, 2 <= k -> k < 6 -> k <= len bs /\ detect (takeN k bs) = DetNeedMore) ->
    sdec_read detect decode lim bs e = (RFail EDetectionOverflow, None, 5, bs).
  Proof. intros Hq. unfold sdec_read. rewrite (sdec_detect_skip lim bs e 6 4 0 2) by (assumption || lia). reflexivity. Qed.

  (* a Read on a source that delivers nothing more: only the buffer is used *)
  Lemma dec_read_drained lim s :
    d_src s = [] ->
    let r := dec_read detect decode lim s in
    d_src (r_state r) = [] /\ d_end (r_state r) = d_end s /\
    match r_res r with
    | RPacket fr p => d_buf s = fr ++ d_buf (r_state r) /\ fr <> []
    | RFail _ => True
    end.
  Proof.
    intros Hs r. destruct (dec_detect_flat 4 lim 2 (d_buf s) (d_src s) (d_end s)) as (V & E & S).
    change (dec_detect detect decode 4 lim 2 (d_buf s) (d_src s) (d_end s)) with r in V, E, S.
    specialize (S Hs). split; [exact S|]. split; [exact E|].
    unfold view in V. destruct (r_res r) as [fr p|er]; [|exact I].
    symmetry in V. destruct (sdec_read_view _ _ _ _ _ _ _ V) as [_ (E1 & Hnz & _)].
    unfold flat in E1. rewrite Hs, S in E1. cbn [concat] in E1. rewrite !app_nil_r in E1.
    split; [exact E1|]. intros ->. apply Hnz. reflexivity.
  Qed.


  (* induction over the Reads of a run: every successful Read consumes at least one byte,
     so with more fuel than bytes the run ends with a failing Read *)
  Section Run.
    Variables (lim : N) (e : src_end) (P : list byte -> sall -> Prop).
    Hypothesis fail : forall bs er al pk rest,
      sdec_read detect decode lim bs e = (RFail er, al, pk, rest) -> P bs ([], er, opt_cons al [], pk).
    Hypothesis packet : forall bs fr p al pk rest fs er als pk',
      sdec_read detect decode lim bs e = (RPacket fr p, al, pk, rest) -> (length rest < length bs)%nat ->
      P rest (fs, er, als, pk') -> P bs ((fr, p) :: fs, er, opt_cons al als, pk').

    Lemma sdec_all_ind : forall fuel bs, (length bs < fuel)%nat -> P bs (sdec_all_f detect decode fuel lim bs e).
    Proof.
      induction fuel as [|f IH]; intros bs Hf; [lia|]. cbn [sdec_all_f].
      destruct (sdec_read detect decode lim bs e) as [[[[fr p|er] al] pk] rest] eqn:R; [|exact (fail _ _ _ _ _ R)].
      destruct (sdec_read_view _ _ _ _ _ _ _ R) as [_ (E & Hnz & _)].
      assert (Hr : (length rest < length bs)%nat) by (subst bs; rewrite app_length; unfold len in Hnz; lia).
      specialize (IH rest ltac:(lia)).
      destruct (sdec_all_f detect decode f lim rest e) as [[[fs er] als] pk']. exact (packet _ _ _ _ _ _ _ _ _ _ R Hr IH).
    Qed.

    Lemma dec_all_ind cs : P (concat cs) (aview (dec_all detect decode lim cs e)).
    Proof. rewrite dec_all_flat. apply sdec_all_ind. apply Nat.lt_succ_diag_r. Qed.
  End Run.

  Lemma sdec_all_f_enough lim e bs fuel :
    (length bs < fuel)%nat -> sdec_all_f detect decode fuel lim bs e = sdec_all detect decode lim bs e.
  Proof.
    revert fuel. unfold sdec_all.
    apply (sdec_all_ind lim e (fun bs x => forall fuel, (length bs < fuel)%nat -> sdec_all_f detect decode fuel lim bs e = x));
      [| | lia].
    - (* the read fails and the run ends *)
      intros bs0 er al pk rest R [|f] Hf; [lia|]. cbn [sdec_all_f]. rewrite R. reflexivity.
    - (* a packet, then the run on the shorter rest *)
      intros bs0 fr p al pk rest fs er als pk' R Hr IH [|f] Hf; [lia|]. cbn [sdec_all_f]. rewrite R, IH by lia. reflexivity.
  Qed.

  Lemma sdec_all_eq lim bs e :
    sdec_all detect decode lim bs e =
    match sdec_read detect decode lim bs e with
    | (RFail er, al, pk, _) => ([], er, opt_cons al [], pk)
    | (RPacket fr p, al, _, rest) =>
        let '(fs, er, als, pk) := sdec_all detect decode lim rest e in ((fr, p) :: fs, er, opt_cons al als, pk)
    end.
  Proof.
    unfold sdec_all at 1. cbn [sdec_all_f].
    destruct (sdec_read detect decode lim bs e) as [[[[fr p|er] al] pk] rest] eqn:R; [|reflexivity].
    destruct (sdec_read_view _ _ _ _ _ _ _ R) as [_ (E & Hnz & _)].
    rewrite sdec_all_f_enough; [reflexivity|]. subst bs. rewrite app_length. unfold len in Hnz. lia.
  Qed.

  (* dec_all never runs out of fuel *)
  Theorem dec_all_fuel_ok lim cs e : a_err (dec_all detect decode lim cs e) <> EOutOfFuel.
  Proof.
    refine (dec_all_ind lim e (fun _ '(_, er, _, _) => er <> EOutOfFuel) _ _ cs).
    - intros bs er al pk rest R. destruct (sdec_read_view _ _ _ _ _ _ _ R) as [_ V]. apply (fail_view_alloc decode _ _ _ _ _ _ V).
    - intros bs fr p al pk rest fs er als pk' _ _ IH. exact IH.
  Qed.

  (* C03_limit_first, first half: with a positive limit every allocation request is
     within the limit and every returned packet is; when the limit trips, no request
     was made for the refused packet and at most 5 bytes of it were peeked *)
  Theorem limit_first lim cs e :
    let a := dec_all detect decode lim cs e in
    (0 < lim -> Forall (fun x => x <= lim) (a_allocs a)) /\
    (0 < lim -> Forall (fun fp => len (fst fp) <= lim) (a_frames a)) /\
    (a_err a = EReadLimit -> length (a_allocs a) = length (a_frames a) /\ a_peeked a <= 5).
  Proof.
    refine (dec_all_ind lim e (fun _ '(fs, er, als, pk) =>
              (0 < lim -> Forall (fun x => x <= lim) als) /\ (0 < lim -> Forall (fun fp => len (fst fp) <= lim) fs) /\
              (er = EReadLimit -> length als = length fs /\ pk <= 5)) _ _ cs).
    - intros bs er al pk rest R. destruct (sdec_read_view _ _ _ _ _ _ _ R) as [Hpk V].
      destruct (fail_view_alloc decode _ _ _ _ _ _ V) as (A & B & _).
      split; [|split; [constructor|]].
      + intros Hl. destruct al as [a|]; cbn [opt_cons]; [constructor; [destruct (A a eq_refl); lia|]|]; constructor.
      + intros He. rewrite (B He). split; [reflexivity|exact Hpk].
    - intros bs fr p al pk rest fs er als pk' R _ (I1 & I2 & I3).
      destruct (sdec_read_view _ _ _ _ _ _ _ R) as [_ (_ & _ & -> & Hw & _)]. cbn [opt_cons].
      assert (L : 0 < lim -> len fr <= lim) by (destruct Hw; lia).
      split; [intros Hl; constructor; auto|]. split; [intros Hl; constructor; auto|].
      intros He. destruct (I3 He) as [J1 J2]. split; [cbn [length]; f_equal; exact J1|exact J2].
  Qed.
End Sim.
