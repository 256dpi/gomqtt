(* FramesProofs.v — what the decoder does on a concatenation of encodings:
   C03_frames, C03_truncation, the second half of C03_limit_first.
   Stated inside a section over the codec interface (enc / detect / decode and
   two hypotheses the codec theorems of C01/C02 discharge). *)
From Coq Require Import List NArith Bool Lia ZArith ZifyN ZifyNat ZifyBool.
From Coq.Strings Require Import Byte.
From GM Require Import Codec.Packet Stream.Stream Stream.StreamSpec Stream.StreamProofs.
Import ListNotations.
Open Scope N_scope.

Lemma type_of_code_type_code t : type_of_code (type_code t) = Some t.
Proof. destruct t; reflexivity. Qed.

Section Codec.
  Variable enc : packet -> list byte.                      (* the bytes Encode writes for a packet *)
  Variable detect : list byte -> detection.                (* DetectPacket *)
  Variable decode : N -> list byte -> option packet.       (* Type.New() + Decode on exactly the packet's bytes *)
  Variable good : packet -> Prop.                          (* well-formed packets (WF.wf p = true) *)

  (* H1: the fixed header of an encoding is h = 2..5 bytes long and lies within the
     encoding; DetectPacket on the first k <= h bytes answers "nothing yet" for k < h
     and (total length, type nibble) for k = h. *)
  Hypothesis detect_enc : forall p, good p ->
    exists h, 2 <= h /\ h <= 5 /\ h <= len (enc p) /\
      forall k, 2 <= k -> k <= h ->
        detect (takeN k (enc p)) =
        if k <? h then DetNeedMore else DetLen (len (enc p)) (type_code (ptype_of p)).

  (* H2: decoding an encoding gives the packet back (C01 round trip) *)
  Hypothesis decode_enc : forall p, good p -> decode (type_code (ptype_of p)) (enc p) = Some p.

  Definition fits (lim : N) (p : packet) : Prop := lim = 0 \/ len (enc p) <= lim.

  Definition frame_of (p : packet) : list byte * packet := (enc p, p).
  Definition alloc_of (p : packet) : N := len (enc p).

  Lemma read_header p rest lim e :
    good p ->
    exists h, h <= 5 /\
      sdec_read detect decode lim (enc p ++ rest) e =
      sdec_body decode lim h (len (enc p)) (type_code (ptype_of p)) (enc p ++ rest) e.
  Proof.
    intros Hg. destruct (detect_enc p Hg) as (h & H2 & H5 & Hl & Hd).
    exists h. split; [exact H5|]. apply sdec_read_header; try lia.
    - rewrite len_app. lia.
    - intros k Hk Hkh. rewrite takeN_app_le by lia. apply Hd; assumption.
  Qed.

  Lemma type_code_known (t : ptype) : type_of_code (type_code t) <> None.
  Proof. rewrite type_of_code_type_code. discriminate. Qed.

  (* one Read on a stream that starts with a whole encoding *)
  Lemma read_whole p rest lim e :
    good p -> fits lim p ->
    exists pk, pk <= 5 /\
      sdec_read detect decode lim (enc p ++ rest) e = (RPacket (enc p) p, Some (len (enc p)), pk, rest).
  Proof.
    intros Hg Hfit. destruct (read_header p rest lim e Hg) as (h & H5 & R).
    exists h. split; [exact H5|]. rewrite R, (sdec_body_frame decode).
    - rewrite takeN_exact_app, dropN_exact_app, (decode_enc p Hg). reflexivity.
    - exact Hfit.
    - apply type_code_known.
    - rewrite len_app. lia.
  Qed.

  (* one Read on a stream that starts with an encoding longer than the limit *)
  Lemma read_refused p rest lim e :
    good p -> 0 < lim -> lim < len (enc p) ->
    exists pk, pk <= 5 /\
      sdec_read detect decode lim (enc p ++ rest) e = (RFail EReadLimit, None, pk, enc p ++ rest).
  Proof.
    intros Hg Hl0 Hl1. destruct (read_header p rest lim e Hg) as (h & H5 & R).
    exists h. split; [exact H5|]. rewrite R. apply (sdec_body_refuse decode); assumption.
  Qed.

  (* one Read on a stream that ends inside an encoding (j = 0: at a packet boundary) *)
  Lemma read_truncated p j lim e :
    good p -> fits lim p -> j < len (enc p) ->
    exists al pk rest, sdec_read detect decode lim (takeN j (enc p)) e = (RFail (end_err e j), al, pk, rest).
  Proof.
    intros Hg Hfit Hj. destruct (detect_enc p Hg) as (h & H2 & H5 & Hl & Hd).
    set (bs := takeN j (enc p)).
    assert (Hbs : len bs = j) by (unfold bs; rewrite len_takeN; lia).
    assert (Hd' : forall k, 2 <= k -> k <= h -> k <= j ->
              detect (takeN k bs) = if k <? h then DetNeedMore else DetLen (len (enc p)) (type_code (ptype_of p))).
    { intros k K1 K2 K3. unfold bs. rewrite takeN_takeN by lia. apply Hd; assumption. }
    rewrite <- Hbs. destruct (N.le_gt_cases h j) as [Hhj|Hhj].
    - (* the header is complete, the body is not *)
      rewrite (sdec_read_header detect decode lim bs e h (len (enc p)) (type_code (ptype_of p))); try lia.
      + rewrite (sdec_body_cut decode); [eauto|exact Hfit|apply type_code_known|lia].
      + intros k K1 K2. apply Hd'; lia.
    - (* the stream ends inside the header *)
      rewrite (sdec_read_short detect decode lim bs e (N.max 2 (j + 1))); [eauto|lia|lia|lia|].
      intros k K1 K2. split; [lia|]. rewrite Hd' by lia. destruct (N.ltb_spec k h); [reflexivity|lia].
  Qed.

  Lemma all_prefix lim e tail ps :
    Forall good ps -> Forall (fits lim) ps ->
    sdec_all detect decode lim (concat (map enc ps) ++ tail) e =
    let '(fs, er, als, pk) := sdec_all detect decode lim tail e in
    (map frame_of ps ++ fs, er, map alloc_of ps ++ als, pk).
  Proof.
    intros Hg Hf. induction Hg as [|p ps Hg1 Hg2 IH]; cbn [map concat app].
    - destruct (sdec_all detect decode lim tail e) as [[[fs er] als] pk]. reflexivity.
    - inversion Hf as [|? ? Hf1 Hf2]; subst. rewrite <- app_assoc, sdec_all_eq.
      destruct (read_whole p (concat (map enc ps) ++ tail) lim e Hg1 Hf1) as (pk0 & _ & ->).
      rewrite (IH Hf2). destruct (sdec_all detect decode lim tail e) as [[[fs er] als] pk]. reflexivity.
  Qed.

  Lemma frames_then lim ps tail cs e er al pk rest :
    Forall good ps -> Forall (fits lim) ps -> concat cs = concat (map enc ps) ++ tail ->
    sdec_read detect decode lim tail e = (RFail er, al, pk, rest) ->
    aview (dec_all detect decode lim cs e) = (map frame_of ps, er, map alloc_of ps ++ opt_cons al [], pk).
  Proof.
    intros Hg Hf Hc R. rewrite dec_all_flat, Hc, (all_prefix lim e tail ps Hg Hf), sdec_all_eq, R, app_nil_r. reflexivity.
  Qed.

  (* ---------------------------------------------------------------- the theorems, for every chunking *)

  (* C03_frames: a concatenation of encodings of well-formed packets that fit the
     limit, cut into chunks in any way, decodes to exactly those packets (byte
     ranges included), one allocation request per packet of exactly its size,
     then the end of the source: EOF for io.EOF, the source's error otherwise *)
  Theorem frames lim ps cs e :
    Forall good ps -> Forall (fits lim) ps -> concat cs = concat (map enc ps) ->
    let a := dec_all detect decode lim cs e in
    a_frames a = map frame_of ps /\ a_err a = end_err e 0 /\ a_allocs a = map alloc_of ps.
  Proof.
    intros Hg Hf Hc a. rewrite <- (app_nil_r (concat (map enc ps))) in Hc.
    pose proof (frames_then lim ps [] cs e _ _ _ _ Hg Hf Hc eq_refl) as V.
    cbn [opt_cons] in V. rewrite app_nil_r in V. injection V as V1 V2 V3 _. auto.
  Qed.

  (* C03_truncation: the stream ends j bytes into a packet (0 < j < its length):
     the complete packets before it, then ErrUnexpectedEOF for io.EOF (the source's
     own error otherwise) — never a packet made from the partial bytes *)
  Theorem truncation lim ps p j cs e :
    Forall good (p :: ps) -> Forall (fits lim) (p :: ps) -> j < len (enc p) ->
    concat cs = concat (map enc ps) ++ takeN j (enc p) ->
    let a := dec_all detect decode lim cs e in
    a_frames a = map frame_of ps /\ a_err a = end_err e j.
  Proof.
    intros Hg Hf Hj Hc a.
    inversion Hg as [|? ? Hg1 Hg2]; subst. inversion Hf as [|? ? Hf1 Hf2]; subst.
    destruct (read_truncated p j lim e Hg1 Hf1 Hj) as (al & pk & rest & R).
    pose proof (frames_then lim ps _ cs e _ _ _ _ Hg2 Hf2 Hc R) as V. injection V as V1 V2 _ _. auto.
  Qed.

  (* C03_limit_first, second half: a packet longer than a positive limit, wherever
     it starts and however the stream is cut, ends the stream with ErrReadLimitExceeded
     right after the packets before it; no allocation request is made for it and at
     most 5 bytes were peeked; what follows it (even nothing) plays no role *)
  Theorem limit_refuses lim ps p rest cs e :
    Forall good (p :: ps) -> Forall (fits lim) ps -> 0 < lim -> lim < len (enc p) ->
    concat cs = concat (map enc ps) ++ enc p ++ rest ->
    let a := dec_all detect decode lim cs e in
    a_frames a = map frame_of ps /\ a_err a = EReadLimit /\ a_allocs a = map alloc_of ps /\ a_peeked a <= 5.
  Proof.
    intros Hg Hf Hl0 Hl1 Hc a. inversion Hg as [|? ? Hg1 Hg2]; subst.
    destruct (read_refused p rest lim e Hg1 Hl0 Hl1) as (pk & Hpk & R).
    pose proof (frames_then lim ps _ cs e _ _ _ _ Hg2 Hf Hc R) as V.
    cbn [opt_cons] in V. rewrite app_nil_r in V. injection V as V1 V2 V3 V4. subst. auto.
  Qed.
End Codec.
