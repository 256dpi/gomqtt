(* ToyCodec.v — a four-packet codec that meets the codec interface of
   FramesProofs.v, used for the non-vacuity Examples of Props/C03.v and C19.v
   (StreamCodec.v instantiates the same interface with the real codec).
   The byte strings are the real MQTT encodings. *)
From Coq Require Import List NArith Bool Lia ZArith ZifyN ZifyNat ZifyBool.
From Coq.Strings Require Import Byte.
From GM Require Import Codec.Packet Stream.Stream Stream.StreamProofs Stream.FramesProofs.
Import ListNotations.
Open Scope N_scope.

Definition toy_big : packet := Publish false (Msg [x74] (repeat x00 128) 0 false) 0.

Definition toy_good (p : packet) : Prop :=
  p = Pingreq \/ p = Disconnect \/ p = Puback 7 \/ p = toy_big.

Definition toy_enc (p : packet) : list byte :=
  match p with
  | Pingreq => [xc0; x00]
  | Disconnect => [xe0; x00]
  | Puback _ => [x40; x02; x00; x07]
  | _ => [x30; x83; x01; x00; x01; x74] ++ repeat x00 128      (* 3-byte header, 131-byte body *)
  end.

Definition toy_decode (t : N) (bs : list byte) : option packet :=
  if (t =? 12) && (len bs =? 2) then Some Pingreq
  else if (t =? 14) && (len bs =? 2) then Some Disconnect
  else if (t =? 4) && (len bs =? 4) then Some (Puback 7)
  else if (t =? 3) && (len bs =? 134) then Some toy_big
  else None.

Lemma toy_detect_enc : forall p, toy_good p ->
  exists h, 2 <= h /\ h <= 5 /\ h <= len (toy_enc p) /\
    forall k, 2 <= k -> k <= h ->
      detect_impl (takeN k (toy_enc p)) =
      if k <? h then DetNeedMore else DetLen (len (toy_enc p)) (type_code (ptype_of p)).
Proof.
  assert (LE : forall a b : N, (a <=? b) = true -> a <= b) by (intros a b; apply N.leb_le).
  intros p [->|[->|[->| ->]]].
  1-3: exists 2; (split; [apply LE; reflexivity|]); (split; [apply LE; reflexivity|]); (split; [apply LE; reflexivity|]);
       intros k H1 H2; assert (k = 2) by lia; subst k; vm_compute; reflexivity.
  exists 3. split; [apply LE; reflexivity|]. split; [apply LE; reflexivity|]. split; [apply LE; vm_compute; reflexivity|].
  intros k H1 H2. assert (k = 2 \/ k = 3) as [-> | ->] by lia; vm_compute; reflexivity.
Qed.

Lemma toy_decode_enc : forall p, toy_good p -> toy_decode (type_code (ptype_of p)) (toy_enc p) = Some p.
Proof. intros p [->|[->|[->| ->]]]; vm_compute; reflexivity. Qed.

Lemma toy_all_good : Forall toy_good [toy_big; Pingreq; Puback 7; Disconnect].
Proof. unfold toy_good. constructor; [auto|]. constructor; [auto|]. constructor; [auto|]. constructor; [auto|constructor]. Qed.
