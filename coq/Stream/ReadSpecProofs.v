(* ReadSpecProofs.v — one Decoder.Read of the stream model with the real codec
   (detect_impl, codec_decode) computes Codec/ReadSpec.read_spec, for every byte stream,
   every limit and every source ending: the detection loop finds exactly the header-declared
   extent, and Type.New + Decode on the frame accepts exactly what the reference decoder accepts. *)
From Coq Require Import List NArith ZArith Bool Lia ZifyN ZifyNat ZifyBool.
From Coq.Strings Require Import Byte.
From GM Require Import Codec.Packet Codec.RefDecode Codec.ReadSpec.
From GM Require Import Stream.Stream Stream.StreamSpec Stream.StreamProofs Stream.StreamCodec.
From GM Require Codec.Dec Codec.DecProofsBase Codec.DecProofsLocal Codec.DecProofsSpec Codec.DecProofsSpec3 Codec.DetectEquiv.
Import ListNotations.
Open Scope N_scope.

(* ---------- the detection loop ---------- *)
Lemma detect_incomplete b0 r k :
  remaining_length r = None -> 2 <= k -> k <= 5 -> k <= len (b0 :: r) ->
  k <= len (b0 :: r) /\ detect_impl (takeN k (b0 :: r)) = DetNeedMore.
Proof.
  intros Hr H2 H5 Hl. split; [exact Hl |]. rewrite takeN_cons by lia. apply DetectEquiv.detect_needmore.
  - rewrite firstn_length. rewrite len_cons in Hl. lia.
  - apply DetectEquiv.remlen_firstn_none. exact Hr.
Qed.

(* ---------- Type.New + Decode on a frame = the reference decoder on it ---------- *)
Lemma codec_decode_ref t ty bs n :
  type_of_code t = Some ty -> RefDecode.extent bs = Some n -> n <= len bs ->
  codec_decode t (firstn (N.to_nat n) bs) =
  match ref_decode ty (firstn (N.to_nat n) bs) with Some (p, _) => Some p | None => None end.
Proof.
  intros Ht He Hn. unfold codec_decode. rewrite Ht.
  pose proof (DecProofsSpec3.spec_framed ty _ (DecProofsSpec3.extent_firstn bs n He Hn)) as H.
  rewrite <- H. destruct (Dec.decode_go ty (firstn (N.to_nat n) bs)); reflexivity.
Qed.

(* ---------- one Read ---------- *)
Theorem read_is_spec : forall lim bs e,
  sdec_read detect_impl codec_decode lim bs e = read_spec lim bs e.
Proof.
  intros lim bs e. unfold read_spec.
  destruct bs as [| b0 r]; [reflexivity |].
  destruct (remaining_length r) as [[[rl k] rest] |] eqn:Er.
  - destruct (DecProofsBase.remlen_bounds _ _ _ _ _ _ Er) as (Hk1 & Hk4 & Hkl & _).
    change (Dec.len r) with (len r) in Hkl.
    rewrite (sdec_read_header detect_impl codec_decode lim (b0 :: r) e (1 + k) (1 + k + rl) (Byte.to_N b0 / 16));
      [| lia | lia | rewrite len_cons; lia | lia | intros j J1 J2; apply (detect_prefix b0 r rl k rest j Er J1 J2)].
    unfold sdec_body. cbv zeta.
    destruct ((0 <? lim) && (lim <? 1 + k + rl)); [reflexivity |].
    destruct (type_of_code (Byte.to_N b0 / 16)) as [ty |] eqn:Et; [| reflexivity].
    destruct (len (b0 :: r) <? 1 + k + rl) eqn:El; [reflexivity |].
    rewrite takeN_firstn, dropN_skipn.
    assert (He : RefDecode.extent (b0 :: r) = Some (1 + k + rl)) by (cbn [RefDecode.extent]; rewrite Er; reflexivity).
    rewrite (codec_decode_ref _ ty (b0 :: r) (1 + k + rl) Et He) by lia.
    destruct (ref_decode ty (firstn (N.to_nat (1 + k + rl)) (b0 :: r))) as [[p m] |]; reflexivity.
  - pose proof (len_cons b0 r) as Hl. destruct (N.ltb_spec (len r) 4) as [El | El].
    + apply sdec_read_short; try lia. intros j J1 J2. apply detect_incomplete; [exact Er | lia ..].
    + apply sdec_read_overflow. intros j J1 J2. apply detect_incomplete; [exact Er | lia ..].
Qed.

(* the same for the chunked model: whatever the chunking *)
Theorem read_chunked_is_spec : forall lim cs e,
  view (dec_read detect_impl codec_decode lim (dinit cs e)) = read_spec lim (concat cs) e.
Proof.
  intros lim cs e. destruct (dec_read_flat detect_impl codec_decode lim (dinit cs e)) as [V _].
  rewrite V. unfold flat, dinit. cbn [d_buf d_src d_end app]. apply read_is_spec.
Qed.
