(* StreamTotal.v — totality of the stream decoder with the REAL codec (for C14):
   every byte stream, under every chunking, every source ending and every limit, is turned
   by packet.Decoder (model: dec_all detect_impl codec_decode) into a list of packets and ONE
   terminal error of the model's error enum:
     - the fuel the model gives itself is never exhausted (C03_fuel),
     - every returned packet is what Decode produced on exactly its frame (a DOk, count within
       the frame), the frames are consecutive byte ranges of the stream,
     - a terminal EDecode: Decode RETURNED an error on a frame of a valid type (term_err_codec
       does not say which frame) — never a panic (C02_no_panic: decode_go is never DPanic),
       EInvalidType a type nibble 0/15,
     - with a limit, every allocation request and every frame is within the limit (C03_limit_first).
   detect_impl is tied to the C02 model of DetectPacket on all byte lists (DetectEquiv). *)
From Coq Require Import List NArith ZArith Bool Lia ZifyN ZifyNat ZifyBool.
From Coq.Strings Require Import Byte.
From GM Require Import Codec.Packet Stream.Stream Stream.StreamSpec Stream.StreamProofs Stream.StreamCodec.
From GM Require Codec.Dec Codec.DecProofsSafe Codec.DetectEquiv.
Import ListNotations.
Open Scope N_scope.

(* ---------------------------------------------------------------- any codec: what a run can end with *)
Section Any.
  Variable detect : list byte -> detection.
  Variable decode : N -> list byte -> option packet.

  (* the terminal errors a run can produce (EOutOfFuel is not among them) *)
  Definition term_err (lim : N) (e : src_end) (er : derr) : Prop :=
    er = EDetectionOverflow \/
    (er = EReadLimit /\ 0 < lim) \/
    er = EInvalidType \/
    (er = EDecode /\ exists t fr, type_of_code t <> None /\ decode t fr = None) \/
    (exists got, er = end_err e got).

  Lemma term_err_not_fuel lim e er : term_err lim e er -> er <> EOutOfFuel.
  Proof.
    intros [-> | [[-> _] | [-> | [[-> _] | [got ->]]]]]; try discriminate. apply end_err_neq; discriminate.
  Qed.

  Lemma fail_view_class lim bs e er al rest : fail_view decode lim bs e er al rest -> term_err lim e er.
  Proof.
    intros V. unfold term_err. destruct V.
    - do 4 right. eexists; reflexivity.
    - left; reflexivity.
    - right; left. split; [reflexivity | assumption].
    - right; right; left; reflexivity.
    - do 4 right. eexists; reflexivity.
    - right; right; right; left. split; [reflexivity |]. exists t, (takeN total bs). split; assumption.
  Qed.

  Theorem dec_all_class lim cs e :
    let a := dec_all detect decode lim cs e in
    term_err lim e (a_err a) /\
    Forall (fun fp => exists t, decode t (fst fp) = Some (snd fp) /\ type_of_code t <> None) (a_frames a) /\
    (exists rest, concat cs = concat (map fst (a_frames a)) ++ rest).
  Proof.
    refine (dec_all_ind detect decode lim e (fun bs '(fs, er, _, _) =>
              term_err lim e er /\
              Forall (fun fp => exists t, decode t (fst fp) = Some (snd fp) /\ type_of_code t <> None) fs /\
              (exists rest, bs = concat (map fst fs) ++ rest)) _ _ cs).
    - intros bs er al pk rest R. destruct (sdec_read_view _ _ _ _ _ _ _ _ _ R) as [_ V].
      split; [exact (fail_view_class _ _ _ _ _ _ V) |]. split; [constructor |]. exists bs. reflexivity.
    - intros bs fr p al pk rest fs er als pk' R _ (I1 & I2 & (rest' & I3)).
      destruct (sdec_read_view _ _ _ _ _ _ _ _ _ R) as [_ (E & _ & _ & _ & C)].
      split; [exact I1 |]. split; [constructor; [exact C | exact I2] |].
      exists rest'. cbn [map concat fst]. rewrite <- app_assoc, <- I3. exact E.
  Qed.
End Any.

(* the run depends on `detect` only through its values *)
Lemma sdec_detect_ext d1 d2 decode : (forall bs, d1 bs = d2 bs) ->
  forall fuel lim dl bs e, sdec_detect d1 decode fuel lim dl bs e = sdec_detect d2 decode fuel lim dl bs e.
Proof.
  intros Hd. induction fuel as [| f IH]; intros lim dl bs e; cbn [sdec_detect]; [reflexivity |].
  rewrite Hd. destruct (len bs <? dl); [reflexivity |].
  destruct (d2 (takeN dl bs)) as [| total t]; [apply IH |]. destruct (total =? 0); [apply IH | reflexivity].
Qed.

Lemma sdec_all_f_ext d1 d2 decode : (forall bs, d1 bs = d2 bs) ->
  forall fuel lim bs e, sdec_all_f d1 decode fuel lim bs e = sdec_all_f d2 decode fuel lim bs e.
Proof.
  intros Hd. induction fuel as [| f IH]; intros lim bs e; cbn [sdec_all_f]; [reflexivity |].
  unfold sdec_read. rewrite (sdec_detect_ext d1 d2 decode Hd).
  destruct (sdec_detect d2 decode 4 lim 2 bs e) as [[[r al] pk] rest].
  destruct r as [fr p | er]; [rewrite IH |]; reflexivity.
Qed.

(* ---------------------------------------------------------------- the real codec *)

(* Type.New + Decode is total by construction, and its None is never a panic (C02_no_panic) *)
Theorem codec_decode_total t bs : type_of_code t <> None ->
  exists ty, match codec_decode t bs with
             | Some p => exists n, Dec.decode_go ty bs = Dec.DOk p n /\ n <= len bs
             | None => exists n, Dec.decode_go ty bs = Dec.DErr n /\ n <= len bs
             end.
Proof.
  unfold codec_decode. destruct (type_of_code t) as [ty |]; [intros _ | contradiction]. exists ty.
  pose proof (DecProofsSafe.decode_safe ty bs) as S.
  destruct (Dec.decode_go ty bs) as [p n | n |]; cbn [DecProofsSafe.safe DecProofsSafe.dwp] in S.
  - exists n. split; [reflexivity | apply S].
  - exists n. split; [reflexivity | exact S].
  - contradiction.
Qed.

Definition detect_go_view (bs : list byte) : detection := DetectEquiv.abs_det (Dec.detect_go bs).

(* the stream decoder run with the C02 model of DetectPacket is the same run *)
Theorem dec_all_detect_go : forall lim cs e,
  aview (dec_all detect_impl codec_decode lim cs e) = aview (dec_all detect_go_view codec_decode lim cs e).
Proof.
  intros lim cs e. rewrite !dec_all_flat. unfold sdec_all.
  apply sdec_all_f_ext. exact DetectEquiv.detect_equiv.
Qed.

(* the terminal errors of a run with the real codec *)
Definition term_err_codec (lim : N) (e : src_end) (er : derr) : Prop :=
  er = EDetectionOverflow \/
  (er = EReadLimit /\ 0 < lim) \/
  er = EInvalidType \/
  (er = EDecode /\ exists ty fr n, Dec.decode_go ty fr = Dec.DErr n /\ n <= len fr) \/
  (exists got, er = end_err e got).

(* C14_total_stream *)
Theorem stream_total : forall lim cs e,
  let a := dec_all detect_impl codec_decode lim cs e in
  a_err a <> EOutOfFuel /\
  term_err_codec lim e (a_err a) /\
  Forall (fun fp => exists ty n, Dec.decode_go ty (fst fp) = Dec.DOk (snd fp) n /\ n <= len (fst fp)) (a_frames a) /\
  (exists rest, concat cs = concat (map fst (a_frames a)) ++ rest) /\
  (0 < lim -> Forall (fun x => x <= lim) (a_allocs a)) /\
  (0 < lim -> Forall (fun fp => len (fst fp) <= lim) (a_frames a)).
Proof.
  intros lim cs e a.
  destruct (dec_all_class detect_impl codec_decode lim cs e) as (T & F & P). fold a in T, F, P.
  destruct (limit_first detect_impl codec_decode lim cs e) as (L1 & L2 & _). fold a in L1, L2.
  split; [exact (dec_all_fuel_ok detect_impl codec_decode lim cs e) |].
  split; [| split; [| split; [exact P | split; [exact L1 | exact L2]]]].
  - unfold term_err_codec. destruct T as [T | [T | [T | [[T (t & fr & Ht & Hd)] | T]]]]; auto 6.
    do 3 right; left. split; [exact T |].
    destruct (codec_decode_total t fr Ht) as [ty C]. rewrite Hd in C. destruct C as [n C]. exists ty, fr, n. exact C.
  - eapply Forall_impl; [| exact F]. cbn beta. intros [fr p] (t & Hd & Ht). cbn [fst snd] in *.
    destruct (codec_decode_total t fr Ht) as [ty C]. rewrite Hd in C. destruct C as [n C]. exists ty, n. exact C.
Qed.

(* ---------------------------------------------------------------- non-vacuity: hostile streams *)
Definition bs_of (l : list N) : list byte :=
  map (fun n => match Byte.of_N n with Some b => b | None => x00 end) l.

Definition run (lim : N) (cs : list (list N)) : list packet * derr * list N :=
  let a := dec_all detect_impl codec_decode lim (map bs_of cs) SEof in
  (map snd (a_frames a), a_err a, a_allocs a).

(* type nibble 15 *)
Example hostile_type15 : run 0 [[240; 0]] = ([], EInvalidType, []).
Proof. vm_compute. reflexivity. Qed.

(* a remaining length that never ends within 4 bytes, delivered byte by byte *)
Example hostile_varint : run 0 [[48]; [128]; [128]; [128]; [128]; [1]] = ([], EDetectionOverflow, []).
Proof. vm_compute. reflexivity. Qed.

(* a CONNECT cut off after 6 of its 14 bytes: one allocation request, then unexpected EOF *)
Example hostile_truncated_connect : run 0 [[16; 12; 0; 4]; [77; 81]] = ([], EUnexpectedEof, [14]).
Proof. vm_compute. reflexivity. Qed.

(* a good PINGREQ, then a PUBLISH with an empty topic: one packet, then a decode error *)
Example hostile_after_good : run 0 [[192; 0; 48]; [2; 0; 0; 255]] = ([Pingreq], EDecode, [2; 4]).
Proof. vm_compute. reflexivity. Qed.

(* a header announcing 268 435 455 bytes with a limit of 64: refused before any allocation *)
Example hostile_huge : run 64 [[48; 255; 255; 255; 127; 0]] = ([], EReadLimit, []).
Proof. vm_compute. reflexivity. Qed.

(* … and without a limit the request is made and the source runs dry *)
Example hostile_huge_nolimit : run 0 [[48; 255; 255; 255; 127; 0]] = ([], EUnexpectedEof, [268435460]).
Proof. vm_compute. reflexivity. Qed.

(* a 10-byte varint whose int64 sum wraps to a non-positive length is treated as "need more" *)
Example hostile_wrap : run 0 [[48; 255; 255; 255; 255; 255; 255; 255; 255; 255; 1]] = ([], EDetectionOverflow, []).
Proof. vm_compute. reflexivity. Qed.
