(* WsStreamProofs.v — wsStream.Read stitches the binary messages into one byte
   stream, whatever the read sizes (C03_ws_stitch). *)
From Coq Require Import List NArith Bool Lia ZArith ZifyN ZifyNat ZifyBool.
From Coq.Strings Require Import Byte.
From GM Require Import Stream.Stream Stream.StreamProofs Stream.WsStream.
Import ListNotations.
Open Scope N_scope.

Definition cur_bytes (s : wstate) : list byte := match w_cur s with Some d => d | None => [] end.
Definition sbytes (s : wstate) : list byte := cur_bytes s ++ ws_bytes (w_msgs s).
Definition sfinal (s : wstate) : wres := ws_final (w_msgs s) (w_end s).
Definition is_data (r : wres) : Prop := match r with WData _ => True | _ => False end.

Lemma takeN_nonempty {A} n (d : list A) : 0 < n -> d <> [] -> takeN n d <> [].
Proof.
  intros Hn Hd. destruct d as [|x d]; [contradiction|]. cbn [takeN].
  destruct (N.eqb_spec n 0); [lia|discriminate].
Qed.

Lemma ws_next_spec n e : 0 < n -> forall ms r s',
  ws_next n ms e = (r, s') ->
  match r with
  | WData bs => ws_bytes ms = bs ++ sbytes s' /\ sfinal s' = ws_final ms e /\ bs <> []
  | _ => ws_bytes ms = [] /\ r = ws_final ms e
  end.
Proof.
  intros Hn. induction ms as [|m ms IH]; intros r s' H; cbn [ws_next] in H.
  - injection H as <- <-. destruct e; cbn; auto.
  - cbn [ws_bytes ws_final]. destruct (wm_binary m).
    + destruct (wm_data m) as [|b0 bt] eqn:D.
      * specialize (IH _ _ H). destruct r; cbn [app]; exact IH.
      * injection H as <- <-. unfold sbytes, sfinal, cur_bytes. cbn [w_cur w_msgs w_end].
        destruct (N.eqb_spec n 0) as [Hz|_]; [lia|]. cbn [app].
        rewrite app_assoc, takeN_dropN. repeat split. discriminate.
    + injection H as <- <-. auto.
Qed.

Lemma ws_read_spec n s r s' : 0 < n ->
  ws_read n s = (r, s') ->
  match r with
  | WData bs => sbytes s = bs ++ sbytes s' /\ sfinal s' = sfinal s /\ bs <> []
  | _ => sbytes s = [] /\ r = sfinal s
  end.
Proof.
  intros Hn. unfold ws_read. destruct (w_cur s) as [[|b0 bt]|] eqn:C.
  2: { intros H. injection H as <- <-. unfold sbytes, sfinal, cur_bytes. rewrite C. cbn [w_cur w_msgs w_end].
       destruct (N.eqb_spec n 0) as [Hz|_]; [lia|]. cbn [app].
       rewrite app_assoc, takeN_dropN. repeat split. discriminate. }
  (* no reader, or one that is exhausted: on to the next message *)
  all: intros H; apply (ws_next_spec n (w_end s) Hn) in H;
    unfold sbytes, cur_bytes, sfinal in *; rewrite C; cbn [app]; destruct r; exact H.
Qed.

Lemma ws_read_all_spec sizes : forall s cs r,
  ws_read_all sizes s = (cs, r) ->
  exists rest, sbytes s = concat cs ++ rest /\
    Forall (fun c => c <> []) cs /\
    (forall x, r = Some x -> rest = [] /\ x = sfinal s /\ ~ is_data x) /\
    (r = None -> length cs = length sizes).
Proof.
  induction sizes as [|n sizes IH]; intros s cs r H; cbn [ws_read_all] in H.
  - injection H as <- <-. exists (sbytes s). repeat split; [constructor|discriminate|discriminate|discriminate].
  - destruct (ws_read (N.max n 1) s) as [r0 s1] eqn:R.
    pose proof (ws_read_spec _ _ _ _ (ltac:(lia) : 0 < N.max n 1) R) as SP.
    destruct r0 as [bs| |c|].
    1: { destruct (ws_read_all sizes s1) as [cs' r'] eqn:RA. injection H as <- <-.
         destruct SP as (E1 & E2 & E3). destruct (IH _ _ _ RA) as (rest & F1 & F2 & F3 & F4).
         exists rest. cbn [concat]. rewrite E1, F1, <- app_assoc. repeat split.
         - constructor; assumption.
         - apply (F3 x H).
         - rewrite <- E2. apply (F3 x H).
         - apply (F3 x H).
         - intros Hr. cbn [length]. f_equal. exact (F4 Hr). }
    (* the three reports that end the reading *)
    all: injection H as <- <-; destruct SP as [E1 E2]; exists []; rewrite E1; repeat split; try constructor;
      [injection H as <-; exact E2 | injection H as <-; cbn; auto | discriminate].
Qed.

(* C03_ws_stitch: the chunks handed out are non-empty pieces whose concatenation is a
   prefix of the message data; once a read reports the end (close frame, network
   error, non-binary message) the chunks are exactly the data of the binary messages
   before that point and the report is the one belonging to that point — whatever
   the sizes of the read buffers; and that report comes after at most one read per byte *)
Theorem ws_stitch sizes ms e cs r :
  ws_read_all sizes (ws_init ms e) = (cs, r) ->
  (exists rest, ws_bytes ms = concat cs ++ rest) /\
  Forall (fun c => c <> []) cs /\
  (forall x, r = Some x -> concat cs = ws_bytes ms /\ x = ws_final ms e) /\
  ((length (ws_bytes ms) < length sizes)%nat -> r <> None).
Proof.
  intros H. destruct (ws_read_all_spec _ _ _ _ H) as (rest & E & NE & FIN & CNT).
  unfold sbytes, sfinal, cur_bytes, ws_init in *. cbn [w_cur w_msgs w_end app] in *.
  split; [exists rest; exact E|]. split; [exact NE|]. split.
  - intros x Hx. destruct (FIN x Hx) as (-> & -> & _). rewrite app_nil_r in E. auto.
  - intros Hl Hr. specialize (CNT Hr).
    assert (L : (length cs <= length (concat cs))%nat).
    { clear - NE. induction NE as [|c cs Hc _ IH]; [cbn; lia|]. cbn [concat length]. rewrite app_length.
      destruct c; [contradiction|]. cbn [length]. lia. }
    rewrite E, app_length in Hl. lia.
Qed.

(* the decoder behind a wsStream sees the same packets however the packets are spread
   over WebSocket messages and whatever buffer sizes bufio reads with *)
Theorem ws_decode detect decode lim sizes ms e cs x e' :
  ws_read_all sizes (ws_init ms e) = (cs, Some x) ->
  aview (dec_all detect decode lim cs e') = aview (dec_all detect decode lim [ws_bytes ms] e').
Proof.
  intros H. destruct (ws_stitch _ _ _ _ _ H) as (_ & _ & F & _). destruct (F x eq_refl) as [E _].
  apply chunking_irrelevant_two. cbn [concat]. rewrite app_nil_r. exact E.
Qed.
