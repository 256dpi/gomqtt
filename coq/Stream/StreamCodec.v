(* StreamCodec.v — the codec interface of Stream/FramesProofs.v discharged for the real codec:
     enc    := WireSpec.wire_spec          (= what Encode / Encoder.Write put on the wire, C01_layout, C01_wire_exact)
     good p := WF.wf p = true
     detect := Stream.detect_impl          (model of packet.DetectPacket)
     decode := codec_decode                (Type.New() + Decode: Dec.decode_go on exactly the packet's bytes)
   and the framing theorems of C03 without any codec hypothesis. *)
From Coq Require Import List NArith ZArith Bool Lia ZifyN ZifyNat ZifyBool.
From Coq.Strings Require Import Byte.
From GM Require Import Codec.Packet Codec.WF Codec.Enc Codec.WireSpec Codec.Bytes Codec.Varint Codec.EncProofsBase Codec.EncProofsSpec
  Codec.EncProofs Codec.EncProofsRoundTrip.
From GM Require Codec.Dec Codec.RefDecode Codec.DecProofsBase Codec.DecProofsLocal Codec.DecProofsEnc Codec.DecProofsDetect
  Codec.DetectEquiv.
From GM Require Import Stream.Stream Stream.StreamSpec Stream.StreamProofs Stream.FramesProofs
  Stream.WsStream Stream.WsStreamProofs.
Import ListNotations.
Open Scope N_scope.

(* Type.New() for the detected nibble, then Decode on the frame *)
Definition codec_decode (t : N) (bs : list byte) : option packet :=
  match type_of_code t with
  | Some ty => match Dec.decode_go ty bs with Dec.DOk p _ => Some p | _ => None end
  | None => None
  end.

Lemma codec_decode_enc : forall p, wf p = true ->
  codec_decode (type_code (ptype_of p)) (wire_spec p) = Some p.
Proof.
  intros p W. unfold codec_decode. rewrite type_of_code_type_code.
  rewrite (roundtrip p W). reflexivity.
Qed.

Lemma detect_prefix b0 r rl n rest k :
  RefDecode.remaining_length r = Some (rl, n, rest) -> 2 <= k -> k <= 1 + n ->
  detect_impl (takeN k (b0 :: r)) =
  if k <? 1 + n then DetNeedMore else DetLen (1 + n + rl) (Byte.to_N b0 / 16).
Proof.
  intros Hr Hk1 Hk2. unfold RefDecode.remaining_length in Hr.
  destruct (DecProofsBase.remlen_bounds _ _ _ _ _ _ Hr) as (_ & Hn4 & _).
  rewrite takeN_cons by lia. destruct (N.ltb_spec k (1 + n)) as [Hlt | Hge].
  - apply DetectEquiv.detect_needmore; [rewrite firstn_length; lia |].
    apply (DetectEquiv.remlen_firstn_short _ _ _ _ _ _ _ Hr). lia.
  - replace (k - 1) with n by lia.
    apply (DetectEquiv.detect_len _ _ _ _ (skipn (N.to_nat n) (firstn (N.to_nat n) r))).
    apply (DecProofsLocal.remlen_prefix _ _ _ _ _ _ _ Hr). apply DecProofsLocal.firstn_firstn_le. lia.
Qed.

(* ---------------------------------------------------------------- the detect_enc premise, for the real codec *)
Lemma codec_detect_enc : forall p, wf p = true ->
  exists h, 2 <= h /\ h <= 5 /\ h <= len (wire_spec p) /\
    forall k, 2 <= k -> k <= h ->
      detect_impl (takeN k (wire_spec p)) =
      if k <? h then DetNeedMore else DetLen (len (wire_spec p)) (type_code (ptype_of p)).
Proof.
  intros p W. pose proof (wf_body_len p W) as Hb. pose proof (varint_len_bounds (body_len p)) as Hp.
  exists (1 + varint_len (body_len p)).
  change (len (wire_spec p)) with (blen (wire_spec p)). rewrite blen_wire_spec by exact W. unfold total_len.
  split; [lia |]. split; [lia |]. split; [lia |].
  intros k Hk1 Hk2. rewrite wire_spec_shape. cbn [app].
  rewrite (detect_prefix _ _ _ _ _ _ (remaining_length_rlb _ _ Hb)) by assumption.
  destruct (wf_flag_bits p W) as [F1 _].
  destruct (first_byte_split (type_value p) (flag_bits p) (type_value_le p) F1) as [T _].
  rewrite T, type_value_code. reflexivity.
Qed.

(* ---------------------------------------------------------------- C03 for the real codec *)
Definition wfp (p : packet) : Prop := wf p = true.

Theorem frames_codec lim ps cs e :
  Forall wfp ps -> Forall (fits wire_spec lim) ps -> concat cs = concat (map wire_spec ps) ->
  let a := dec_all detect_impl codec_decode lim cs e in
  a_frames a = map (frame_of wire_spec) ps /\ a_err a = end_err e 0 /\ a_allocs a = map (alloc_of wire_spec) ps.
Proof. exact (frames wire_spec detect_impl codec_decode wfp codec_detect_enc codec_decode_enc lim ps cs e). Qed.

Theorem truncation_codec lim ps p j cs e :
  Forall wfp (p :: ps) -> Forall (fits wire_spec lim) (p :: ps) -> j < len (wire_spec p) ->
  concat cs = concat (map wire_spec ps) ++ takeN j (wire_spec p) ->
  let a := dec_all detect_impl codec_decode lim cs e in
  a_frames a = map (frame_of wire_spec) ps /\ a_err a = end_err e j.
Proof. exact (truncation wire_spec detect_impl codec_decode wfp codec_detect_enc codec_decode_enc lim ps p j cs e). Qed.

Theorem limit_refuses_codec lim ps p rest cs e :
  Forall wfp (p :: ps) -> Forall (fits wire_spec lim) ps -> 0 < lim -> lim < len (wire_spec p) ->
  concat cs = concat (map wire_spec ps) ++ wire_spec p ++ rest ->
  let a := dec_all detect_impl codec_decode lim cs e in
  a_frames a = map (frame_of wire_spec) ps /\ a_err a = EReadLimit /\ a_allocs a = map (alloc_of wire_spec) ps /\
  a_peeked a <= 5.
Proof. exact (limit_refuses wire_spec detect_impl codec_decode wfp codec_detect_enc codec_decode_enc lim ps p rest cs e). Qed.

(* behind a WebSocket: binary messages whose data is a concatenation of encodings, split over
   messages and read with any buffer sizes, decode to exactly those packets *)
Theorem ws_frames_codec lim sizes ms e cs x e' ps :
  ws_read_all sizes (ws_init ms e) = (cs, Some x) ->
  Forall wfp ps -> Forall (fits wire_spec lim) ps -> ws_bytes ms = concat (map wire_spec ps) ->
  let a := dec_all detect_impl codec_decode lim cs e' in
  a_frames a = map (frame_of wire_spec) ps /\ a_err a = end_err e' 0 /\ a_allocs a = map (alloc_of wire_spec) ps.
Proof.
  intros H Hg Hf Hb. destruct (ws_stitch _ _ _ _ _ H) as (_ & _ & F & _).
  destruct (F x eq_refl) as [E _]. apply frames_codec; [exact Hg | exact Hf |]. rewrite E. exact Hb.
Qed.

(* ---------------------------------------------------------------- cross-check with the codec's own DetectPacket model *)
(* Dec.detect_go (the decoder side's model of DetectPacket, C02) reports the same total length
   and type on a complete encoding as detect_impl does on its header *)
Lemma detect_go_wire_spec p : wf p = true ->
  Dec.detect_go (wire_spec p) = Dec.Detected (Z.of_N (total_len p)) (type_code (ptype_of p)).
Proof.
  intros W. pose proof (wf_body_len p W) as Hb. change max_remaining with 268435455 in Hb.
  destruct (wf_flag_bits p W) as [F1 F2].
  destruct (first_byte_split (type_value p) (flag_bits p) (type_value_le p) F1) as [T1 T2].
  assert (H : Dec.decode_header (wire_spec p) (ptype_of p) =
              Dec.HOk (1 + varint_len (body_len p)) (flag_bits p) (body_len p)).
  { rewrite wire_spec_shape. cbn [app].
    rewrite DecProofsEnc.decode_header_rlb.
    - change (Dec.b2n ?b) with (Byte.to_N b). rewrite T2. reflexivity.
    - change (Dec.b2n ?b) with (Byte.to_N b). rewrite T1. apply type_value_code.
    - change (Dec.b2n ?b) with (Byte.to_N b). rewrite T2.
      destruct F2 as [F2 | F2]; [left; exact F2 | right; rewrite F2; destruct (ptype_of p); reflexivity].
    - exact Hb.
    - change (Dec.len ?l) with (blen l). rewrite body_size. lia. }
  rewrite (DecProofsDetect.detect_agrees_header _ _ _ _ _ H). unfold total_len. reflexivity.
Qed.
