(* StoreProofs.v — C18, store part: the list store refines StoreSpec for
   every operation history. *)
From Coq Require Import List NArith Bool Lia.
From GM Require Import Codec.Packet Session.Ids Session.Store Session.StoreSpec.
Import ListNotations.
Open Scope N_scope.

Definition keys (st : store) : list N := map fst st.

Lemma lookup_put st i p j :
  store_lookup (store_put st i p) j = if j =? i then Some p else store_lookup st j.
Proof.
  induction st as [|[k q] st IH]; cbn [store_put store_lookup].
  - destruct (j =? i); reflexivity.
  - destruct (N.eqb_spec i k) as [->|Hik]; cbn [store_lookup].
    + destruct (N.eqb_spec j k); reflexivity.
    + rewrite IH. destruct (N.eqb_spec j k) as [->|]; [|reflexivity].
      destruct (N.eqb_spec k i); [congruence|reflexivity].
Qed.

Lemma lookup_none_notin st i : store_lookup st i = None <-> ~ In i (keys st).
Proof.
  induction st as [|[k q] st IH]; cbn [store_lookup keys map fst In]; [tauto|].
  destruct (N.eqb_spec i k) as [->|Hik].
  - split; [discriminate|intros H; exfalso; apply H; now left].
  - rewrite IH. unfold keys. split; [intros H [E|E]; [congruence|tauto]|tauto].
Qed.

Lemma keys_put st i p :
  keys (store_put st i p) =
  match store_lookup st i with Some _ => keys st | None => keys st ++ [i] end.
Proof.
  induction st as [|[k q] st IH]; cbn [store_put store_lookup keys map fst app]; [reflexivity|].
  destruct (N.eqb_spec i k) as [->|Hik]; cbn [map fst]; [reflexivity|].
  fold (keys (store_put st i p)). rewrite IH. fold (keys st).
  destruct (store_lookup st i); reflexivity.
Qed.

Lemma filter_id {A} (f : A -> bool) l : (forall x, In x l -> f x = true) -> filter f l = l.
Proof.
  induction l as [|x l IH]; intros H; cbn [filter]; [reflexivity|].
  rewrite (H x (or_introl eq_refl)). f_equal. apply IH. intros y Hy. apply H. now right.
Qed.

Lemma keys_delete st i :
  NoDup (keys st) -> keys (store_delete st i) = filter (fun j => negb (j =? i)) (keys st).
Proof.
  induction st as [|[k q] st IH]; intros Hnd; cbn [store_delete keys map fst filter]; [reflexivity|].
  inversion Hnd as [|? ? Hnotin Hnd']; subst.
  destruct (N.eqb_spec i k) as [->|Hik].
  - rewrite N.eqb_refl. cbn [negb]. fold (keys st).
    symmetry. apply filter_id. intros j Hj. destruct (N.eqb_spec j k) as [->|]; [contradiction|reflexivity].
  - destruct (N.eqb_spec k i); [congruence|]. cbn [negb map fst]. f_equal. apply IH; assumption.
Qed.

Lemma lookup_delete st i j :
  NoDup (keys st) ->
  store_lookup (store_delete st i) j = if j =? i then None else store_lookup st j.
Proof.
  induction st as [|[k q] st IH]; intros Hnd; cbn [store_delete store_lookup].
  - destruct (j =? i); reflexivity.
  - inversion Hnd as [|? ? Hnotin Hnd' Heq]. clear Heq.
    destruct (N.eqb_spec i k) as [Eik|Hik].
    + destruct (N.eqb_spec j i) as [Eji|Hji].
      * apply lookup_none_notin. rewrite Eji, Eik. exact Hnotin.
      * destruct (N.eqb_spec j k) as [Ejk|]; [congruence|reflexivity].
    + cbn [store_lookup]. rewrite IH by assumption.
      destruct (N.eqb_spec j k) as [Ejk|]; [|reflexivity].
      destruct (N.eqb_spec j i); [congruence|reflexivity].
Qed.

Lemma NoDup_app_intro_single (l : list N) x : NoDup l -> ~ In x l -> NoDup (l ++ [x]).
Proof.
  induction l as [|y l IH]; intros Hnd Hn; cbn [app]; [constructor; [intros []|constructor]|].
  inversion Hnd; subst. constructor.
  - rewrite in_app_iff. cbn [In]. intros [?|[?|[]]]; [contradiction|subst; apply Hn; now left].
  - apply IH; [assumption|]. intros ?; apply Hn; now right.
Qed.

Lemma nodup_put st i p : NoDup (keys st) -> NoDup (keys (store_put st i p)).
Proof.
  intros H. rewrite keys_put. destruct (store_lookup st i) eqn:E; [exact H|].
  apply lookup_none_notin in E. apply NoDup_app_intro_single; assumption.
Qed.

Lemma nodup_delete st i : NoDup (keys st) -> NoDup (keys (store_delete st i)).
Proof. intros H. rewrite keys_delete by exact H. apply NoDup_filter. exact H. Qed.

Lemma flat_map_ext_in' {A B} (f g : A -> list B) l :
  (forall x, In x l -> f x = g x) -> flat_map f l = flat_map g l.
Proof.
  induction l as [|x l IH]; intros H; cbn [flat_map]; [reflexivity|].
  rewrite (H x (or_introl eq_refl)), IH; [reflexivity|]. intros y Hy; apply H; now right.
Qed.

Lemma all_via_keys st :
  NoDup (keys st) ->
  store_all st = flat_map (fun i => opt_list (store_lookup st i)) (keys st).
Proof.
  induction st as [|[k q] st IH]; intros Hnd; [reflexivity|].
  inversion Hnd as [|? ? Hnotin Hnd']; subst.
  cbn [store_all map snd keys fst flat_map store_lookup]. rewrite N.eqb_refl. cbn [opt_list app].
  f_equal. fold (store_all st) (keys st). rewrite IH by assumption.
  apply flat_map_ext_in'.
  intros i Hi. destruct (N.eqb_spec i k) as [->|]; [contradiction|reflexivity].
Qed.

(* the simulation relation between a list store and its specification *)
Definition drel (st : store) (sp : dspec) : Prop :=
  NoDup (keys st) /\ keys st = d_keys sp /\ forall i, store_lookup st i = d_map sp i.

Lemma drel_empty : drel store_empty dspec_empty.
Proof. repeat split; constructor. Qed.

Lemma drel_save st sp p : drel st sp -> drel (store_save st p) (dspec_save sp p).
Proof.
  intros (Hnd & Hk & Hm). unfold store_save, dspec_save.
  destruct (get_id p) as [i|]; [|split; [assumption|split; assumption]].
  repeat split; cbn [d_map d_keys].
  - apply nodup_put; exact Hnd.
  - rewrite keys_put, Hk, Hm. reflexivity.
  - intros j. rewrite lookup_put. unfold upd. now rewrite Hm.
Qed.

Lemma drel_delete st sp i : drel st sp -> drel (store_delete st i) (dspec_delete sp i).
Proof.
  intros (Hnd & Hk & Hm). unfold dspec_delete. repeat split; cbn [d_map d_keys].
  - apply nodup_delete; exact Hnd.
  - rewrite keys_delete by exact Hnd. now rewrite Hk.
  - intros j. rewrite lookup_delete by exact Hnd. unfold upd. now rewrite Hm.
Qed.

Lemma drel_all st sp : drel st sp -> store_all st = dspec_all sp.
Proof.
  intros (Hnd & Hk & Hm). rewrite all_via_keys by exact Hnd. unfold dspec_all. rewrite Hk.
  apply flat_map_ext. intros i. now rewrite Hm.
Qed.

Definition srel (s : session) (sp : sspec) : Prop :=
  s_counter s = sp_counter sp /\ drel (s_in s) (sp_in sp) /\ drel (s_out s) (sp_out sp).

Lemma srel_dir s sp d : srel s sp -> drel (sess_store s d) (sp_dir sp d).
Proof. intros (_ & Hi & Ho). destruct d; assumption. Qed.

Lemma srel_with s sp d st x : srel s sp -> drel st x -> srel (sess_with s d st) (sp_with sp d x).
Proof. intros (Hc & Hi & Ho) H. destruct d; (split; [exact Hc|split; assumption]). Qed.

Lemma srel_step s sp o :
  srel s sp -> srel (fst (sess_step s o)) (fst (sspec_step sp o)) /\
               snd (sess_step s o) = snd (sspec_step sp o).
Proof.
  intros R. pose proof R as (Hc & Hi & Ho).
  destruct o as [|d p|d i|d i|d|]; cbn [sess_step sspec_step].
  - rewrite Hc. destruct (next_id (sp_counter sp)) as [i c]. cbn [fst snd].
    split; [split; [reflexivity|split; assumption]|reflexivity].
  - cbn [fst snd]. split; [|reflexivity]. apply srel_with; [exact R|]. apply drel_save, srel_dir, R.
  - cbn [fst snd]. split; [exact R|]. f_equal. apply (srel_dir _ _ d R).
  - cbn [fst snd]. split; [|reflexivity]. apply srel_with; [exact R|]. apply drel_delete, srel_dir, R.
  - cbn [fst snd]. split; [exact R|]. f_equal. apply drel_all, srel_dir, R.
  - cbn [fst snd]. split; [|reflexivity]. split; [reflexivity|split; apply drel_empty].
Qed.

Theorem session_refines_spec ops :
  forall s sp, srel s sp ->
  snd (sess_run s ops) = snd (sspec_run sp ops) /\ srel (fst (sess_run s ops)) (fst (sspec_run sp ops)).
Proof.
  induction ops as [|o ops IH]; intros s sp R; cbn [sess_run sspec_run]; [split; [reflexivity|exact R]|].
  destruct (srel_step s sp o R) as [R' Hout].
  destruct (sess_step s o) as [s' r]. destruct (sspec_step sp o) as [sp' r'].
  cbn [fst snd] in R', Hout. subst r'.
  specialize (IH s' sp' R'). destruct (sess_run s' ops) as [s'' rs]. destruct (sspec_run sp' ops) as [sp'' rs'].
  cbn [fst snd] in *. destruct IH as [E R'']. split; [now rewrite E|exact R''].
Qed.

Lemma srel_new : srel session_new sspec_new.
Proof. split; [reflexivity|split; apply drel_empty]. Qed.

(* ids of a store are exactly the ids the packets carry *)
Definition ids_ok (st : store) : Prop := forall i p, In (i, p) st -> get_id p = Some i.

Lemma ids_ok_put st i p : ids_ok st -> get_id p = Some i -> ids_ok (store_put st i p).
Proof.
  induction st as [|[k q] st IH]; intros Hok Hp j r; cbn [store_put In].
  - intros [E|[]]; injection E as <- <-; exact Hp.
  - destruct (N.eqb_spec i k) as [->|]; cbn [In].
    + intros [E|Hin]; [injection E as <- <-; exact Hp|apply Hok; now right].
    + intros [E|Hin]; [apply Hok; now left|].
      apply IH; [intros ? ? ?; apply Hok; now right|exact Hp|exact Hin].
Qed.

Lemma ids_ok_save st p : ids_ok st -> ids_ok (store_save st p).
Proof. intros H. unfold store_save. destruct (get_id p) eqn:E; [apply ids_ok_put; assumption|exact H]. Qed.

Lemma in_store_delete st j i p : In (i, p) (store_delete st j) -> In (i, p) st.
Proof.
  induction st as [|[k q] st IH]; cbn [store_delete]; [tauto|].
  destruct (j =? k); cbn [In]; [tauto|]. intros [E|Hin]; [left; exact E|right; apply IH, Hin].
Qed.

Lemma ids_ok_delete st j : ids_ok st -> ids_ok (store_delete st j).
Proof. intros H i p Hin. apply H. eapply in_store_delete. exact Hin. Qed.

Lemma get_id_all st : ids_ok st -> map get_id (store_all st) = map Some (keys st).
Proof.
  induction st as [|[k q] st IH]; intros Hok; [reflexivity|]. cbn [store_all keys map fst snd].
  rewrite (Hok k q (or_introl eq_refl)). f_equal. apply IH. intros ? ? ?. apply Hok. right. assumption.
Qed.

Lemma keys_length (st : store) : length (keys st) = length st.
Proof. apply map_length. Qed.

Lemma in_lookup st i p : NoDup (keys st) -> In (i, p) st -> store_lookup st i = Some p.
Proof.
  induction st as [|[j q] st IH]; cbn [keys map fst In store_lookup]; [tauto|].
  intros Hnd [E|Hin].
  - injection E as -> ->. rewrite N.eqb_refl. reflexivity.
  - inversion Hnd as [|? ? Hni Hnd']; subst.
    destruct (N.eqb_spec i j) as [->|Hne]; [|apply IH; assumption].
    exfalso. apply Hni. change (In (fst (j, p)) (map fst st)). apply in_map. exact Hin.
Qed.

Lemma lookup_in st i p : store_lookup st i = Some p -> In (i, p) st.
Proof.
  induction st as [|[k r] st IH]; cbn [store_lookup]; intros H; [discriminate H|].
  destruct (N.eqb_spec i k) as [->|Hik]; [injection H as ->; left; reflexivity|right; apply IH, H].
Qed.

Lemma lookup_in_all st i p : store_lookup st i = Some p -> In p (store_all st).
Proof. intros H. exact (in_map snd _ _ (lookup_in _ _ _ H)). Qed.

Lemma store_put_same st i p : store_lookup st i = Some p -> store_put st i p = st.
Proof.
  induction st as [|[j q] st IH]; cbn [store_lookup store_put]; [discriminate|].
  destruct (N.eqb_spec i j) as [->|Hne]; [intros E; injection E as ->; reflexivity|].
  intros E. rewrite (IH E). reflexivity.
Qed.

Lemma nodup_save st p : NoDup (keys st) -> NoDup (keys (store_save st p)).
Proof. intros H. unfold store_save. destruct (get_id p); [apply nodup_put; exact H|exact H]. Qed.

Lemma keys_save_mono st p i : In i (keys st) -> In i (keys (store_save st p)).
Proof.
  intros H. unfold store_save. destruct (get_id p) as [j|]; [|exact H].
  rewrite keys_put. destruct (store_lookup st j); [exact H|]. apply in_or_app. left. exact H.
Qed.

Lemma keys_save_present st p : (forall i, get_id p = Some i -> In i (keys st)) -> keys (store_save st p) = keys st.
Proof.
  intros H. unfold store_save. destruct (get_id p) as [j|]; [|reflexivity].
  rewrite keys_put. destruct (store_lookup st j) eqn:E; [reflexivity|].
  apply lookup_none_notin in E. exfalso. apply E, H. reflexivity.
Qed.

Lemma keys_save_new st p i : get_id p = Some i -> In i (keys (store_save st p)).
Proof.
  intros G. unfold store_save. rewrite G, keys_put. destruct (store_lookup st i) eqn:E.
  - destruct (in_dec N.eq_dec i (keys st)) as [H|H]; [exact H|]. apply lookup_none_notin in H. congruence.
  - apply in_or_app. right. left. reflexivity.
Qed.

Lemma save_length_le st p : (length (store_save st p) <= S (length st))%nat.
Proof.
  unfold store_save. destruct (get_id p) as [i|]; [|lia].
  rewrite <- !keys_length, keys_put. destruct (store_lookup st i); [lia|]. rewrite app_length. cbn [length]. lia.
Qed.

Lemma delete_length st i : NoDup (keys st) -> In i (keys st) -> S (length (store_delete st i)) = length st.
Proof.
  induction st as [|[k q] st IH]; intros Hnd Hin; cbn [store_delete]; [destruct Hin|].
  cbn [keys map fst] in Hnd, Hin. inversion Hnd as [|? ? Hnot Hnd']; subst.
  destruct (N.eqb_spec i k) as [->|Hne]; [reflexivity|].
  cbn [length]. f_equal. apply IH; [exact Hnd'|]. destruct Hin as [E|Hin]; [congruence|exact Hin].
Qed.

Lemma store_put_forall (P : packet -> Prop) st i p :
  Forall P (store_all st) -> P p -> Forall P (store_all (store_put st i p)).
Proof.
  unfold store_all. induction st as [|[j q] st IH]; intros HF Hp; cbn [store_put map snd].
  - constructor; [exact Hp|constructor].
  - cbn [map snd] in HF. inversion HF as [|? ? Hq Hst]; subst.
    destruct (i =? j); cbn [map snd]; constructor; try assumption. apply IH; assumption.
Qed.

Lemma store_save_forall (P : packet -> Prop) st p :
  Forall P (store_all st) -> P p -> Forall P (store_all (store_save st p)).
Proof. unfold store_save. intros HF Hp. destruct (get_id p); [apply store_put_forall; assumption|exact HF]. Qed.

Lemma store_delete_forall (P : packet -> Prop) st i :
  Forall P (store_all st) -> Forall P (store_all (store_delete st i)).
Proof.
  unfold store_all. induction st as [|[j q] st IH]; intros HF; cbn [store_delete map snd]; [constructor|].
  cbn [map snd] in HF. inversion HF as [|? ? Hq Hst]; subst.
  destruct (i =? j); [exact Hst|]. cbn [map snd]. constructor; [exact Hq|apply IH; exact Hst].
Qed.
