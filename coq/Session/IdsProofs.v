(* IdsProofs.v — C18, counter part: ids are never zero, and any 65535
   consecutive allocations are pairwise distinct from every one of the 65536
   states, across the uint16 wrap. *)
From Coq Require Import List NArith ZArith Lia ZifyN ZifyNat ZifyBool.
From GM Require Import Session.Ids.
Import ListNotations.
Open Scope N_scope.

Lemma next_id_nonzero s : fst (next_id s) <> 0.
Proof. unfold next_id; cbn [fst]. destruct (N.eqb_spec s 0); lia. Qed.

Lemma next_id_state_bound s : snd (next_id s) < 65536.
Proof. apply N.mod_lt. discriminate. Qed.

Lemma next_id_id_bound s : s < 65536 -> fst (next_id s) < 65536.
Proof. unfold next_id; cbn [fst]. destruct (N.eqb_spec s 0); lia. Qed.

Lemma nth_id_nonzero s k : nth_id s k <> 0.
Proof. revert s; induction k as [|k IH]; intros s; cbn [nth_id]; [apply next_id_nonzero|apply IH]. Qed.

Lemma next_id_fst s : fst (next_id s) = N.max s 1.
Proof. unfold next_id; cbn [fst]. destruct (N.eqb_spec s 0); lia. Qed.

(* one call moves the position on the cycle 1,2,…,65535 by one: 65535 is followed by the
   state 0, which counts as 1 *)
Lemma next_id_snd s : s < 65536 -> N.max (snd (next_id s)) 1 - 1 = N.max s 1 mod 65535.
Proof.
  intros Hs. unfold next_id; cbn [snd].
  destruct (N.eqb_spec s 0) as [-> | H0]; [reflexivity|].
  destruct (N.eq_dec s 65535) as [-> | Hne]; [reflexivity|].
  rewrite !N.mod_small by lia. lia.
Qed.

(* closed form: the counter walks the cycle 1,2,…,65535 *)
Lemma nth_id_closed s k :
  s < 65536 -> nth_id s k = ((N.max s 1 - 1 + N.of_nat k) mod 65535) + 1.
Proof.
  revert s; induction k as [|k IH]; intros s Hs; cbn [nth_id].
  - rewrite next_id_fst, N.add_0_r, N.mod_small by lia. lia.
  - rewrite IH, next_id_snd, N.add_mod_idemp_l by (discriminate || assumption || apply next_id_state_bound).
    do 2 f_equal. lia.
Qed.

Lemma nth_id_distinct s k1 k2 :
  s < 65536 -> (k1 < k2)%nat -> N.of_nat k2 - N.of_nat k1 < 65535 ->
  nth_id s k1 <> nth_id s k2.
Proof.
  intros Hs Hlt Hw. rewrite !nth_id_closed by exact Hs. zify. Z.div_mod_to_equations. lia.
Qed.

Lemma nth_id_range s k : s < 65536 -> 1 <= nth_id s k <= 65535.
Proof.
  intros Hs. rewrite nth_id_closed by exact Hs.
  pose proof (N.mod_lt (N.max s 1 - 1 + N.of_nat k) 65535). lia.
Qed.

(* take_ids is the list of nth_id *)
Lemma take_ids_nth s n :
  fst (take_ids s n) = map (nth_id s) (seq 0 n).
Proof.
  revert s; induction n as [|n IH]; intros s; [reflexivity|].
  cbn [take_ids]. destruct (next_id s) as [i s'] eqn:E.
  specialize (IH s'). destruct (take_ids s' n) as [ids s''].
  cbn [fst] in *. cbn [seq map]. f_equal.
  - cbn [nth_id]. now rewrite E.
  - rewrite IH. rewrite <- seq_shift, map_map. apply map_ext. intros k. cbn [nth_id]. now rewrite E.
Qed.

Lemma NoDup_map_seq (f : nat -> N) n :
  (forall i j, (i < j < n)%nat -> f i <> f j) -> NoDup (map f (seq 0 n)).
Proof.
  intros H. assert (G : forall a m, (a + m <= n)%nat -> NoDup (map f (seq a m))).
  { intros a m; revert a; induction m as [|m IH]; intros a Hb; cbn [seq map]; constructor.
    - rewrite in_map_iff. intros (j & Hj & Hin). apply in_seq in Hin.
      apply (H a j); [lia|congruence].
    - apply IH; lia. }
  apply (G 0%nat n); lia.
Qed.

Theorem take_ids_nodup s n :
  s < 65536 -> N.of_nat n <= 65535 -> NoDup (fst (take_ids s n)) /\ ~ In 0 (fst (take_ids s n)).
Proof.
  intros Hs Hn. rewrite take_ids_nth. split.
  - apply NoDup_map_seq. intros i j Hij. apply nth_id_distinct; [exact Hs|lia|lia].
  - rewrite in_map_iff. intros (k & Hk & _). exact (nth_id_nonzero s k Hk).
Qed.

Lemma reset_starts_at_one k : nth_id reset_ids k = (N.of_nat k mod 65535) + 1.
Proof. unfold reset_ids. rewrite nth_id_closed by lia. f_equal. Qed.
