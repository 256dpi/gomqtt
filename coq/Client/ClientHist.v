(* ClientHist.v — C09_future_truthful, history form: a completed future has, in the logs of received
   and sent packets, the acknowledgement (resp. the successful QoS 0 write) that justifies it, after the
   point at which it was stored. *)
From Coq Require Import List NArith Bool Lia PeanoNat.
From GM Require Import Base.Lts Codec.Packet Session.Ids Session.Store
  Client.Future Client.Client Client.ClientSpec
  Client.ClientTactics Client.AMap Codec.PacketEqb Client.ClientInvCtl Client.ClientInvOwed Client.ClientInvWf Client.ClientInvRx Client.ClientKept Client.ClientTotal.
Import ListNotations.
Open Scope N_scope.

(* ---- the statement *)

Definition ack_clause (rx : list packet) (f : cfut) : Prop :=
  exists p, In p (firstn (S (length rx - cf_rxmark f)) rx) /\ is_ack_for (cf_id f) p = true.
Definition connack_clause (rx : list packet) (f : cfut) : Prop :=
  exists sp, In (Connack sp 0) (firstn (S (length rx - cf_rxmark f)) rx).
Definition qos0_clause (tx : list (packet * bool * res)) (f : cfut) : Prop :=
  exists m id, In (Publish false m id, true, Ok) (firstn (length tx - cf_txmark f) tx) /\ m_qos m = 0.

Definition justified (rx : list packet) (tx : list (packet * bool * res)) (f : cfut) : Prop :=
  match cf_kind f with
  | KConnect => connack_clause rx f
  | KPub 0 => qos0_clause tx f \/ ack_clause rx f
  | _ => ack_clause rx f
  end.

(* for every accepted trace and every future that is Completed in its final state: among the packets
   received since the future was stored (plus the one that was being processed at that moment) there is
   an acknowledgement carrying the future's packet id — for a connect future a CONNACK with code 0 —;
   for a QoS 0 publish: a successful Send of a QoS 0 PUBLISH since it was stored (the alternative, an
   acknowledgement carrying its id 0, is something the decoder never delivers) *)
Definition C09_future_truthful_history_statement : Prop :=
  forall es s, run step init es = Some s ->
  forall c f, fut_get s c = Some f -> f_status (cf_fut f) = Completed ->
  justified (g_rx (g s)) (g_tx (g s)) f.

(* ---- monotonicity in the logs *)

Lemma firstn_window_cons {A} (x : A) l m y : (m <= length l)%nat ->
  In y (firstn (S (length l - m)) l) -> In y (firstn (S (length (x :: l) - m)) (x :: l)).
Proof.
  intros Hm H. cbn [length]. replace (S (length l) - m)%nat with (S (length l - m)) by lia.
  cbn [firstn]. right. exact H.
Qed.

Lemma firstn_since_cons {A} (x : A) l m y : (m <= length l)%nat ->
  In y (firstn (length l - m) l) -> In y (firstn (length (x :: l) - m) (x :: l)).
Proof.
  intros Hm H. cbn [length]. replace (S (length l) - m)%nat with (S (length l - m)) by lia.
  cbn [firstn]. right. exact H.
Qed.

Definition marks_ok (rx : list packet) (tx : list (packet * bool * res)) (f : cfut) : Prop :=
  (cf_rxmark f <= length rx)%nat /\ (cf_txmark f <= length tx)%nat.

Definition good (rx : list packet) (tx : list (packet * bool * res)) (f : cfut) : Prop :=
  marks_ok rx tx f /\ (f_status (cf_fut f) = Completed -> justified rx tx f).

Lemma justified_rx x rx tx f : marks_ok rx tx f -> justified rx tx f -> justified (x :: rx) tx f.
Proof.
  intros [Hr _]. unfold justified, connack_clause, ack_clause.
  destruct (cf_kind f) as [|[|q]| |].
  - intros (sp & H). exists sp. apply firstn_window_cons; assumption.
  - intros [H|(p & H & Ha)]; [left; exact H|right]. exists p. split; [apply firstn_window_cons; assumption|exact Ha].
  - intros (p & H & Ha). exists p. split; [apply firstn_window_cons; assumption|exact Ha].
  - intros (p & H & Ha). exists p. split; [apply firstn_window_cons; assumption|exact Ha].
  - intros (p & H & Ha). exists p. split; [apply firstn_window_cons; assumption|exact Ha].
Qed.

Lemma justified_tx x rx tx f : marks_ok rx tx f -> justified rx tx f -> justified rx (x :: tx) f.
Proof.
  intros [_ Ht]. unfold justified, qos0_clause.
  destruct (cf_kind f) as [|[|q]| |]; auto.
  intros [(m & id & H & Hq)|H]; [left|right; exact H].
  exists m, id. split; [apply firstn_since_cons; assumption|exact Hq].
Qed.

Lemma good_rx x rx tx f : good rx tx f -> good (x :: rx) tx f.
Proof.
  intros [Hm Hj]. split; [destruct Hm; split; cbn [length]; lia|].
  intros Hc. apply justified_rx; auto.
Qed.
Lemma good_tx x rx tx f : good rx tx f -> good rx (x :: tx) f.
Proof.
  intros [Hm Hj]. split; [destruct Hm; split; cbn [length]; lia|].
  intros Hc. apply justified_tx; auto.
Qed.

(* ---- how one table slot may evolve in a step that completes nothing *)

Definition meta (f : cfut) := (cf_id f, cf_kind f, cf_rxmark f, cf_txmark f).

Definition ev (nr nt : nat) (cr : bool) (o o' : option cfut) : Prop :=
  match o, o' with
  | Some f, Some f' => meta f' = meta f /\ (f_status (cf_fut f') = Completed -> f_status (cf_fut f) = Completed)
  | None, None => True
  | None, Some f' => cr = true /\ f_status (cf_fut f') <> Completed /\ cf_rxmark f' = nr /\ cf_txmark f' = nt
  | Some _, None => False
  end.

Definition is_cr (cr : option N) (c : N) : bool := match cr with Some c0 => c =? c0 | None => false end.

Definition evtab (nr nt : nat) (cr : option N) (s s' : st) : Prop :=
  forall c, ev nr nt (is_cr cr c) (fut_get s c) (fut_get s' c).

Lemma ev_refl nr nt o : ev nr nt false o o.
Proof. destruct o; cbn; auto. Qed.

Lemma evtab_refl nr nt s : evtab nr nt None s s.
Proof. intros c. apply ev_refl. Qed.

Lemma evtab_same nr nt s s' : t_futs (t s') = t_futs (t s) -> evtab nr nt None s s'.
Proof. intros E c. unfold fut_get. rewrite E. apply ev_refl. Qed.

Lemma ev_trans nr nt b1 b2 o o1 o2 : ev nr nt b1 o o1 -> ev nr nt b2 o1 o2 -> ev nr nt (b1 || b2) o o2.
Proof.
  destruct o as [f|], o1 as [f1|], o2 as [f2|]; cbn; try tauto.
  - intros [M1 C1] [M2 C2]. split; [congruence|auto].
  - intros (-> & Hn & Hr & Ht) [M2 C2]. unfold meta in M2. injection M2 as ? ? ? ?.
    repeat split; try congruence. intros X. apply Hn, C2, X.
  - intros _ (-> & H). rewrite orb_true_r. split; [reflexivity|exact H].
Qed.

Lemma evtab_trans_l nr nt cr s x s' : evtab nr nt cr s x -> evtab nr nt None x s' -> evtab nr nt cr s s'.
Proof. intros H1 H2 c. pose proof (ev_trans _ _ _ _ _ _ _ (H1 c) (H2 c)) as H. cbn [is_cr] in H. rewrite orb_false_r in H. exact H. Qed.

Lemma evtab_trans_r nr nt cr s x s' : evtab nr nt None s x -> evtab nr nt cr x s' -> evtab nr nt cr s s'.
Proof. intros H1 H2 c. exact (ev_trans _ _ _ _ _ _ _ (H1 c) (H2 c)). Qed.

Lemma evtab_wrap nr nt cr s x s' : t_futs (t s') = t_futs (t x) -> evtab nr nt cr s x -> evtab nr nt cr s s'.
Proof. intros E H. eapply evtab_trans_l; [exact H|apply evtab_same; exact E]. Qed.

(* Cancel (and Complete on an already resolved future) never makes a future Completed *)
Lemma evtab_cancel nr nt x c v : evtab nr nt None x (fut_cancel x c v).
Proof.
  intros c'. unfold fut_cancel, fut_resolve, fut_get. cbn [is_cr].
  destruct (amap_get (t_futs (t x)) c) as [f0|] eqn:E; [|apply ev_refl].
  cbn [t t_futs set_t t_set_futs]. rewrite aget_put. destruct (N.eqb_spec c' c) as [->|]; [|apply ev_refl].
  rewrite E. cbn [ev meta cf_id cf_kind cf_rxmark cf_txmark cf_fut]. split; [reflexivity|].
  unfold resolve1. destruct (f_done (cf_fut f0)); cbn [fst f_status]; [auto|discriminate].
Qed.

Lemma evtab_fold_cancel nr nt l x :
  evtab nr nt None x (fold_left (fun acc (ic : N * N) => fut_cancel acc (snd ic) VNil) l x).
Proof.
  revert x; induction l as [|a l IH]; intros x; cbn [fold_left]; [apply evtab_refl|].
  eapply evtab_trans_l; [apply evtab_cancel|apply IH].
Qed.

Lemma evtab_clear nr nt x : evtab nr nt None x (store_clear_f x).
Proof.
  unfold store_clear_f. destruct (t_protected (t x)); [apply evtab_refl|].
  eapply evtab_wrap; [|apply evtab_fold_cancel]. reflexivity.
Qed.

Lemma evtab_put nr nt x id c : evtab nr nt None x (store_put_f x id c).
Proof.
  unfold store_put_f. destruct (amap_get (t_store (t x)) id) as [c0|]; [destruct (c0 =? c)|].
  - apply evtab_same. reflexivity.
  - eapply evtab_wrap; [|apply evtab_cancel]. reflexivity.
  - apply evtab_same. reflexivity.
Qed.

Lemma evtab_new x c id kd : fut_get x c = None ->
  evtab (length (g_rx (g x))) (length (g_tx (g x))) (Some c) x (fut_new x c id kd).
Proof.
  intros Hn c'. unfold fut_new, fut_get in *. cbn [t t_futs set_t t_set_futs is_cr]. rewrite aget_put.
  destruct (N.eqb_spec c' c) as [->|]; [|apply ev_refl].
  rewrite Hn. cbn [ev cf_fut cf_rxmark cf_txmark future_new f_status]. repeat split. discriminate.
Qed.

(* consequences of an evolution *)
Lemma evtab_none nr nt cr s s' c : evtab nr nt cr s s' -> is_cr cr c = false -> fut_get s c = None -> fut_get s' c = None.
Proof. intros H Hc Hn. specialize (H c). rewrite Hc, Hn in H. destruct (fut_get s' c); [destruct H; discriminate|reflexivity]. Qed.

Lemma evtab_fwd nr nt cr s s' c f : evtab nr nt cr s s' -> fut_get s c = Some f ->
  exists f', fut_get s' c = Some f' /\ meta f' = meta f.
Proof. intros H Hf. specialize (H c). rewrite Hf in H. destruct (fut_get s' c) as [f'|]; [|contradiction]. exists f'. split; [reflexivity|apply H]. Qed.

Lemma evtab_good nr nt cr s s' rx tx : evtab nr nt cr s s' -> nr = length rx -> nt = length tx ->
  (forall c f, fut_get s c = Some f -> good rx tx f) ->
  forall c f', fut_get s' c = Some f' -> good rx tx f'.
Proof.
  intros H -> -> Hg c f' Hf'. specialize (H c). rewrite Hf' in H.
  destruct (fut_get s c) as [f|] eqn:Ef.
  - destruct H as [M C]. destruct (Hg _ _ Ef) as [[Hr Ht] Hj]. unfold meta in M. injection M as Mi Mk Mr Mt.
    split; [split; congruence|]. intros Hc. specialize (Hj (C Hc)).
    unfold justified, connack_clause, ack_clause, qos0_clause in *. rewrite Mi, Mk, Mr, Mt. exact Hj.
  - destruct H as (_ & Hn & Hr & Ht). split; [split; lia|]. intros Hc. contradiction.
Qed.

(* Complete keeps the meta data and may turn exactly one future Completed *)
Lemma fut_get_complete x c v c' :
  fut_get (fut_complete x c v) c' =
  if c' =? c then option_map (fun f => CFut (fst (resolve1 Completed (cf_fut f) v)) (cf_id f) (cf_kind f) (cf_rxmark f) (cf_txmark f)) (fut_get x c)
  else fut_get x c'.
Proof.
  unfold fut_complete, fut_resolve, fut_get. destruct (amap_get (t_futs (t x)) c) as [f0|] eqn:E.
  - cbn [t t_futs set_t t_set_futs]. rewrite aget_put. destruct (c' =? c); reflexivity.
  - destruct (N.eqb_spec c' c) as [->|]; [rewrite E|]; reflexivity.
Qed.

(* ---- the invariant *)

Definition api_fut (s : st) (c : N) (pc : apc) : Prop :=
  match pc with
  | AConnDial | AConnReset | AReqNext _ | AReqPut _ _ => fut_get s c = None
  | AReqSave r _ | AReqSend r _ => exists f, fut_get s c = Some f /\ cf_kind f = req_kind r
  | AReqFin => exists f, fut_get s c = Some f /\ cf_kind f = KPub 0 /\ qos0_clause (g_tx (g s)) f
  | _ => True
  end.

Definition InvHist (s : st) : Prop :=
  NoDup (akeys (k_pending (k s))) /\
  (forall c cl, amap_get (k_pending (k s)) c = Some cl -> fut_get s c = None) /\
  match k_api (k s) with
  | Some (c, pc) => amap_get (k_pending (k s)) c = None /\ api_fut s c pc
  | None => True
  end /\
  (forall j c, amap_get (t_store (t s)) j = Some c ->
     exists f, fut_get s c = Some f /\ cf_id f = j /\ cf_kind f <> KConnect) /\
  (forall c f, fut_get s c = Some f -> good (g_rx (g s)) (g_tx (g s)) f) /\
  match t_connfut (t s) with
  | Some c => exists f, fut_get s c = Some f /\ cf_kind f = KConnect
  | None => True
  end.

Lemma InvHist_init : InvHist init.
Proof.
  split; [constructor|]. split; [intros c cl H; discriminate H|]. split; [exact I|].
  split; [intros j c H; discriminate H|]. split; [intros c f H; discriminate H|exact I].
Qed.

(* the successor state as a nest of calls of the helpers on futures around the setters: the control
   helpers unfolded and split on what they branch on, no field computed, so that the table of futures
   can be followed through the term (evt below) *)
Ltac unfold_ctl :=
  unfold proc_rx, after_pub_cb, log_tx; cbv beta zeta; dgoal;
  unfold die_proc, die_ping, die_cu_next, api_cu_next, die_after_cu, die_done, cu_after; cbv beta zeta; dgoal.

(* evolution of the futures table along the helpers, read off the term *)
Ltac evt :=
  first
  [ apply evtab_same; reflexivity
  | match goal with
    | |- evtab _ _ None ?s (fut_cancel ?x _ _) => apply (evtab_trans_l _ _ _ s x); [evt|apply evtab_cancel]
    | |- evtab _ _ None ?s (store_clear_f ?x) => apply (evtab_trans_l _ _ _ s x); [evt|apply evtab_clear]
    | |- evtab _ _ None ?s (store_put_f ?x _ _) => apply (evtab_trans_l _ _ _ s x); [evt|apply evtab_put]
    | |- evtab _ _ None ?s (?f ?x _ _ _) => apply (evtab_wrap _ _ _ s x); [reflexivity|evt]
    | |- evtab _ _ None ?s (?f ?x _ _) => apply (evtab_wrap _ _ _ s x); [reflexivity|evt]
    | |- evtab _ _ None ?s (?f ?x _) => apply (evtab_wrap _ _ _ s x); [reflexivity|evt]
    | |- evtab _ _ None ?s (?f ?x) => apply (evtab_wrap _ _ _ s x); [reflexivity|evt]
    end ].

Definition log_ext {A} (l l' : list A) : Prop := l' = l \/ exists x, l' = x :: l.

Lemma good_ext rx tx rx' tx' f : log_ext rx rx' -> log_ext tx tx' -> good rx tx f -> good rx' tx' f.
Proof.
  intros [->|(x & ->)] [->|(y & ->)] H; auto using good_rx, good_tx.
Qed.

(* the store/connfut/futures part of the invariant survives every step that completes nothing,
   creates nothing and adds nothing to the future store *)
Lemma hist_BCD s s' :
  evtab (length (g_rx (g s))) (length (g_tx (g s))) None s s' ->
  log_ext (g_rx (g s)) (g_rx (g s')) -> log_ext (g_tx (g s)) (g_tx (g s')) ->
  (forall j c, amap_get (t_store (t s')) j = Some c -> amap_get (t_store (t s)) j = Some c) ->
  (t_connfut (t s') = t_connfut (t s) \/ t_connfut (t s') = None) ->
  (forall j c, amap_get (t_store (t s)) j = Some c -> exists f, fut_get s c = Some f /\ cf_id f = j /\ cf_kind f <> KConnect) ->
  (forall c f, fut_get s c = Some f -> good (g_rx (g s)) (g_tx (g s)) f) ->
  match t_connfut (t s) with Some c => exists f, fut_get s c = Some f /\ cf_kind f = KConnect | None => True end ->
  (forall j c, amap_get (t_store (t s')) j = Some c -> exists f, fut_get s' c = Some f /\ cf_id f = j /\ cf_kind f <> KConnect) /\
  (forall c f, fut_get s' c = Some f -> good (g_rx (g s')) (g_tx (g s')) f) /\
  match t_connfut (t s') with Some c => exists f, fut_get s' c = Some f /\ cf_kind f = KConnect | None => True end.
Proof.
  intros EV Hrx Htx Hst Hcf B C D. split; [|split].
  - intros j c Hj. destruct (B _ _ (Hst _ _ Hj)) as (f & Hf & Hi & Hk).
    destruct (evtab_fwd _ _ _ _ _ _ _ EV Hf) as (f' & Hf' & M). unfold meta in M. injection M as Mi Mk _ _.
    exists f'. split; [exact Hf'|]. split; congruence.
  - intros c f' Hf'. eapply good_ext; [exact Hrx|exact Htx|].
    eapply (evtab_good _ _ _ _ _ _ _ EV eq_refl eq_refl C); exact Hf'.
  - destruct Hcf as [->| ->]; [|exact I]. destruct (t_connfut (t s)) as [c|]; [|exact I].
    destruct D as (f & Hf & Hk). destruct (evtab_fwd _ _ _ _ _ _ _ EV Hf) as (f' & Hf' & M).
    unfold meta in M. injection M as _ Mk _ _. exists f'. split; [exact Hf'|congruence].
Qed.

Lemma qos0_clause_ext tx tx' f : (cf_txmark f <= length tx)%nat -> log_ext tx tx' -> qos0_clause tx f -> qos0_clause tx' f.
Proof.
  intros Hm [->|(x & ->)] H; [exact H|]. destruct H as (m & id & H & Hq). exists m, id.
  split; [apply firstn_since_cons; assumption|exact Hq].
Qed.

Lemma api_fut_ev s s' c pc :
  evtab (length (g_rx (g s))) (length (g_tx (g s))) None s s' ->
  log_ext (g_tx (g s)) (g_tx (g s')) ->
  (forall c f, fut_get s c = Some f -> good (g_rx (g s)) (g_tx (g s)) f) ->
  api_fut s c pc -> api_fut s' c pc.
Proof.
  intros EV Htx C H. destruct pc; cbn [api_fut] in *; try exact I.
  all: try (eapply evtab_none; [exact EV|reflexivity|exact H]).
  - destruct H as (f & Hf & Hk). destruct (evtab_fwd _ _ _ _ _ _ _ EV Hf) as (f' & Hf' & M).
    unfold meta in M. injection M as _ Mk _ _. exists f'. split; [exact Hf'|congruence].
  - destruct H as (f & Hf & Hk). destruct (evtab_fwd _ _ _ _ _ _ _ EV Hf) as (f' & Hf' & M).
    unfold meta in M. injection M as _ Mk _ _. exists f'. split; [exact Hf'|congruence].
  - destruct H as (f & Hf & Hk & Hq). destruct (evtab_fwd _ _ _ _ _ _ _ EV Hf) as (f' & Hf' & M).
    unfold meta in M. injection M as _ Mk _ Mt. exists f'. split; [exact Hf'|]. split; [congruence|].
    destruct (C _ _ Hf) as [[_ Hm] _].
    assert (X : qos0_clause (g_tx (g s')) f) by (eapply qos0_clause_ext; eassumption).
    unfold qos0_clause in *. rewrite Mt. exact X.
Qed.

(* weaker views of a table evolution: futures stay (with their meta data), absent ones stay absent *)
Definition mtab (s s' : st) : Prop :=
  forall c f, fut_get s c = Some f -> exists f', fut_get s' c = Some f' /\ meta f' = meta f.
Definition ntab (skip : option N) (s s' : st) : Prop :=
  forall c, is_cr skip c = false -> fut_get s c = None -> fut_get s' c = None.

Lemma evtab_mtab nr nt cr s s' : evtab nr nt cr s s' -> mtab s s'.
Proof. intros H c f Hf. eapply evtab_fwd; eassumption. Qed.
Lemma evtab_ntab nr nt cr s s' : evtab nr nt cr s s' -> ntab cr s s'.
Proof. intros H c Hc Hn. eapply evtab_none; eassumption. Qed.

Lemma complete_mtab x c v : mtab x (fut_complete x c v).
Proof.
  intros c' f Hf. rewrite fut_get_complete. destruct (N.eqb_spec c' c) as [->|]; [|exists f; auto].
  rewrite Hf. cbn [option_map]. eexists. split; reflexivity.
Qed.
Lemma complete_ntab x c v : ntab None x (fut_complete x c v).
Proof.
  intros c' _ Hn. rewrite fut_get_complete. destruct (N.eqb_spec c' c) as [->|]; [|exact Hn]. rewrite Hn. reflexivity.
Qed.
Lemma mtab_trans s x s' : mtab s x -> mtab x s' -> mtab s s'.
Proof.
  intros H1 H2 c f Hf. destruct (H1 _ _ Hf) as (f1 & Hf1 & M1). destruct (H2 _ _ Hf1) as (f2 & Hf2 & M2).
  exists f2. split; [exact Hf2|congruence].
Qed.
Lemma ntab_trans_l k s x s' : ntab k s x -> ntab None x s' -> ntab k s s'.
Proof. intros H1 H2 c Hc Hn. apply H2; [reflexivity|]. apply H1; assumption. Qed.
Lemma mtab_same s s' : (forall c, fut_get s' c = fut_get s c) -> mtab s s'.
Proof. intros E c f Hf. exists f. rewrite E. auto. Qed.
Lemma ntab_same k s s' : (forall c, fut_get s' c = fut_get s c) -> ntab k s s'.
Proof. intros E c _ Hn. rewrite E. exact Hn. Qed.

(* the three clauses of hist_BCD one at a time: B the entries of the future store, C every future good,
   D the connect future *)
Lemma hist_B s s' : mtab s s' ->
  (forall j c, amap_get (t_store (t s')) j = Some c -> amap_get (t_store (t s)) j = Some c) ->
  (forall j c, amap_get (t_store (t s)) j = Some c -> exists f, fut_get s c = Some f /\ cf_id f = j /\ cf_kind f <> KConnect) ->
  (forall j c, amap_get (t_store (t s')) j = Some c -> exists f, fut_get s' c = Some f /\ cf_id f = j /\ cf_kind f <> KConnect).
Proof.
  intros M Hst B j c Hj. destruct (B _ _ (Hst _ _ Hj)) as (f & Hf & Hi & Hk).
  destruct (M _ _ Hf) as (f' & Hf' & Mm). unfold meta in Mm. injection Mm as Mi Mk _ _.
  exists f'. split; [exact Hf'|]. split; congruence.
Qed.

Lemma hist_D s s' : mtab s s' ->
  (t_connfut (t s') = t_connfut (t s) \/ t_connfut (t s') = None) ->
  match t_connfut (t s) with Some c => exists f, fut_get s c = Some f /\ cf_kind f = KConnect | None => True end ->
  match t_connfut (t s') with Some c => exists f, fut_get s' c = Some f /\ cf_kind f = KConnect | None => True end.
Proof.
  intros M [->| ->] D; [|exact I]. destruct (t_connfut (t s)) as [c|]; [|exact I].
  destruct D as (f & Hf & Hk). destruct (M _ _ Hf) as (f' & Hf' & Mm).
  unfold meta in Mm. injection Mm as _ Mk _ _. exists f'. split; [exact Hf'|congruence].
Qed.

Lemma hist_C nr nt cr s s' : evtab nr nt cr s s' -> nr = length (g_rx (g s)) -> nt = length (g_tx (g s)) ->
  log_ext (g_rx (g s)) (g_rx (g s')) -> log_ext (g_tx (g s)) (g_tx (g s')) ->
  (forall c f, fut_get s c = Some f -> good (g_rx (g s)) (g_tx (g s)) f) ->
  (forall c f, fut_get s' c = Some f -> good (g_rx (g s')) (g_tx (g s')) f).
Proof.
  intros EV -> -> Hrx Htx C c f' Hf'. eapply good_ext; [exact Hrx|exact Htx|].
  eapply (evtab_good _ _ _ _ _ _ _ EV eq_refl eq_refl C); exact Hf'.
Qed.

(* a completion: every other slot as before, the completed one justified *)
Lemma hist_C_complete s x c v s' :
  evtab (length (g_rx (g s))) (length (g_tx (g s))) None s x ->
  (forall c', fut_get s' c' = fut_get (fut_complete x c v) c') ->
  g_rx (g s') = g_rx (g s) -> g_tx (g s') = g_tx (g s) ->
  (forall c f, fut_get s c = Some f -> good (g_rx (g s)) (g_tx (g s)) f) ->
  (forall f, fut_get s c = Some f -> justified (g_rx (g s)) (g_tx (g s)) f) ->
  (forall c f, fut_get s' c = Some f -> good (g_rx (g s')) (g_tx (g s')) f).
Proof.
  intros EV E Hrx Htx C J c' f' Hf'. rewrite Hrx, Htx. rewrite E, fut_get_complete in Hf'.
  destruct (N.eqb_spec c' c) as [->|].
  - destruct (fut_get x c) as [fx|] eqn:Ex; [|discriminate Hf']. cbn [option_map] in Hf'. injection Hf' as <-.
    pose proof (EV c) as Hev. rewrite Ex in Hev. destruct (fut_get s c) as [f|] eqn:Ef; [|destruct Hev as [X _]; discriminate X].
    destruct Hev as [M _]. unfold meta in M. injection M as Mi Mk Mr Mt.
    destruct (C _ _ Ef) as [[Hr Ht] _]. split; [split; cbn [cf_rxmark cf_txmark]; congruence|].
    intros _. specialize (J _ eq_refl).
    unfold justified, connack_clause, ack_clause, qos0_clause in *. cbn [cf_kind cf_id cf_rxmark cf_txmark].
    rewrite Mi, Mk, Mr, Mt. exact J.
  - eapply (evtab_good _ _ _ _ _ _ _ EV eq_refl eq_refl C); exact Hf'.
Qed.

Lemma fut_get_new x c id kd : fut_get (fut_new x c id kd) c = Some (CFut future_new id kd (length (g_rx (g x))) (length (g_tx (g x)))).
Proof. unfold fut_new, fut_get. cbn [t t_futs set_t t_set_futs]. rewrite aget_put, N.eqb_refl. reflexivity. Qed.

(* storing a freshly created future: it is still there, with its id and kind *)
Lemma fut_get_new_put x c id kd :
  exists f, fut_get (store_put_f (fut_new x c id kd) id c) c = Some f /\ cf_id f = id /\ cf_kind f = kd.
Proof.
  unfold store_put_f.
  destruct (amap_get (t_store (t (fut_new x c id kd))) id) as [c0|]; [destruct (N.eqb_spec c0 c) as [->|Hne]|].
  - eexists. split; [apply fut_get_new|split; reflexivity].
  - assert (G : fut_get (fut_cancel (fut_new x c id kd) c0 VNil) c = fut_get (fut_new x c id kd) c).
    { unfold fut_cancel, fut_resolve. destruct (fut_get (fut_new x c id kd) c0); [|reflexivity].
      unfold fut_get at 1. cbn [t t_futs set_t t_set_futs]. rewrite aget_put.
      destruct (N.eqb_spec c c0) as [->|]; [contradiction|reflexivity]. }
    exists (CFut future_new id kd (length (g_rx (g x))) (length (g_tx (g x)))). split; [|split; reflexivity].
    unfold fut_get at 1. cbn [t t_futs set_t t_set_store]. fold (fut_get (fut_cancel (fut_new x c id kd) c0 VNil) c).
    rewrite G. apply fut_get_new.
  - eexists. split; [apply fut_get_new|split; reflexivity].
Qed.

Lemma fin_clause rx tx r id f : good rx tx f -> req_qos0 r = true -> cf_kind f = req_kind r ->
  cf_kind f = KPub 0 /\ qos0_clause ((req_packet r id, true, Ok) :: tx) f.
Proof.
  intros [[_ Ht] _] Hq Hk. destruct r as [m| |]; cbn [req_qos0] in Hq; try discriminate Hq.
  apply N.eqb_eq in Hq. cbn [req_kind req_packet] in *. rewrite Hq in Hk. split; [exact Hk|].
  exists m, id. split; [|exact Hq]. cbn [length]. replace (S (length tx) - cf_txmark f)%nat with (S (length tx - cf_txmark f)) by lia.
  cbn [firstn]. left. reflexivity.
Qed.

(* ---- the steps that create or complete a future *)

Definition frame (s tm : st) : Prop :=
  k_pending (k tm) = k_pending (k s) /\ g_rx (g tm) = g_rx (g s) /\ g_tx (g tm) = g_tx (g s).

Lemma same_table_evtab nr nt cr s x tm :
  (forall c, fut_get tm c = fut_get x c) -> evtab nr nt cr s x -> evtab nr nt cr s tm.
Proof. intros E H c. rewrite E. apply H. Qed.

(* Connect creates its future *)
Lemma hist_create_connect s tm n :
  InvHist s -> k_api (k s) = Some (n, AConnDial) \/ k_api (k s) = Some (n, AConnReset) ->
  (forall c, fut_get tm c = fut_get (fut_new s n 0 KConnect) c) ->
  frame s tm -> k_api (k tm) = Some (n, AConnSend) ->
  t_store (t tm) = t_store (t s) -> t_connfut (t tm) = Some n ->
  InvHist tm.
Proof.
  intros (A1 & A2 & A3 & B & C & D) Hapi Etab (Fp & Frx & Ftx) Hapi' Hst Hcf.
  assert (Hnone : fut_get s n = None /\ amap_get (k_pending (k s)) n = None).
  { destruct Hapi as [E|E]; rewrite E in A3; destruct A3 as [P F]; split; assumption. }
  destruct Hnone as [Hn Hp].
  assert (EV : evtab (length (g_rx (g s))) (length (g_tx (g s))) (Some n) s tm).
  { eapply same_table_evtab; [exact Etab|]. apply evtab_new. exact Hn. }
  unfold InvHist. rewrite Fp, Hapi', Frx, Ftx.
  split; [exact A1|]. split.
  { intros c cl Hc. eapply evtab_none; [exact EV| |eapply A2; exact Hc].
    cbn [is_cr]. destruct (N.eqb_spec c n) as [->|]; [rewrite Hp in Hc; discriminate Hc|reflexivity]. }
  split; [split; [exact Hp|exact I]|]. split.
  { apply (hist_B s tm (evtab_mtab _ _ _ _ _ EV)); [intros j c Hj; rewrite Hst in Hj; exact Hj|exact B]. }
  split.
  { intros c f Hf. pose proof (evtab_good _ _ _ _ _ _ _ EV eq_refl eq_refl C c f Hf) as G. exact G. }
  rewrite Hcf, Etab, fut_get_new. eexists. split; reflexivity.
Qed.

(* a request creates and stores its future; the client is still connected *)
Lemma hist_create_req s tm n r id pc' :
  InvHist s -> k_api (k s) = Some (n, AReqPut r id) ->
  (forall c, fut_get tm c = fut_get (store_put_f (fut_new s n id (req_kind r)) id n) c) ->
  frame s tm -> k_api (k tm) = Some (n, pc') -> (pc' = AReqSave r id \/ pc' = AReqSend r id) ->
  t_store (t tm) = amap_put (t_store (t s)) id n -> t_connfut (t tm) = t_connfut (t s) ->
  InvHist tm.
Proof.
  intros (A1 & A2 & A3 & B & C & D) Hapi Etab (Fp & Frx & Ftx) Hapi' Hpc Hst Hcf.
  rewrite Hapi in A3. destruct A3 as [Hp Hn]. cbn [api_fut] in Hn.
  assert (EV : evtab (length (g_rx (g s))) (length (g_tx (g s))) (Some n) s tm).
  { eapply same_table_evtab; [exact Etab|].
    eapply evtab_trans_l; [apply evtab_new; exact Hn|].
    assert (X := evtab_put (length (g_rx (g s))) (length (g_tx (g s))) (fut_new s n id (req_kind r)) id n). exact X. }
  destruct (fut_get_new_put s n id (req_kind r)) as (fn & Hfn & Hfi & Hfk). rewrite <- Etab in Hfn.
  unfold InvHist. rewrite Fp, Hapi', Hst, Frx, Ftx.
  split; [exact A1|]. split.
  { intros c cl Hc. eapply evtab_none; [exact EV| |eapply A2; exact Hc].
    cbn [is_cr]. destruct (N.eqb_spec c n) as [->|]; [rewrite Hp in Hc; discriminate Hc|reflexivity]. }
  split.
  { split; [exact Hp|]. destruct Hpc as [-> | ->]; cbn [api_fut]; exists fn; split; assumption. }
  split.
  { intros j c Hj. rewrite aget_put in Hj. destruct (N.eqb_spec j id) as [->|].
    - injection Hj as <-. exists fn. split; [exact Hfn|]. split; [exact Hfi|]. rewrite Hfk. destruct r; discriminate.
    - destruct (B _ _ Hj) as (f & Hf & Hi & Hk). destruct (evtab_fwd _ _ _ _ _ _ _ EV Hf) as (f' & Hf' & M).
      unfold meta in M. injection M as Mi Mk _ _. exists f'. split; [exact Hf'|]. split; congruence. }
  split.
  { intros c f Hf. exact (evtab_good _ _ _ _ _ _ _ EV eq_refl eq_refl C c f Hf). }
  apply (hist_D s tm (evtab_mtab _ _ _ _ _ EV)); [left; exact Hcf|exact D].
Qed.

(* ... or the client has died meanwhile: the future is cancelled and taken out again *)
Lemma hist_create_req_fail s tm n r id :
  InvHist s -> NoDup (akeys (t_store (t s))) -> k_api (k s) = Some (n, AReqPut r id) ->
  (forall c, fut_get tm c = fut_get (fut_cancel (store_del_f (store_put_f (fut_new s n id (req_kind r)) id n) id) n VNil) c) ->
  frame s tm -> k_api (k tm) = None ->
  t_store (t tm) = amap_del (amap_put (t_store (t s)) id n) id -> t_connfut (t tm) = t_connfut (t s) ->
  InvHist tm.
Proof.
  intros (A1 & A2 & A3 & B & C & D) W4 Hapi Etab (Fp & Frx & Ftx) Hapi' Hst Hcf.
  rewrite Hapi in A3. destruct A3 as [Hp Hn]. cbn [api_fut] in Hn.
  assert (EV : evtab (length (g_rx (g s))) (length (g_tx (g s))) (Some n) s tm).
  { eapply same_table_evtab; [exact Etab|].
    eapply evtab_trans_l; [|apply evtab_cancel].
    eapply evtab_wrap; [reflexivity|].
    eapply evtab_trans_l; [apply evtab_new; exact Hn|].
    exact (evtab_put _ _ (fut_new s n id (req_kind r)) id n). }
  unfold InvHist. rewrite Fp, Hapi', Hst, Frx, Ftx.
  split; [exact A1|]. split.
  { intros c cl Hc. eapply evtab_none; [exact EV| |eapply A2; exact Hc].
    cbn [is_cr]. destruct (N.eqb_spec c n) as [->|]; [rewrite Hp in Hc; discriminate Hc|reflexivity]. }
  split; [exact I|]. split.
  { intros j c Hj. rewrite aget_del in Hj by (apply anodup_put; exact W4).
    destruct (N.eqb_spec j id) as [->|Hne]; [discriminate Hj|]. rewrite aget_put in Hj.
    destruct (N.eqb_spec j id) as [->|_]; [contradiction|].
    destruct (B _ _ Hj) as (f & Hf & Hi & Hk). destruct (evtab_fwd _ _ _ _ _ _ _ EV Hf) as (f' & Hf' & M).
    unfold meta in M. injection M as Mi Mk _ _. exists f'. split; [exact Hf'|]. split; congruence. }
  split.
  { intros c f Hf. exact (evtab_good _ _ _ _ _ _ _ EV eq_refl eq_refl C c f Hf). }
  apply (hist_D s tm (evtab_mtab _ _ _ _ _ EV)); [left; exact Hcf|exact D].
Qed.

(* a completion *)
Lemma hist_complete s x tm c v :
  InvHist s ->
  evtab (length (g_rx (g s))) (length (g_tx (g s))) None s x ->
  (forall c', fut_get tm c' = fut_get (fut_complete x c v) c') ->
  frame s tm ->
  (forall j c0, amap_get (t_store (t tm)) j = Some c0 -> amap_get (t_store (t s)) j = Some c0) ->
  t_connfut (t tm) = t_connfut (t s) ->
  (forall f, fut_get s c = Some f -> justified (g_rx (g s)) (g_tx (g s)) f) ->
  (* the call that holds the mutex, afterwards *)
  match k_api (k tm) with
  | Some (c0, pc) => k_api (k s) = Some (c0, pc)
  | None => True
  end ->
  InvHist tm.
Proof.
  intros (A1 & A2 & A3 & B & C & D) EV Etab (Fp & Frx & Ftx) Hst Hcf J Hapi.
  assert (M : mtab s tm).
  { eapply mtab_trans; [exact (evtab_mtab _ _ _ _ _ EV)|].
    intros c' f Hf. rewrite Etab. apply complete_mtab. exact Hf. }
  assert (Nt : ntab None s tm).
  { intros c' _ Hn. rewrite Etab. apply complete_ntab; [reflexivity|]. eapply evtab_none; [exact EV|reflexivity|exact Hn]. }
  assert (C' : forall c0 f, fut_get tm c0 = Some f -> good (g_rx (g tm)) (g_tx (g tm)) f).
  { eapply hist_C_complete; eassumption. }
  unfold InvHist. rewrite Fp.
  split; [exact A1|]. split.
  { intros c0 cl Hc. apply Nt; [reflexivity|]. eapply A2; exact Hc. }
  split.
  { destruct (k_api (k tm)) as [[c0 pc]|]; [|exact I]. rename Hapi into Hs. rewrite Hs in A3.
    destruct A3 as [P F]. split; [exact P|].
    destruct pc; cbn [api_fut] in *; try exact I; try (apply Nt; [reflexivity|exact F]).
    - destruct F as (f & Hf & Hk). destruct (M _ _ Hf) as (f' & Hf' & Mm). unfold meta in Mm. injection Mm as _ Mk _ _.
      exists f'. split; [exact Hf'|congruence].
    - destruct F as (f & Hf & Hk). destruct (M _ _ Hf) as (f' & Hf' & Mm). unfold meta in Mm. injection Mm as _ Mk _ _.
      exists f'. split; [exact Hf'|congruence].
    - destruct F as (f & Hf & Hk & Hq). destruct (M _ _ Hf) as (f' & Hf' & Mm). unfold meta in Mm. injection Mm as _ Mk _ Mt.
      exists f'. split; [exact Hf'|]. split; [congruence|]. rewrite Ftx. unfold qos0_clause in *. rewrite Mt. exact Hq. }
  split; [exact (hist_B s tm M Hst B)|]. split; [exact C'|].
  apply (hist_D s tm M); [left; exact Hcf|exact D].
Qed.

Lemma head_in_window {A} (x : A) rest m : In x (firstn (S (length (x :: rest) - m)) (x :: rest)).
Proof. cbn [firstn]. left. reflexivity. Qed.

Lemma ack_justified rx tx f p rest : rx = p :: rest -> is_ack_for (cf_id f) p = true -> cf_kind f <> KConnect ->
  justified rx tx f.
Proof.
  intros -> Ha Hk. assert (X : ack_clause (p :: rest) f) by (exists p; split; [apply head_in_window|exact Ha]).
  unfold justified. destruct (cf_kind f) as [|[|q]| |]; [contradiction|right; exact X|exact X|exact X|exact X].
Qed.

Lemma connack_justified rx tx f sp rest : rx = Connack sp 0 :: rest -> cf_kind f = KConnect -> justified rx tx f.
Proof. intros -> Hk. unfold justified. rewrite Hk. exists sp. apply head_in_window. Qed.

Lemma sub_del {A} (m : list (N * A)) k : NoDup (akeys m) ->
  forall j c, amap_get (amap_del m k) j = Some c -> amap_get m j = Some c.
Proof. intros Hnd j c H. rewrite aget_del in H by exact Hnd. destruct (j =? k); [discriminate H|exact H]. Qed.

Definition api_ok (s : st) (pend : list (N * call)) (a : option (N * apc)) : Prop :=
  match a with Some (c, pc) => amap_get pend c = None /\ api_fut s c pc | None => True end.

(* a step that neither creates nor completes a future: the table evolves by cancellations at most, the
   future store shrinks, the logs grow; what it does to the pending calls and to the call holding the
   mutex is stated over the old table *)
Lemma hist_quiet s tm :
  InvHist s ->
  evtab (length (g_rx (g s))) (length (g_tx (g s))) None s tm ->
  log_ext (g_rx (g s)) (g_rx (g tm)) -> log_ext (g_tx (g s)) (g_tx (g tm)) ->
  (forall j c, amap_get (t_store (t tm)) j = Some c -> amap_get (t_store (t s)) j = Some c) ->
  (t_connfut (t tm) = t_connfut (t s) \/ t_connfut (t tm) = None) ->
  NoDup (akeys (k_pending (k tm))) ->
  (forall c cl, amap_get (k_pending (k tm)) c = Some cl -> fut_get s c = None) ->
  api_ok s (k_pending (k tm)) (k_api (k tm)) ->
  InvHist tm.
Proof.
  intros (A1 & A2 & A3 & B & C & D) EV Hrx Htx Hst Hcf H1 H2 H3.
  split; [exact H1|]. split; [intros c cl Hc; exact (evtab_none _ _ _ _ _ c EV eq_refl (H2 c cl Hc))|].
  split; [|exact (hist_BCD s tm EV Hrx Htx Hst Hcf B C D)].
  unfold api_ok in H3. destruct (k_api (k tm)) as [[c pc]|]; [|exact I].
  split; [apply H3|exact (api_fut_ev s tm c pc EV Htx C (proj2 H3))].
Qed.

Lemma log_refl {A} (l : list A) : log_ext l l.
Proof. left. reflexivity. Qed.
Lemma log_cons {A} (x : A) l : log_ext l (x :: l).
Proof. right. exists x. reflexivity. Qed.

Lemma sub_clear (b : bool) (m : list (N * N)) j c : amap_get (if b then m else []) j = Some c -> amap_get m j = Some c.
Proof. destruct b; [auto|discriminate]. Qed.

Lemma pend_put s c cl : InvHist s -> fut_get s c = None ->
  forall c0 cl0, amap_get (amap_put (k_pending (k s)) c cl) c0 = Some cl0 -> fut_get s c0 = None.
Proof.
  intros (_ & A2 & _) Hn c0 cl0 H. rewrite aget_put in H. destruct (N.eqb_spec c0 c) as [->|]; [exact Hn|exact (A2 _ _ H)].
Qed.
Lemma pend_del s c : InvHist s ->
  forall c0 cl0, amap_get (amap_del (k_pending (k s)) c) c0 = Some cl0 -> fut_get s c0 = None.
Proof.
  intros (A1 & A2 & _) c0 cl0 H. rewrite aget_del in H by exact A1. destruct (c0 =? c); [discriminate H|exact (A2 _ _ H)].
Qed.

Lemma api_on s n pc pc' : InvHist s -> k_api (k s) = Some (n, pc) -> (api_fut s n pc -> api_fut s n pc') ->
  api_ok s (k_pending (k s)) (Some (n, pc')).
Proof. intros (_ & _ & A3 & _) E F. rewrite E in A3. split; [apply A3|apply F, A3]. Qed.
Lemma api_acq s c cl pc' : InvHist s -> amap_get (k_pending (k s)) c = Some cl -> (fut_get s c = None -> api_fut s c pc') ->
  api_ok s (amap_del (k_pending (k s)) c) (Some (c, pc')).
Proof.
  intros (A1 & A2 & _) E F. split; [rewrite aget_del by exact A1; rewrite N.eqb_refl; reflexivity|exact (F (A2 _ _ E))].
Qed.
Lemma api_put s c cl : InvHist s -> match k_api (k s) with Some (c', _) => (c =? c') = false | None => True end ->
  api_ok s (amap_put (k_pending (k s)) c cl) (k_api (k s)).
Proof.
  intros (_ & _ & A3 & _) E. destruct (k_api (k s)) as [[c' pc]|]; [|exact I].
  split; [rewrite aget_put, N.eqb_sym, E; apply A3|apply A3].
Qed.

(* the QoS 0 PUBLISH of call n was written: this is what will justify its future *)
Lemma hist_sent s tm n r id :
  InvHist s -> k_api (k s) = Some (n, AReqSend r id) -> req_qos0 r = true ->
  t tm = t s -> k_pending (k tm) = k_pending (k s) -> g_rx (g tm) = g_rx (g s) ->
  g_tx (g tm) = (req_packet r id, true, Ok) :: g_tx (g s) -> k_api (k tm) = Some (n, AReqFin) ->
  InvHist tm.
Proof.
  intros (A1 & A2 & A3 & B & C & D) E Hq Ht Hp Hrx Htx Ha. rewrite E in A3. destruct A3 as [P (f & Hf & Hk)].
  assert (EV : evtab (length (g_rx (g s))) (length (g_tx (g s))) None s tm) by (apply evtab_same; rewrite Ht; reflexivity).
  assert (G : forall c, fut_get tm c = fut_get s c) by (intros c; unfold fut_get; rewrite Ht; reflexivity).
  destruct (hist_BCD s tm EV) as (B' & C' & D'); try assumption;
    [rewrite Hrx; apply log_refl|rewrite Htx; apply log_cons|rewrite Ht; auto|rewrite Ht; auto|].
  unfold InvHist. rewrite Hp, Ha. split; [exact A1|]. split; [intros c cl Hc; rewrite G; exact (A2 _ _ Hc)|].
  split; [|split; [exact B'|split; [exact C'|exact D']]]. split; [exact P|].
  destruct (fin_clause _ _ r id f (C _ _ Hf) Hq Hk) as [K Q].
  exists f. rewrite G, Htx. split; [exact Hf|split; [exact K|exact Q]].
Qed.

Lemma InvHist_step s e s' : InvWf s -> InvRx s -> InvHist s -> step s e = Some s' -> InvHist s'.
Proof.
  intros (_ & _ & _ & W4 & W5) R INV H. pose proof INV as (A1 & A2 & A3 & B & C & D).
  destruct e.
  all: step_cases H.
  all: try (destruct cu; cbn [cu_hidden] in *; try discriminate;
            match goal with E : Some _ = Some _ |- _ => injection E as E; subst end).
  all: unfold_ctl.
  (* steps that neither create nor complete a future *)
  all: try solve [apply (hist_quiet s _ INV);
         [ evt
         | norm; first [apply log_refl|apply log_cons] | norm; first [apply log_refl|apply log_cons]
         | norm; first [intros ? ? X; exact X | apply sub_del; exact W4 | apply sub_clear | intros ? ? X; discriminate X]
         | norm; first [left; reflexivity|right; reflexivity]
         | norm; first [exact A1 | apply anodup_put; exact A1 | apply anodup_del; exact A1 | constructor]
         | norm; first [exact A2 | apply (pend_del s _ INV) | apply (pend_put s _ _ INV); assumption | intros ? ? X; discriminate X]
         | norm; first [ exact A3 | exact I
                       | eapply (api_on s _ _ _ INV); [eassumption|intros F; first [exact I|exact F]]
                       | eapply (api_acq s _ _ _ INV); [eassumption|intros F; first [exact I|exact F]]
                       | apply (api_put s _ _ INV); match goal with E : k_api _ = _ |- _ => rewrite E end; first [assumption|exact I] ] ] ].
  (* a watcher's report changes nothing *)
  all: try exact INV.
  (* the QoS 0 PUBLISH was written *)
  all: try solve [match goal with E : k_api (k _) = Some (?n, AReqSend ?r ?id), Eq : req_qos0 ?r = true,
                       Ep : _ && packet_eqb _ _ = true |- _ =>
         apply andb_true_iff in Ep; destruct Ep as [-> Ep]; apply packet_eqb_eq in Ep;
         first [ destruct r; cbn [req_qos0] in Eq; try discriminate Eq; cbn [req_packet] in Ep; discriminate Ep
               | apply (hist_sent s _ n r id INV E Eq); norm; rewrite ?Ep; reflexivity ] end].
  (* Connect creates its future *)
  all: try solve [match goal with E : k_api (k _) = Some (?n, AConnDial) |- InvHist ?tm =>
         apply (hist_create_connect s tm n INV (or_introl E));
         [intros ?; reflexivity|repeat split; reflexivity|reflexivity|reflexivity|reflexivity] end].
  all: try solve [match goal with E : k_api (k _) = Some (?n, AConnReset) |- InvHist ?tm =>
         apply (hist_create_connect s tm n INV (or_intror E));
         [intros ?; reflexivity|repeat split; reflexivity|reflexivity|reflexivity|reflexivity] end].
  (* a request creates and stores its future *)
  all: try solve [match goal with E : k_api (k _) = Some (?n, AReqPut ?r ?id) |- InvHist (set_api _ (Some (_, ?pc))) =>
         apply (hist_create_req s _ n r id pc INV E);
         [ intros ?; reflexivity | repeat split; norm; reflexivity | norm; reflexivity
         | first [left; reflexivity|right; reflexivity] | norm; reflexivity | norm; reflexivity ] end].
  all: try solve [match goal with E : k_api (k _) = Some (?n, AReqPut ?r ?id) |- InvHist (finish_call _ _ _) =>
         apply (hist_create_req_fail s _ n r id INV W4 E);
         [ intros ?; reflexivity | repeat split; norm; reflexivity | norm; reflexivity
         | norm; reflexivity | norm; reflexivity ] end].
  (* the QoS 0 publish completes its own future *)
  all: try solve [match goal with E : k_api (k _) = Some (?n, AReqFin) |- InvHist (finish_call (store_del_f (fut_complete ?x ?c ?v) _) _ _) =>
         apply (hist_complete s x _ c v INV);
         [ evt | intros ?; reflexivity | repeat split; norm; reflexivity
         | norm; apply sub_del; exact W4 | norm; reflexivity
         | try rewrite E in A3; cbv iota beta in A3; destruct A3 as [_ (f0 & Hf0 & Hk & Hq)];
           intros f Hf; rewrite Hf in Hf0; injection Hf0 as <-; unfold justified; rewrite Hk; left; exact Hq
         | norm; exact I ] end].
  (* CONNACK accepted, listing and re-send over (or failed): the connect future completes *)
  all: try solve [match goal with E : k_ppc (k _) = PConnDone ?sp _, Ec : t_connfut (t _) = Some ?n |- InvHist ?tm =>
         match tm with context [fut_complete ?x n ?v] =>
           cbn [k g t sess set_k set_cs t_connfut] in Ec; try rewrite Ec in D; destruct D as (f0 & Hf0 & Hk);
           unfold InvRx in R; rewrite E in R; cbn [rx_pc] in R; destruct R as [rest Hrx];
           apply (hist_complete s x tm n v INV);
           [ evt | intros ?; reflexivity | repeat split; norm; reflexivity
           | norm; intros ? ? X0; exact X0 | norm; reflexivity
           | intros f Hf; rewrite Hf in Hf0; injection Hf0 as <-; eapply connack_justified; eassumption
           | norm; destruct (k_api (k s)) as [[? ?]|]; [reflexivity|exact I] ] end end].
  (* an acknowledgement completes the future stored under its id *)
  all: match goal with E : k_ppc (k _) = PAckFut ?p, E1 : get_id ?p = Some ?id, E2 : store_get_f _ ?id = Some ?c
                       |- InvHist (set_ppc ?inner (PRecv false)) =>
         unfold store_get_f in E2; destruct (B _ _ E2) as (f0 & Hf0 & Hi & Hk);
         unfold InvRx in R; rewrite E in R; cbn [rx_pc] in R; destruct R as [[rest Hrx] Hack];
         match inner with
         | store_del_f (fut_complete ?x _ ?v) _ => apply (hist_complete s x _ c v INV)
         | fut_complete ?x _ ?v => apply (hist_complete s x _ c v INV)
         end;
         [ evt | intros ?; reflexivity | repeat split; norm; reflexivity
         | norm; apply sub_del; exact W4 | norm; reflexivity
         | intros f Hf; rewrite Hf in Hf0; injection Hf0 as <-;
           eapply ack_justified; [exact Hrx| |exact Hk]; rewrite Hi; apply is_ack_for_of; assumption
         | norm; destruct (k_api (k s)) as [[? ?]|]; [reflexivity|exact I] ] end.
Qed.

Lemma InvHist_reach es s : run step init es = Some s -> InvHist s.
Proof.
  revert es s. apply (reach_inv_rel (fun s => InvWf s /\ InvRx s) InvHist).
  - intros es s Hr. exact (conj (InvWf_reach _ _ Hr) (InvRx_reach _ _ Hr)).
  - exact InvHist_init.
  - intros s e s' [HW HR]. exact (InvHist_step s e s' HW HR).
Qed.

Theorem future_truthful_history : C09_future_truthful_history_statement.
Proof.
  intros es s Hr c f Hf Hc. destruct (InvHist_reach _ _ Hr) as (_ & _ & _ & _ & C & _).
  destruct (C _ _ Hf) as [_ J]. exact (J Hc).
Qed.

