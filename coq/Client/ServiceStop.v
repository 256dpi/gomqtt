(* ServiceStop.v — every pending command future is held somewhere Stop(true) reaches:
   by a caller blocked on the full queue, in the queue, by the dispatcher between a failed
   send and its error report, or attached to a client future in the shared store. *)
From Coq Require Import List NArith Bool Lia Sorted.
From GM Require Import Base.Lts Codec.Packet Client.Service Client.ServiceSpec Client.ServiceLemmas Client.ServiceProofs.
Import ListNotations.
Open Scope N_scope.

Definition holders (s : state) : list N :=
  (match ap s with ACmd n _ true => [n] | _ => [] end) ++ map fst (queue s) ++
  (match sp s with SDispFailing n _ => [n] | _ => [] end) ++ store_cmds (store s).

Definition pending (s : state) (n : N) : Prop := fut_get n (futs s) = Some FPending.

(* x: futures in transit inside one step *)
Definition inv_pend_x (x : list N) (s : state) : Prop := forall m, pending s m -> In m (holders s) \/ In m x.
Definition inv_pend := inv_pend_x [].

Lemma inv_pend_init c : inv_pend (init c).
Proof. intros m H. cbv in H. discriminate. Qed.

Lemma pop_holders s n b q m :
  queue s = (n, b) :: q -> In m (holders s) -> m = n \/ In m (holders (pop_cmd s n b q)).
Proof.
  intros Hq. unfold holders. rewrite pop_store, pop_sp. rewrite Hq.
  unfold pop_cmd, handover; cbn.
  destruct (ap s) as [| | |k b' []]; cbn; rewrite ?map_app; cbn; rewrite ?in_app_iff; cbn; intuition.
Qed.

(* ---- store_cmds under Put / Delete *)

Lemma in_cmds_del id st m :
  NoDup (map fst st) -> In m (store_cmds st) -> store_get id st <> Some (SCmd m) -> In m (store_cmds (store_del id st)).
Proof.
  intros Hnd Hin Hne. apply in_store_cmds in Hin. destruct Hin as (id' & Hin).
  apply in_store_cmds. exists id'. apply in_store_del. split; [exact Hin|]. cbn.
  intros ->. apply Hne. apply in_store_get; auto.
Qed.

Lemma in_cmds_put id e st m : In m (store_cmds (store_del id st)) -> In m (store_cmds (store_put id e st)).
Proof.
  intros Hin. apply in_store_cmds in Hin. destruct Hin as (id' & Hin).
  apply in_store_cmds. exists id'. unfold store_put. right; exact Hin.
Qed.

Lemma in_cmds_put_new id n st : In n (store_cmds (store_put id (SCmd n) st)).
Proof. apply in_store_cmds. exists id. unfold store_put. left; reflexivity. Qed.

(* ---- the helpers preserve the accounting *)

Lemma px_frame x s s' :
  futs s' = futs s -> (forall m, In m (holders s) -> In m (holders s')) -> inv_pend_x x s -> inv_pend_x x s'.
Proof.
  intros Hf Hh P m Hm. unfold pending in Hm. rewrite Hf in Hm. destruct (P m Hm) as [H|H]; auto.
Qed.

Lemma px_weaken x y s : incl x y -> inv_pend_x x s -> inv_pend_x y s.
Proof. intros Hi P m Hm. destruct (P m Hm); auto. Qed.

Lemma px_pop s n b q : queue s = (n, b) :: q -> inv_pend s -> inv_pend_x [n] (pop_cmd s n b q).
Proof.
  intros Hq P m Hm. unfold pending in Hm. rewrite pop_futs in Hm.
  destruct (P m Hm) as [H|[]]. destruct (pop_holders s n b q m Hq H) as [->|H']; [right; left; reflexivity|left; exact H'].
Qed.

Lemma put_futs_cases s id e m :
  pending (put_entry s id e) m -> pending s m /\ store_get id (store s) <> Some (SCmd m).
Proof.
  unfold pending, put_entry; cbn. destruct (store_get id (store s)) as [[| k |]|] eqn:E; intros H; try (split; [exact H|discriminate]).
  pose proof H as H0. apply fut_resolve_cases in H. destruct H as [H|(H & Hy & _)]; [|discriminate].
  split; [exact H|]. intros Heq; injection Heq as ->.
  rewrite fut_get_resolve_same, H in H0. discriminate.
Qed.

Lemma put_holders s id e m :
  NoDup (map fst (store s)) -> store_get id (store s) <> Some (SCmd m) ->
  In m (holders s) -> In m (holders (put_entry s id e)).
Proof.
  intros Hnd Hne. unfold holders, put_entry; cbn. rewrite !in_app_iff. intros [H|[H|[H|H]]]; auto.
  right; right; right. apply in_cmds_put. apply in_cmds_del; auto.
Qed.

Lemma px_put x s id e : NoDup (map fst (store s)) -> inv_pend_x x s -> inv_pend_x x (put_entry s id e).
Proof.
  intros Hnd P m Hm. apply put_futs_cases in Hm. destruct Hm as [Hm Hne].
  destruct (P m Hm) as [H|H]; [left|right; exact H]. apply put_holders; auto.
Qed.

Lemma px_put_cmd s id n : NoDup (map fst (store s)) -> inv_pend_x [n] s -> inv_pend (put_entry s id (SCmd n)).
Proof.
  intros Hnd P m Hm. left. apply put_futs_cases in Hm. destruct Hm as [Hm Hne].
  destruct (P m Hm) as [H|[<-|[]]]; [apply put_holders; auto|].
  unfold holders, put_entry; cbn. rewrite !in_app_iff. right; right; right. apply in_cmds_put_new.
Qed.

(* future n is resolved: it needs no holder any more *)
Lemma px_resolve s n st : st <> FPending -> inv_pend_x [n] s -> inv_pend (set_futs s (fut_resolve n st (futs s))).
Proof.
  intros Hst P m Hm. unfold pending in Hm; cbn in Hm. pose proof Hm as Hm0.
  apply fut_resolve_cases in Hm. destruct Hm as [Hm|(_ & Hy & _)]; [|congruence].
  destruct (N.eq_dec m n) as [->|Hne].
  - exfalso. pose proof Hm0 as Hx. rewrite fut_get_resolve_same, Hm in Hx. destruct st; congruence.
  - destruct (P m Hm) as [H|[<-|[]]]; [left; exact H|contradiction Hne; reflexivity].
Qed.

Lemma px_failing s n k : sp s = SDispatch -> inv_pend_x [n] s -> inv_pend (set_sp s (SDispFailing n k)).
Proof.
  intros Hsp P m Hm. left. destruct (P m Hm) as [H|[<-|[]]].
  - unfold holders in *; cbn. rewrite !in_app_iff in *. destruct H as [H|[H|[H|H]]]; auto.
    + rewrite Hsp in H. destruct H.
    + right; right. right; exact H.
  - unfold holders; cbn. rewrite !in_app_iff. right; right. left; reflexivity.
Qed.

Lemma px_del x s id :
  NoDup (map fst (store s)) ->
  (forall m, store_get id (store s) = Some (SCmd m) -> ~ pending s m) ->
  inv_pend_x x s -> inv_pend_x x (set_store s (store_del id (store s))).
Proof.
  intros Hnd Hnp P m Hm. change (pending s m) in Hm. destruct (P m Hm) as [H|H]; [left|right; exact H].
  unfold holders in *; cbn. rewrite !in_app_iff in *. destruct H as [H|[H|[H|H]]]; auto.
  right; right; right. apply in_cmds_del; auto. intros Heq. exact (Hnp m Heq Hm).
Qed.

Lemma resolved_not_pending s n st : st <> FPending -> ~ pending (set_futs s (fut_resolve n st (futs s))) n.
Proof.
  intros Hst Hp. unfold pending in Hp; cbn in Hp. rewrite fut_get_resolve_same in Hp.
  destruct (fut_get n (futs s)) as [[| |]|]; try discriminate. congruence.
Qed.

(* an acknowledgement (or rejection) reaches the client future command n is attached to *)
Lemma px_ack s id n st :
  st <> FPending -> NoDup (map fst (store s)) -> store_get id (store s) = Some (SCmd n) ->
  inv_pend s -> inv_pend (set_store (set_futs s (fut_resolve n st (futs s))) (store_del id (store s))).
Proof.
  intros Hst Hnd Hg P.
  apply (px_del [] (set_futs s (fut_resolve n st (futs s))) id); cbn; auto.
  - intros m Hm. rewrite Hg in Hm. injection Hm as <-. apply resolved_not_pending; auto.
  - apply px_resolve; auto. apply (px_weaken []); auto. intros ? [].
Qed.

Lemma px_del_other s id :
  NoDup (map fst (store s)) -> (forall m, store_get id (store s) <> Some (SCmd m)) ->
  inv_pend s -> inv_pend (set_store s (store_del id (store s))).
Proof. intros Hnd Hne P. apply px_del; auto. intros m Hm. contradiction (Hne m). Qed.

Lemma fut_resolve_all_notin ns : forall n st fs, ~ In n ns -> fut_get n (fut_resolve_all ns st fs) = fut_get n fs.
Proof.
  unfold fut_resolve_all. induction ns as [|k ns IH]; intros n st fs Hn; cbn [fold_left]; [reflexivity|].
  rewrite IH by (intros H; apply Hn; right; exact H).
  apply fut_get_resolve_other. intros ->. apply Hn; left; reflexivity.
Qed.

(* Stop(true): nothing is left pending *)
Lemma stop_clear_none s :
  inv_pend s -> ap s = ANone -> sp s = SIdle ->
  forall m st, fut_get m (futs (stop_clear s)) = Some st -> st <> FPending.
Proof.
  intros P Hap Hsp m st Hg Hst. subst st. cbn in Hg.
  pose proof Hg as Hg0.
  apply fut_resolve_all_cases in Hg. destruct Hg as [Hg|(_ & Hy & _)]; [|discriminate].
  apply fut_resolve_all_cases in Hg. destruct Hg as [Hg|(_ & Hy & _)]; [|discriminate].
  destruct (P m Hg) as [H|[]]. unfold holders in H. rewrite Hap, Hsp in H. cbn in H. rewrite in_app_iff in H.
  destruct (in_dec N.eq_dec m (store_cmds (store s))) as [Hin|Hnin].
  - rewrite (fut_resolve_all_stable (map fst (queue s)) m (FCancelled CStopClear) _ (FCancelled CStopClear)) in Hg0; [discriminate| |discriminate].
    apply fut_resolve_all_in; auto. discriminate.
  - destruct H as [H|H]; [|contradiction].
    rewrite (fut_resolve_all_in (map fst (queue s)) m (FCancelled CStopClear)) in Hg0; [discriminate|discriminate|exact H|].
    rewrite fut_resolve_all_notin; auto.
Qed.

Lemma inv_pend_stop_clear s : inv_pend s -> ap s = ANone -> sp s = SIdle -> inv_pend (stop_clear s).
Proof.
  intros P Ha Hs m Hm. exfalso. exact (stop_clear_none s P Ha Hs m FPending Hm eq_refl).
Qed.

(* the dispatcher reports the failed send of command n *)
Lemma px_failing_done s n k st x :
  sp s = SDispFailing n k -> st <> FPending -> (forall a b, x <> SDispFailing a b) ->
  inv_pend s -> inv_pend (set_sp (set_futs s (fut_resolve n st (futs s))) x).
Proof.
  intros Hsp Hst Hx P m Hm. unfold pending in Hm; cbn in Hm. pose proof Hm as Hm0.
  apply fut_resolve_cases in Hm. destruct Hm as [Hm|(_ & Hy & _)]; [|congruence].
  assert (Hne : m <> n).
  { intros ->. rewrite fut_get_resolve_same, Hm in Hm0. destruct st; congruence. }
  left. destruct (P m Hm) as [H|[]]. unfold holders in *; cbn. rewrite Hsp in H. rewrite !in_app_iff in *.
  destruct H as [H|[H|[H|H]]]; auto.
  destruct H as [->|[]]. contradiction Hne; reflexivity.
Qed.

(* QueueTimeout: the blocked caller cancels its own future *)
Lemma px_qtimeout s n b :
  ap s = ACmd n b true -> inv_pend s ->
  inv_pend (set_ap (set_futs s (fut_resolve n (FCancelled CQueueTimeout) (futs s))) ANone).
Proof.
  intros Hap P m Hm. unfold pending in Hm; cbn in Hm. pose proof Hm as Hm0.
  apply fut_resolve_cases in Hm. destruct Hm as [Hm|(_ & Hy & _)]; [|congruence].
  assert (Hne : m <> n).
  { intros ->. rewrite fut_get_resolve_same, Hm in Hm0. congruence. }
  left. destruct (P m Hm) as [H|[]]. unfold holders in *; cbn. rewrite Hap in H. rewrite !in_app_iff in *.
  destruct H as [H|H]; [|exact H]. destruct H as [->|[]]. contradiction Hne; reflexivity.
Qed.

(* a new command: its future is pending and held by the caller or the queue *)
Lemma px_call s b s1 :
  ap s = ANone -> inv_pend s ->
  s1 = St (cap s) (started s) (dying s) (kill s) (protected s) (sp s) (ACmd (nextn s) b true) (subs s) (queue s) (store s)
          (futs s ++ [(nextn s, FPending)]) (nextn s + 1)
          (issued s) (itags s) (dispatched s) (dtags s) (drained s) (resubs s) (ready s) (gen s) ->
  inv_pend s1 /\ inv_pend (enqueue s1 (nextn s) b).
Proof.
  intros Hap P ->. split; intros m Hm; left; unfold pending in Hm; cbn in Hm; rewrite fut_get_app in Hm;
    unfold holders; cbn; rewrite ?map_app, !in_app_iff; cbn.
  - destruct (fut_get m (futs s)) as [x|] eqn:E.
    + injection Hm as ->. destruct (P m E) as [H|[]]. unfold holders in H. rewrite Hap in H. cbn in H. rewrite !in_app_iff in H. tauto.
    + destruct (nextn s =? m) eqn:En; [|discriminate]. apply N.eqb_eq in En. left; exact En.
  - destruct (fut_get m (futs s)) as [x|] eqn:E.
    + injection Hm as ->. destruct (P m E) as [H|[]]. unfold holders in H. rewrite Hap in H. cbn in H. rewrite !in_app_iff in H. tauto.
    + destruct (nextn s =? m) eqn:En; [|discriminate]. apply N.eqb_eq in En. tauto.
Qed.

Lemma holders_set_sp X y m :
  (forall a b, sp X <> SDispFailing a b) -> (forall a b, y <> SDispFailing a b) ->
  In m (holders X) -> In m (holders (set_sp X y)).
Proof.
  intros H1 H2. unfold holders; cbn. rewrite !in_app_iff. intros [H|[H|[H|H]]]; auto.
  destruct (sp X) eqn:E; try (destruct H; fail). exfalso. eapply H1; reflexivity.
Qed.

Ltac holders_frame s :=
  apply (px_frame [] s); [reflexivity| |assumption];
  unfold holders; cbn; rw_ctl; cbn; intros m; rewrite ?in_app_iff; cbn; tauto.

Lemma inv_pend_step s e s' : inv_ctl s -> inv_pend s -> step s e = Some s' -> inv_pend s'.
Proof.
  intros C P H. pose proof (ic_store s C) as Hnd. destruct e; step_inv H.
  all: try assumption.
  all: try (holders_frame s).
  (* acknowledgements *)
  all: try (apply px_ack; auto; discriminate).
  all: try (apply px_del_other; auto; intros m; match goal with E : store_get _ _ = _ |- _ => rewrite E end; discriminate).
  all: try (apply (px_frame [] (set_store s (store_del id (store s)))); [reflexivity| |
            apply px_del_other; auto; intros m; match goal with E : store_get _ _ = _ |- _ => rewrite E end; discriminate];
            unfold holders; cbn; rw_ctl; cbn; intros m; rewrite ?in_app_iff; cbn; tauto).
  (* dispatcher *)
  all: try (eapply px_failing_done; eauto; discriminate).
  all: try (apply px_put_cmd; [rewrite pop_store; exact Hnd|apply px_pop; auto]).
  all: try (apply px_failing; [cbn; rewrite pop_sp; assumption| apply px_put; [rewrite pop_store; exact Hnd|apply px_pop; auto]]).
  all: try (apply px_qtimeout with (b := b); auto).
  (* Stop returned *)
  all: try (match goal with |- context [if ?c then _ else _] => destruct c end;
            [ apply inv_pend_stop_clear; [holders_frame s|reflexivity|reflexivity] | holders_frame s ]).
  (* a command is issued *)
  all: try (match goal with Ea : ap ?s0 = ANone, P0 : inv_pend ?s0 |- _ => exact (proj2 (px_call s0 _ _ Ea P0 eq_refl)) end).
  all: try (match goal with Ea : ap ?s0 = ANone, P0 : inv_pend ?s0 |- _ => exact (proj1 (px_call s0 _ _ Ea P0 eq_refl)) end).
  (* resubscribe request *)
  all: try (match goal with |- inv_pend (set_sp (put_entry ?X ?i ?en) ?y) =>
            apply (px_frame [] (put_entry X i en)); [reflexivity| |apply px_put; [exact Hnd|holders_frame s]];
            intros m; apply holders_set_sp; cbn; discriminate end).
  (* QoS 0 publish: stored, sent, completed, removed *)
  all: try (match goal with |- inv_pend (set_store (set_futs ?S2 ?F) _) =>
            apply (px_del [] (set_futs S2 F) id);
            [ cbn; apply store_put_keys; rewrite pop_store; exact Hnd
            | cbn; intros m; rewrite store_get_put, N.eqb_refl; discriminate
            | apply px_resolve; [discriminate| apply px_put; [rewrite pop_store; exact Hnd|apply px_pop; auto]] ] end).
  (* the client call failed without sending *)
  all: try (match goal with |- inv_pend (set_sp ?X ?y) =>
            apply (px_frame [] X); [reflexivity| |apply px_resolve; [discriminate|apply px_pop; auto]];
            intros m; apply holders_set_sp; cbn; [rewrite pop_sp; rw_ctl; discriminate|discriminate] end).
Qed.
