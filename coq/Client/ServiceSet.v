(* ServiceSet.v — the resubscribe request, characterised independently of the code's
   structure: `spec_resub bs` (what the model sends) is strictly sorted by topic (Go's
   string order) and holds exactly the topics subscribed after the command history bs,
   each with the qos of its last subscription (ServiceSpec.is_resub_of). *)
From Coq Require Import List NArith Bool Lia Sorted.
From Coq.Strings Require Import Byte.
From GM Require Import Codec.Packet Codec.PacketEqb Client.Service Client.ServiceSpec Client.ServiceLemmas.
Import ListNotations.
Open Scope N_scope.

(* ---------------------------------------------------------------- equality tests *)

Lemma bytes_eqb_neq a b : a <> b -> bytes_eqb a b = false.
Proof. intros H. destruct (bytes_eqb a b) eqn:E; [|reflexivity]. apply bytes_eqb_eq in E. contradiction. Qed.

Lemma sub_eqb_eq x y : sub_eqb x y = true -> x = y.
Proof. apply PacketEqb.sub_eqb_eq. Qed.

Lemma subs_eqb_eq l l' : list_eqb sub_eqb l l' = true -> l = l'.
Proof. apply list_eqb_eq. exact sub_eqb_eq. Qed.

(* ---------------------------------------------------------------- Go's string order *)

Lemma to_N_inj x y : Byte.to_N x = Byte.to_N y -> x = y.
Proof.
  intros H. pose proof (Byte.of_to_N x) as Hx. pose proof (Byte.of_to_N y) as Hy. rewrite H in Hx. congruence.
Qed.

Lemma leb_refl a : bytes_leb a a = true.
Proof. induction a as [|x a IH]; cbn; [reflexivity|]. rewrite N.ltb_irrefl. exact IH. Qed.

Lemma leb_total a : forall b, bytes_leb a b = true \/ bytes_leb b a = true.
Proof.
  induction a as [|x a IH]; intros [|y b]; cbn; auto.
  destruct (N.ltb_spec (Byte.to_N x) (Byte.to_N y)); auto.
  destruct (N.ltb_spec (Byte.to_N y) (Byte.to_N x)); auto.
Qed.

Lemma leb_antisym a : forall b, bytes_leb a b = true -> bytes_leb b a = true -> a = b.
Proof.
  induction a as [|x a IH]; intros [|y b]; cbn; intros H1 H2; try discriminate; [reflexivity|].
  destruct (N.ltb_spec (Byte.to_N x) (Byte.to_N y)) as [Hxy|Hxy];
  destruct (N.ltb_spec (Byte.to_N y) (Byte.to_N x)) as [Hyx|Hyx]; try discriminate; try lia.
  assert (x = y) by (apply to_N_inj; lia). subst. f_equal. auto.
Qed.

Lemma leb_trans a : forall b c, bytes_leb a b = true -> bytes_leb b c = true -> bytes_leb a c = true.
Proof.
  induction a as [|x a IH]; intros [|y b] [|z c]; cbn; intros H1 H2; try discriminate; try reflexivity.
  destruct (N.ltb_spec (Byte.to_N x) (Byte.to_N y)) as [Hxy|Hxy];
  destruct (N.ltb_spec (Byte.to_N y) (Byte.to_N x)) as [Hyx|Hyx];
  destruct (N.ltb_spec (Byte.to_N y) (Byte.to_N z)) as [Hyz|Hyz];
  destruct (N.ltb_spec (Byte.to_N z) (Byte.to_N y)) as [Hzy|Hzy];
  destruct (N.ltb_spec (Byte.to_N x) (Byte.to_N z)) as [Hxz|Hxz];
  destruct (N.ltb_spec (Byte.to_N z) (Byte.to_N x)) as [Hzx|Hzx];
  try discriminate; try reflexivity; try lia.
  eapply IH; eauto.
Qed.

Lemma ltb_intro a b : bytes_leb a b = true -> a <> b -> bytes_ltb a b = true.
Proof. intros H1 H2. unfold bytes_ltb. rewrite H1, (bytes_eqb_neq a b H2). reflexivity. Qed.

Lemma ltb_elim a b : bytes_ltb a b = true -> bytes_leb a b = true /\ a <> b.
Proof.
  unfold bytes_ltb. intros H. apply andb_true_iff in H. destruct H as [H1 H2]. split; [exact H1|].
  intros ->. rewrite bytes_eqb_refl in H2. discriminate.
Qed.

Lemma ltb_trans a b c : bytes_ltb a b = true -> bytes_ltb b c = true -> bytes_ltb a c = true.
Proof.
  intros H1 H2. apply ltb_elim in H1. apply ltb_elim in H2. destruct H1 as [H1 N1], H2 as [H2 N2].
  apply ltb_intro; [eapply leb_trans; eauto|]. intros ->. apply N1. apply leb_antisym; auto.
Qed.

(* ---------------------------------------------------------------- the map *)

Definition smap_get (t : topic) (m : smap) : option N := aget bytes_eqb t m.

Definition keys (m : smap) : list topic := map fst m.

Lemma bytes_eqb_iff a b : bytes_eqb a b = true <-> a = b.
Proof. split; [apply bytes_eqb_eq|intros ->; apply bytes_eqb_refl]. Qed.

Lemma del_nodup t m : NoDup (keys m) -> NoDup (keys (smap_del t m)) /\ ~ In t (keys (smap_del t m)).
Proof. exact (adel_keys bytes_eqb bytes_eqb_iff t m). Qed.

Lemma get_del t t' m : smap_get t (smap_del t' m) = if bytes_eqb t' t then None else smap_get t m.
Proof. exact (aget_adel bytes_eqb bytes_eqb_iff t t' m). Qed.

Lemma get_set t t' q m : smap_get t (smap_set t' q m) = if bytes_eqb t' t then Some q else smap_get t m.
Proof.
  change (smap_get t (smap_set t' q m)) with (if bytes_eqb t' t then Some q else smap_get t (smap_del t' m)).
  rewrite get_del. destruct (bytes_eqb t' t); reflexivity.
Qed.

Lemma set_nodup t q m : NoDup (keys m) -> NoDup (keys (smap_set t q m)).
Proof. intros H. unfold smap_set. cbn [keys map fst]. destruct (del_nodup t m H). constructor; auto. Qed.

Lemma get_in t q m : NoDup (keys m) -> (In (t, q) m <-> smap_get t m = Some q).
Proof. intros H. split; [apply (in_aget bytes_eqb bytes_eqb_iff), H|apply (aget_in bytes_eqb bytes_eqb_iff)]. Qed.

(* the code's map and the specification's lookup agree, command by command *)
Lemma apply_body_spec t b : forall m,
  NoDup (keys m) ->
  NoDup (keys (apply_body b m)) /\ smap_get t (apply_body b m) = upd_body t (smap_get t m) b.
Proof.
  destruct b as [l|ts|msg]; unfold apply_body; cbn [upd_body].
  - induction l as [|[k q] l IH]; intros m Hnd; cbn [fold_left fst snd]; [auto|].
    specialize (IH (smap_set k q m) (set_nodup k q m Hnd)). destruct IH as [IH1 IH2].
    split; [exact IH1|]. rewrite IH2, get_set. reflexivity.
  - induction ts as [|k ts IH]; intros m Hnd; cbn [fold_left]; [auto|].
    specialize (IH (smap_del k m) (proj1 (del_nodup k m Hnd))). destruct IH as [IH1 IH2].
    split; [exact IH1|]. rewrite IH2, get_del. reflexivity.
  - auto.
Qed.

Lemma fold_apply_spec t bs : forall m,
  NoDup (keys m) ->
  NoDup (keys (fold_left (fun m b => apply_body b m) bs m)) /\
  smap_get t (fold_left (fun m b => apply_body b m) bs m) = fold_left (upd_body t) bs (smap_get t m).
Proof.
  induction bs as [|b bs IH]; intros m Hnd; cbn [fold_left]; [auto|].
  destruct (apply_body_spec t b m Hnd) as [H1 H2].
  specialize (IH (apply_body b m) H1). destruct IH as [IH1 IH2]. split; [exact IH1|]. rewrite IH2, H2. reflexivity.
Qed.

(* ---------------------------------------------------------------- All (dedup) and sort *)

Lemma dedup_id m : NoDup (keys m) -> dedup m = m.
Proof.
  induction m as [|[k q] m IH]; intros Hnd; cbn [dedup]; [reflexivity|].
  cbn [keys map fst] in Hnd. inversion Hnd as [|? ? Hni Hnd']; subst.
  destruct (existsb (sub_eqb (k, q)) m) eqn:E.
  - exfalso. apply existsb_exists in E. destruct E as (y & Hy & He). apply sub_eqb_eq in He. subst y.
    apply Hni. apply in_map_iff. exists (k, q); auto.
  - f_equal. auto.
Qed.

Lemma in_insert x y l : In y (insert_sub x l) <-> y = x \/ In y l.
Proof.
  induction l as [|z l IH]; cbn [insert_sub].
  - cbn. intuition.
  - destruct (bytes_leb (fst x) (fst z)); cbn [In]; [intuition|]. rewrite IH. intuition.
Qed.

Lemma in_sort y l : In y (sort_subs l) <-> In y l.
Proof.
  induction l as [|x l IH]; cbn [sort_subs]; [reflexivity|]. rewrite in_insert, IH. cbn. intuition.
Qed.

Lemma insert_sorted x l :
  StronglySorted sub_lt l -> ~ In (fst x) (keys l) -> StronglySorted sub_lt (insert_sub x l).
Proof.
  induction 1 as [|z l Hs IH Hz]; intros Hni; cbn [insert_sub].
  - constructor; constructor.
  - cbn [keys map] in Hni.
    assert (Hne : fst x <> fst z) by (intros E; apply Hni; left; symmetry; exact E).
    assert (Hni' : ~ In (fst x) (keys l)) by (intros H; apply Hni; right; exact H).
    destruct (bytes_leb (fst x) (fst z)) eqn:E.
    + assert (Hxz : sub_lt x z) by (apply ltb_intro; auto).
      constructor; [constructor; auto|]. constructor; [exact Hxz|].
      eapply Forall_impl; [|exact Hz]. intros w Hw. unfold sub_lt in *. eapply ltb_trans; eauto.
    + assert (Hzx : sub_lt z x).
      { apply ltb_intro; [|auto]. destruct (leb_total (fst x) (fst z)) as [H|H]; [congruence|exact H]. }
      constructor; [apply IH; exact Hni'|].
      apply Forall_forall. intros w Hw. apply in_insert in Hw. destruct Hw as [->|Hw]; [exact Hzx|].
      rewrite Forall_forall in Hz. auto.
Qed.

Lemma sort_sorted l : NoDup (keys l) -> StronglySorted sub_lt (sort_subs l).
Proof.
  induction l as [|x l IH]; intros Hnd; cbn [sort_subs]; [constructor|].
  cbn [keys map] in Hnd. inversion Hnd as [|? ? Hni Hnd']; subst.
  apply insert_sorted; [apply IH; exact Hnd'|]. intros Hin. apply Hni.
  apply in_map_iff in Hin. destruct Hin as (y & Hy & Hin). apply (proj1 (in_sort y l)) in Hin.
  apply in_map_iff. exists y; auto.
Qed.

(* ---------------------------------------------------------------- the characterisation *)

Theorem spec_resub_is_resub bs : is_resub_of bs (spec_resub bs).
Proof.
  unfold is_resub_of, spec_resub, sub_lookup.
  assert (Hnd0 : NoDup (keys [])) by constructor.
  split.
  - destruct (fold_apply_spec [] bs [] Hnd0) as [Hnd _]. rewrite dedup_id by exact Hnd. apply sort_sorted; exact Hnd.
  - intros t q. destruct (fold_apply_spec t bs [] Hnd0) as [Hnd Hg]. rewrite dedup_id by exact Hnd.
    rewrite in_sort, (get_in t q _ Hnd), Hg. reflexivity.
Qed.

(* a strictly sorted list is determined by its elements: is_resub_of has at most one solution *)
Lemma sorted_unique l : forall l',
  StronglySorted sub_lt l -> StronglySorted sub_lt l' -> (forall x, In x l <-> In x l') -> l = l'.
Proof.
  assert (Hirr : forall x, ~ sub_lt x x).
  { intros x H. apply ltb_elim in H. destruct H as [_ H]. apply H; reflexivity. }
  assert (Hasym : forall x y, sub_lt x y -> sub_lt y x -> False).
  { intros x y H1 H2. apply (Hirr x). unfold sub_lt in *. eapply ltb_trans; eauto. }
  induction l as [|x l IH]; intros [|y l'] Hs Hs' Heq.
  - reflexivity.
  - exfalso. apply (Heq y). left; reflexivity.
  - exfalso. apply (Heq x). left; reflexivity.
  - inversion Hs as [|? ? Hs1 Hf1]; subst. inversion Hs' as [|? ? Hs2 Hf2]; subst.
    rewrite Forall_forall in Hf1, Hf2.
    assert (x = y).
    { destruct (proj1 (Heq x) (or_introl eq_refl)) as [->|Hx]; [reflexivity|].
      destruct (proj2 (Heq y) (or_introl eq_refl)) as [->|Hy]; [reflexivity|].
      exfalso. exact (Hasym x y (Hf1 y Hy) (Hf2 x Hx)). }
    subst y. f_equal. apply IH; auto.
    intros z. split; intros Hz.
    + destruct (proj1 (Heq z) (or_intror Hz)) as [<-|H]; [|exact H]. exfalso. exact (Hirr x (Hf1 x Hz)).
    + destruct (proj2 (Heq z) (or_intror Hz)) as [<-|H]; [|exact H]. exfalso. exact (Hirr x (Hf2 x Hz)).
Qed.

Theorem is_resub_unique bs r r' : is_resub_of bs r -> is_resub_of bs r' -> r = r'.
Proof.
  intros [H1 H2] [H1' H2']. apply sorted_unique; auto.
  intros [t q]. rewrite H2, H2'. reflexivity.
Qed.

(* ---------------------------------------------------------------- the extracted predicates reflect the specification *)

Lemma sub_eqb_refl x : sub_eqb x x = true.
Proof. destruct x as [t q]. unfold sub_eqb; cbn. rewrite bytes_eqb_refl, N.eqb_refl. reflexivity. Qed.

Lemma subs_eqb_refl l : list_eqb sub_eqb l l = true.
Proof. apply list_eqb_refl. exact sub_eqb_refl. Qed.

(* resub_ok (run by the model runner on the observed requests) decides is_resub_of *)
Theorem resub_ok_iff bs r : resub_ok bs r = true <-> is_resub_of bs r.
Proof.
  unfold resub_ok. split.
  - intros H. apply subs_eqb_eq in H. subst r. apply spec_resub_is_resub.
  - intros H. rewrite (is_resub_unique bs r (spec_resub bs) H (spec_resub_is_resub bs)). apply subs_eqb_refl.
Qed.

Lemma body_eqb_eq b b' : body_eqb b b' = true -> b = b'.
Proof.
  destruct b, b'; cbn; intros H; try discriminate.
  - apply subs_eqb_eq in H. subst; reflexivity.
  - apply (list_eqb_eq _ bytes_eqb_eq) in H. subst; reflexivity.
  - apply message_eqb_eq in H. subst; reflexivity.
Qed.

(* fifo_ok (run on the requests the peers saw) is sound for "a subsequence of the commands in issue order" *)
Theorem fifo_ok_sound : forall issued seen, fifo_ok seen issued = true -> Subseq seen issued.
Proof.
  unfold fifo_ok. induction issued as [|y l2 IH]; intros [|x l1] H; cbn in H; try discriminate.
  - apply SubNil.
  - apply SubSkip. apply IH. destruct l2; reflexivity.
  - destruct (body_eqb x y) eqn:E.
    + apply body_eqb_eq in E. subst y. apply SubKeep. apply IH. exact H.
    + apply SubSkip. apply IH. exact H.
Qed.
