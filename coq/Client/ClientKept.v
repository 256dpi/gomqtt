(* ClientKept.v — Session.Reset is only called for a clean session, and no die body or pinger exists before
   the processor does (InvCl); C09_kept_until_acked. *)
From Coq Require Import List NArith Bool Lia.
From GM Require Import Base.Lts Codec.Packet Session.Ids Session.Store Session.StoreProofs
  Client.Future Client.Client Client.ClientSpec
  Client.ClientTactics Client.AMap Codec.PacketEqb Client.ClientInvCtl Client.ClientInvOwed Client.ClientInvWf Client.ClientInvRx.
Import ListNotations.
Open Scope N_scope.

(* Session.Reset is only ever called with clean session on *)
Definition InvCl (s : st) : Prop :=
  match k_api (k s) with
  | Some (_, AConnReset) | Some (_, ACu CU4 _ _ _ _) => cf_clean (k_cfg (k s)) = true
  | _ => True
  end /\
  match k_dpc (k s) with
  | DCu CU4 _ _ => cf_clean (k_cfg (k s)) = true
  | _ => True
  end /\
  (k_ppc (k s) = PNone -> k_dpc (k s) = DNone /\ k_kpc (k s) = KNone).

Lemma InvCl_init : InvCl init.
Proof. split; [exact I|split; [exact I|intros _; split; reflexivity]]. Qed.

Definition cl_inv (a : option (N * apc)) (cfg : config) (d : dpc) (p : ppc) (kp : kpc) : Prop :=
  match a with
  | Some (_, AConnReset) | Some (_, ACu CU4 _ _ _ _) => cf_clean cfg = true
  | _ => True
  end /\
  match d with
  | DCu CU4 _ _ => cf_clean cfg = true
  | _ => True
  end /\
  (p = PNone -> d = DNone /\ kp = KNone).
Ltac cl_fields := lazymatch goal with |- InvCl ?x =>
  change (cl_inv (k_api (k x)) (k_cfg (k x)) (k_dpc (k x)) (k_ppc (k x)) (k_kpc (k x))) end.


(* Session.Reset is stage 4 of the cleanup, entered only with clean session on *)
Lemma cu_after_reset cu cc cl cu' : cu_after cu cc cl = Some cu' ->
  match cu' with CU4 => cl = true | _ => True end.
Proof. destruct cu, cc, cl; cbn; intros E; first [discriminate E | injection E as <-; first [exact I | reflexivity]]. Qed.

Lemma InvCl_step s e s' : InvOwed s -> InvCl s -> step s e = Some s' -> InvCl s'.
Proof.
  intros HO (L1 & L2 & L3) H. pose proof (InvOwed_after _ HO) as HA. unfold InvAfter in HA. clear HO.
  destruct e.
  all: step_cases H.
  all: cl_fields; open_ctl; know_pts.
  all: split; [|split].
  (* the API call *)
  all: try solve [first [exact L1 | exact I
       | match goal with E : cu_after _ _ _ = Some ?c |- _ => apply cu_after_reset in E; destruct c; first [exact I | exact E] end]].
  (* the die body *)
  all: try solve [first [exact L2 | exact I
       | match goal with E : cu_after _ _ _ = Some ?c |- _ => apply cu_after_reset in E; destruct c; first [exact I | exact E] end]].
  (* nothing runs before a processor is started *)
  all: try solve [first [exact L3 | discriminate
       | intros X; destruct (L3 X) as [Y1 Y2]; first [discriminate Y1 | discriminate Y2]
       | intros X; rewrite X in HA; contradiction ]].
  (* ENew *)
  all: try solve [intros _; split; reflexivity].
  (* the dial succeeded: Session.Reset follows if clean session is on *)
  all: try assumption.
  all: try solve [match goal with E : cf_clean _ = _ |- _ => rewrite E; exact L2 end].
  (* Connect takes the configuration: no die body exists yet *)
  all: match goal with E : k_ppc _ = PNone |- _ => destruct (L3 E) as [-> _]; exact I end.
Qed.


Lemma InvCl_reach es s : run step init es = Some s -> InvCl s.
Proof. exact (reach_inv_rel _ _ InvOwed_reach InvCl_init InvCl_step es s). Qed.

Lemma lookup_setdup st q id p : store_lookup st id = Some p ->
  store_lookup (store_setdup st q) id = Some p \/ store_lookup (store_setdup st q) id = Some (set_dup p).
Proof.
  intros Hl. unfold store_setdup. destruct q; try (left; exact Hl).
  destruct (store_lookup st id0) as [[]|] eqn:E; try (left; exact Hl).
  rewrite lookup_put. destruct (N.eqb_spec id id0) as [->|]; [|left; exact Hl].
  rewrite E in Hl. injection Hl as <-. right. reflexivity.
Qed.

Lemma is_ack_for_of p id : is_ackp p = true -> get_id p = Some id -> is_ack_for id p = true.
Proof. destruct p; cbn; intros H1 H2; try discriminate; injection H2 as ->; apply N.eqb_refl. Qed.

Lemma option_N_eqb_eq a b : option_eqb N.eqb a b = true -> a = b.
Proof. apply option_eqb_eq. intros x y; apply N.eqb_eq. Qed.

Lemma req_packet_id rq id : get_id (req_packet rq id) = Some id.
Proof. destruct rq; reflexivity. Qed.

Theorem kept_until_acked : C09_kept_until_acked_statement.
Proof.
  intros es s e s' Hr H id p Hl.
  destruct (InvWf_reach _ _ Hr) as (_ & W2 & _). pose proof (InvRx_reach _ _ Hr) as R.
  destruct (InvCl_reach _ _ Hr) as (L1 & L2 & _).
  destruct e.
  (* the goal speaks of the successor only through its outgoing store *)
  all: pattern (s_out (sess s')); match goal with |- ?K _ => set (Kp := K) end.
  all: step_cases H; open_ctl.
  all: try solve [left; exact Hl].
  all: subst Kp; cbv beta.
  all: repeat match goal with E : (?a =? ?b) = true |- _ => apply N.eqb_eq in E; subst end.
  (* the resend loop sets DUP on the stored packet *)
  all: try solve [match goal with |- context [store_setdup _ ?q] =>
                    destruct (lookup_setdup _ q _ _ Hl) as [X|X]; [left; exact X|right; left; exact X] end].
  (* Session.Reset *)
  all: try solve [do 4 right; left; eexists; split; [reflexivity|];
                  first [ exact L1 | exact L2
                        | match goal with E : k_api (k _) = _ |- _ => rewrite E in L1; exact L1 end
                        | match goal with E : k_dpc (k _) = _ |- _ => rewrite E in L2; exact L2 end ]].
  (* PUBREC: the PUBREL replaces the PUBLISH *)
  all: try solve [match goal with E : k_ppc (k _) = PRecSave ?i |- _ =>
                    unfold store_save; cbn [get_id]; rewrite lookup_put;
                    destruct (N.eqb_spec id i) as [->|];
                    [ do 3 right; left; split; [reflexivity|split; [reflexivity|]];
                      unfold InvRx in R; rewrite E in R; exact R
                    | left; exact Hl ] end].
  (* an acknowledgement removes the entry *)
  all: try solve [match goal with E : k_ppc (k _) = PAckDel ?q, E' : option_eqb N.eqb (get_id ?q) (Some ?i) = true |- _ =>
                    apply option_N_eqb_eq in E';
                    rewrite lookup_delete by exact W2;
                    destruct (N.eqb_spec id i) as [->|];
                    [ do 2 right; left; split; [reflexivity|split; [reflexivity|]];
                      unfold InvRx in R; rewrite E in R; destruct R as [[rest Hrx] Hack];
                      exists q, rest; split; [exact Hrx|split; [apply is_ack_for_of; assumption|exact E]]
                    | left; exact Hl ] end].
  (* a new request is saved under the id *)
  all: try solve [match goal with E : k_api (k _) = Some (?c, AReqSave ?rq ?i), E' : packet_eqb ?p0 (req_packet ?rq ?i) = true |- _ =>
                    apply packet_eqb_eq in E'; rewrite E'; unfold store_save; rewrite req_packet_id, lookup_put;
                    destruct (N.eqb_spec id i) as [->|];
                    [ do 5 right; exists c, rq; split; [first [exact E|reflexivity]|reflexivity]
                    | left; exact Hl ] end].
  all: try solve [left; match goal with F : sess _ = sess _ |- _ => rewrite F end; exact Hl].
Qed.

