(* ServiceTags.v — a command queued while offline is dispatched only after a later successful
   connect + resubscribe: invariant over the issue / dispatch tags of the ghost history. *)
From Coq Require Import List NArith Bool Lia Sorted.
From GM Require Import Base.Lts Codec.Packet Client.Service Client.ServiceSpec Client.ServiceLemmas Client.ServiceProofs.
Import ListNotations.
Open Scope N_scope.

(* ---------------------------------------------------------------- offline commands wait for a connection *)

Record inv_tags (s : state) : Prop := {
  it_issue  : forall n t, In (n, t) (itags s) ->
              i_ready t <= ready s /\ (i_online t = false -> online_now s = true -> i_ready t < ready s);
  it_online : online_now s = true -> 1 <= ready s;
  it_disp   : forall n r, In (n, r) (dtags s) ->
              1 <= r /\ r <= ready s /\
              forall t, In (n, t) (itags s) -> i_ready t <= r /\ (i_online t = false -> i_ready t < r)
}.

Lemma inv_tags_init c : inv_tags (init c).
Proof. constructor; cbn; try tauto; discriminate. Qed.

Lemma tags_frame s s' :
  itags s' = itags s -> dtags s' = dtags s -> ready s' = ready s ->
  (online_now s' = true -> online_now s = true) ->
  inv_tags s -> inv_tags s'.
Proof.
  intros Hi Hd Hr Ho [J1 J2 J3]. constructor; rewrite ?Hi, ?Hd, ?Hr.
  - intros n t Hin. destruct (J1 n t Hin) as [Ha Hb]. split; auto.
  - auto.
  - exact J3.
Qed.

Lemma tags_enter s : inv_tags s -> inv_tags (enter_dispatch s).
Proof.
  intros [J1 J2 J3]. constructor; cbn.
  - intros n t Hin. destruct (J1 n t Hin) as [Ha Hb]. split; intros; lia.
  - intros _. lia.
  - intros n r Hin. destruct (J3 n r Hin) as (Ha & Hb & Hc). split; [exact Ha|]. split; [lia|exact Hc].
Qed.

Lemma disp_in_issued s n : inv_fifo s -> In n (map fst (dtags s)) -> In n (map fst (issued s)).
Proof.
  intros I Hin. rewrite (if_dtags s I) in Hin.
  apply in_map_iff in Hin. destruct Hin as ([m b] & Hm & Hin). cbn in Hm; subst m.
  apply in_map_iff. exists (n, b). split; [reflexivity|].
  eapply Subseq_in; [exact (if_sub s I)|]. apply in_or_app; left; exact Hin.
Qed.

Lemma queue_in_issued s n b : inv_fifo s -> In (n, b) (queue s) -> In n (map fst (issued s)).
Proof.
  intros I Hin. apply in_map_iff. exists (n, b). split; [reflexivity|].
  eapply Subseq_in; [exact (if_sub s I)|]. apply in_or_app; right; exact Hin.
Qed.

(* a new issue tag for a number that is not yet issued *)
Lemma tags_enqueue' s n b :
  ~ In n (map fst (issued s)) ->
  (forall k, In k (map fst (dtags s)) -> In k (map fst (issued s))) ->
  inv_tags s -> inv_tags (enqueue s n b).
Proof.
  intros Hfresh Hdi [J1 J2 J3]. constructor; cbn.
  - intros m t Hin. apply in_app_or in Hin. destruct Hin as [Hin|[Heq|[]]].
    + exact (J1 m t Hin).
    + injection Heq as <- <-. cbn. split; [lia|]. intros H1 H2. change (online_now s = true) in H2. congruence.
  - exact J2.
  - intros m r Hin. destruct (J3 m r Hin) as (Ha & Hb & Hc). split; [exact Ha|]. split; [exact Hb|].
    intros t Hin'. apply in_app_or in Hin'. destruct Hin' as [Hin'|[Heq|[]]]; [auto|].
    injection Heq as <- <-. exfalso. apply Hfresh. apply Hdi.
    apply in_map_iff. exists (n, r); auto.
Qed.

Lemma tags_enqueue s n b :
  ~ In n (map fst (issued s)) -> inv_fifo s -> inv_tags s -> inv_tags (enqueue s n b).
Proof. intros Hfresh I. apply tags_enqueue'; [exact Hfresh|]. intros k. apply disp_in_issued, I. Qed.

Lemma online_now_enqueue s n b : online_now (enqueue s n b) = online_now s.
Proof. reflexivity. Qed.

Definition pop0 (s : state) (n : N) (b : body) (q : list cmd) : state :=
  St (cap s) (started s) (dying s) (kill s) (protected s) (sp s) (ap s) (apply_body b (subs s)) q (store s) (futs s) (nextn s)
     (issued s) (itags s) (dispatched s ++ [(n, b)]) (dtags s ++ [(n, ready s)]) (drained s) (resubs s)
     (ready s) (gen s).

Lemma pop_cmd_eq s n b q : pop_cmd s n b q = handover (pop0 s n b q).
Proof. reflexivity. Qed.

Lemma tags_pop0 s n b q :
  inv_tags s -> sp s = SDispatch -> inv_tags (pop0 s n b q).
Proof.
  intros [J1 J2 J3] Hsp.
  assert (Ho : online_now s = true) by (unfold online_now; rewrite Hsp; reflexivity).
  constructor; cbn.
  - exact J1.
  - exact J2.
  - intros m r Hin. apply in_app_or in Hin. destruct Hin as [Hin|[Heq|[]]]; [exact (J3 m r Hin)|].
    injection Heq as <- <-. split; [exact (J2 Ho)|]. split; [lia|].
    intros t Hin. destruct (J1 n t Hin) as [Ha Hb]. split; auto.
Qed.

Lemma tags_pop s n b q :
  inv_fifo s -> inv_tags s -> sp s = SDispatch -> queue s = (n, b) :: q -> inv_tags (pop_cmd s n b q).
Proof.
  intros I J Hsp Hq. rewrite pop_cmd_eq. pose proof (tags_pop0 s n b q J Hsp) as J0.
  unfold handover. cbn [ap pop0].
  destruct (ap s) as [| | |m b' [|]] eqn:Eap; try exact J0.
  apply tags_enqueue'; [| |exact J0]; cbn [issued dtags pop0].
  - pose proof (if_blk s I m b' Eap) as Hf. intros Hin. rewrite Forall_forall in Hf. specialize (Hf m Hin). lia.
  - intros k Hin. rewrite map_app in Hin. apply in_app_or in Hin. destruct Hin as [Hin|[<-|[]]].
    + apply disp_in_issued; auto.
    + cbn. apply (queue_in_issued s n b I). rewrite Hq. left; reflexivity.
Qed.

Lemma inv_tags_step s e s' : inv_fifo s -> inv_tags s -> step s e = Some s' -> inv_tags s'.
Proof.
  intros I J H. destruct e; step_inv H.
  all: try assumption.
  all: try (apply (tags_frame s); [reflexivity|reflexivity|reflexivity| |exact J];
            unfold online_now; cbn; rw_ctl; first [discriminate | tauto | intros; congruence]).
  (* Stop returned *)
  all: try (match goal with |- context [if ?c then _ else _] => destruct c end; apply (tags_frame s); [reflexivity|reflexivity|reflexivity| |exact J]; unfold online_now; cbn; intros; discriminate).
  (* a command enters the queue *)
  all: try (apply tags_enqueue'; cbn [issued dtags];
            [ pose proof (if_lt s I) as Hf; rewrite Forall_forall in Hf; intros Hin; specialize (Hf _ Hin); lia
            | intros k Hk; apply disp_in_issued; auto
            | apply (tags_frame s); [reflexivity|reflexivity|reflexivity|cbn; auto|exact J] ]).
  (* the dispatcher is entered *)
  all: try (apply tags_enter; first [exact J | apply (tags_frame s); [reflexivity|reflexivity|reflexivity|unfold online_now; cbn; rw_ctl; first [discriminate|tauto]|exact J]]).
  (* the dispatcher takes a command *)
  all: try (apply (tags_frame (pop_cmd s n b0 l)); [reflexivity|reflexivity|reflexivity| |apply tags_pop; auto];
            unfold online_now; cbn; first [discriminate | tauto | intros; congruence]).
  all: try (apply (tags_frame (pop_cmd s n b l)); [reflexivity|reflexivity|reflexivity| |apply tags_pop; auto];
            unfold online_now; cbn; first [discriminate | tauto | intros; congruence]).
  match goal with |- context [if ?c then _ else _] => destruct c end.
  - apply (tags_frame s); [reflexivity|reflexivity|reflexivity| |exact J]; unfold online_now; cbn; intros; discriminate.
  - apply (tags_frame s); [reflexivity|reflexivity|reflexivity| |exact J]; unfold online_now; cbn; intros; discriminate.
Qed.
