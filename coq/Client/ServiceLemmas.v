(* ServiceLemmas.v — list-level facts about the components of the service monitor's
   state (futures, store, subsequences) and the inversion tactic for `step`. *)
From Coq Require Import List NArith Bool Lia.
From GM Require Import Base.Lts Codec.Packet Client.Service Client.ServiceSpec.
Import ListNotations.
Open Scope N_scope.

(* ---------------------------------------------------------------- futures *)

Lemma fut_get_resolve n m st fs :
  fut_get n (fut_resolve m st fs) =
  if n =? m then match fut_get n fs with Some FPending => Some st | x => x end else fut_get n fs.
Proof.
  induction fs as [|[k old] fs IH]; cbn [fut_resolve fut_get].
  - destruct (n =? m); reflexivity.
  - destruct (k =? m) eqn:Ekm; cbn [fut_get].
    + apply N.eqb_eq in Ekm; subst k.
      destruct (m =? n) eqn:Emn.
      * apply N.eqb_eq in Emn; subst. rewrite N.eqb_refl. destruct old; reflexivity.
      * rewrite N.eqb_sym, Emn. reflexivity.
    + destruct (k =? n) eqn:Ekn.
      * apply N.eqb_eq in Ekn; subst k. rewrite Ekm. reflexivity.
      * exact IH.
Qed.

Lemma fut_get_resolve_other n m st fs : n <> m -> fut_get n (fut_resolve m st fs) = fut_get n fs.
Proof. intros H. rewrite fut_get_resolve. apply N.eqb_neq in H. rewrite H. reflexivity. Qed.

Lemma fut_get_resolve_same n st fs :
  fut_get n (fut_resolve n st fs) = match fut_get n fs with Some FPending => Some st | x => x end.
Proof. rewrite fut_get_resolve, N.eqb_refl. reflexivity. Qed.

(* what one Complete/Cancel can do to the status of future n *)
Lemma fut_resolve_cases n m st fs y :
  fut_get n (fut_resolve m st fs) = Some y ->
  fut_get n fs = Some y \/ (fut_get n fs = Some FPending /\ y = st /\ n = m).
Proof.
  rewrite fut_get_resolve. destruct (n =? m) eqn:E.
  - apply N.eqb_eq in E. destruct (fut_get n fs) as [[| |]|]; intros H; try (left; exact H).
    injection H as <-. right; auto.
  - auto.
Qed.

Lemma fut_resolve_none n m st fs : fut_get n fs = None -> fut_get n (fut_resolve m st fs) = None.
Proof. intros H. rewrite fut_get_resolve, H. destruct (n =? m); reflexivity. Qed.

Lemma fut_resolve_all_cases ns : forall n st fs y,
  fut_get n (fut_resolve_all ns st fs) = Some y ->
  fut_get n fs = Some y \/ (fut_get n fs = Some FPending /\ y = st /\ In n ns).
Proof.
  unfold fut_resolve_all.
  induction ns as [|m ns IH]; intros n st fs y H; cbn [fold_left] in H.
  - left; exact H.
  - apply IH in H. destruct H as [H|(H & -> & Hin)].
    + apply fut_resolve_cases in H. destruct H as [H|(H & -> & ->)]; [left; exact H|].
      right; repeat split; auto. left; reflexivity.
    + apply fut_resolve_cases in H. destruct H as [H|(H & Hy & ->)].
      * right; repeat split; auto. right; exact Hin.
      * right; repeat split; auto. left; reflexivity.
Qed.

Lemma fut_resolve_all_in ns : forall n st fs,
  st <> FPending -> In n ns -> fut_get n fs = Some FPending -> fut_get n (fut_resolve_all ns st fs) = Some st.
Proof.
  unfold fut_resolve_all.
  induction ns as [|m ns IH]; intros n st fs Hst Hin Hp; [destruct Hin|].
  cbn [fold_left].
  destruct (N.eq_dec m n) as [->|Hne].
  - assert (H1 : fut_get n (fut_resolve n st fs) = Some st) by (rewrite fut_get_resolve_same, Hp; reflexivity).
    clear IH Hin Hp. revert H1. generalize (fut_resolve n st fs). clear fs.
    induction ns as [|k ns IH]; intros fs H1; cbn [fold_left]; [exact H1|].
    apply IH. rewrite fut_get_resolve. destruct (n =? k); [|exact H1].
    rewrite H1. destruct st; reflexivity.
  - destruct Hin as [->|Hin]; [contradiction Hne; reflexivity|].
    apply IH; auto. rewrite fut_get_resolve_other; auto.
Qed.

Lemma fut_resolve_all_none ns : forall n st fs, fut_get n fs = None -> fut_get n (fut_resolve_all ns st fs) = None.
Proof.
  unfold fut_resolve_all. induction ns as [|m ns IH]; intros n st fs H; cbn [fold_left]; [exact H|].
  apply IH. apply fut_resolve_none; exact H.
Qed.

(* resolved futures never change: the `done` flag *)
Lemma fut_resolve_stable n m st fs x : fut_get n fs = Some x -> x <> FPending -> fut_get n (fut_resolve m st fs) = Some x.
Proof.
  intros H Hx. rewrite fut_get_resolve, H. destruct (n =? m); [|reflexivity].
  destruct x; try reflexivity. contradiction Hx; reflexivity.
Qed.

Lemma fut_resolve_all_stable ns : forall n st fs x,
  fut_get n fs = Some x -> x <> FPending -> fut_get n (fut_resolve_all ns st fs) = Some x.
Proof.
  unfold fut_resolve_all. induction ns as [|m ns IH]; intros n st fs x H Hx; cbn [fold_left]; [exact H|].
  apply IH; auto. apply fut_resolve_stable; auto.
Qed.

Lemma fut_get_app n fs k st :
  fut_get n (fs ++ [(k, st)]) = match fut_get n fs with Some x => Some x | None => if k =? n then Some st else None end.
Proof.
  induction fs as [|[k' o] fs IH]; cbn [app fut_get]; [reflexivity|].
  destruct (k' =? n); [reflexivity|exact IH].
Qed.

(* domain of the futures: exactly the numbers below nextn *)
Lemma fut_resolve_dom n m st fs : (fut_get n (fut_resolve m st fs) = None) <-> (fut_get n fs = None).
Proof.
  rewrite fut_get_resolve. destruct (n =? m); [|reflexivity].
  destruct (fut_get n fs) as [[| |]|]; split; intros H; try discriminate; auto.
Qed.

(* ---------------------------------------------------------------- association lists *)

(* the store (keys N) and the subscription map (keys topic) are association lists with a delete by
   filter and a put in front: lookup and delete over any decidable key *)
Section Assoc.
  Context {K V : Type} (eqb : K -> K -> bool) (eqb_eq : forall a b, eqb a b = true <-> a = b).
  Implicit Types (m : list (K * V)).

  Fixpoint aget (k : K) m : option V :=
    match m with [] => None | (k', v) :: m' => if eqb k' k then Some v else aget k m' end.
  Definition adel (k : K) m := filter (fun e => negb (eqb (fst e) k)) m.

  Lemma eqb_refl k : eqb k k = true.
  Proof. apply eqb_eq. reflexivity. Qed.
  Lemma eqb_neq a b : a <> b -> eqb a b = false.
  Proof. intros H. destruct (eqb a b) eqn:E; [apply eqb_eq in E; contradiction|reflexivity]. Qed.

  Lemma in_adel x k m : In x (adel k m) <-> In x m /\ fst x <> k.
  Proof.
    unfold adel. rewrite filter_In, negb_true_iff. split; intros [H1 H2]; split; auto.
    - intros E. rewrite E, eqb_refl in H2. discriminate.
    - apply eqb_neq, H2.
  Qed.

  Lemma adel_keys k m : NoDup (map fst m) -> NoDup (map fst (adel k m)) /\ ~ In k (map fst (adel k m)).
  Proof.
    intros Hnd. split.
    - unfold adel. induction m as [|[k' x] m IH]; cbn [filter map fst]; [constructor|].
      cbn [map fst] in Hnd. inversion Hnd as [|? ? Hni Hnd']; subst.
      destruct (negb (eqb k' k)); cbn [map fst]; auto.
      constructor; auto. intros Hin. apply Hni. apply in_map_iff in Hin. destruct Hin as (y & <- & Hy).
      apply filter_In in Hy. apply in_map. tauto.
    - intros Hin. apply in_map_iff in Hin. destruct Hin as (y & Hy & Hin). apply in_adel in Hin. tauto.
  Qed.

  Lemma aget_adel k k' m : aget k (adel k' m) = if eqb k' k then None else aget k m.
  Proof.
    unfold adel. induction m as [|[j v] m IH]; cbn [filter aget fst].
    - destruct (eqb k' k); reflexivity.
    - destruct (eqb j k') eqn:Ej; cbn [negb].
      + apply eqb_eq in Ej; subst j. rewrite IH. destruct (eqb k' k); reflexivity.
      + cbn [aget]. destruct (eqb j k) eqn:Ejk; [|exact IH].
        apply eqb_eq in Ejk; subst j. rewrite eqb_neq; [reflexivity|].
        intros ->. rewrite eqb_refl in Ej. discriminate.
  Qed.

  Lemma aget_in k v m : aget k m = Some v -> In (k, v) m.
  Proof.
    induction m as [|[j x] m IH]; cbn [aget]; [discriminate|].
    destruct (eqb j k) eqn:E.
    - apply eqb_eq in E; subst. intros H; injection H as ->. left; reflexivity.
    - intros H; right; auto.
  Qed.

  Lemma in_aget k v m : NoDup (map fst m) -> In (k, v) m -> aget k m = Some v.
  Proof.
    induction m as [|[j x] m IH]; intros Hnd Hin; [destruct Hin|].
    cbn [map fst] in Hnd. inversion Hnd as [|? ? Hni Hnd']; subst.
    cbn [aget]. destruct Hin as [H|Hin].
    - injection H as -> ->. rewrite eqb_refl. reflexivity.
    - destruct (eqb j k) eqn:E; [|auto].
      apply eqb_eq in E; subst. exfalso; apply Hni. apply in_map_iff. exists (k, v); auto.
  Qed.
End Assoc.

(* ---------------------------------------------------------------- store *)

Lemma store_get_del id id' st : store_get id (store_del id' st) = if id =? id' then None else store_get id st.
Proof. rewrite N.eqb_sym. exact (aget_adel N.eqb N.eqb_eq id id' st). Qed.

Lemma store_get_put id id' e st : store_get id (store_put id' e st) = if id' =? id then Some e else store_get id st.
Proof.
  unfold store_put. cbn [store_get]. destruct (id' =? id) eqn:E; [reflexivity|].
  rewrite store_get_del, N.eqb_sym, E. reflexivity.
Qed.

Lemma in_store_cmds n st : In n (store_cmds st) <-> exists id, In (id, SCmd n) st.
Proof.
  unfold store_cmds. rewrite in_flat_map. split.
  - intros ([id e] & Hin & H). cbn [snd] in H. destruct e; cbn in H; try contradiction.
    destruct H as [->|[]]. exists id; exact Hin.
  - intros (id & Hin). exists (id, SCmd n). split; [exact Hin|left; reflexivity].
Qed.

Lemma in_store_del x id st : In x (store_del id st) <-> In x st /\ fst x <> id.
Proof. exact (in_adel N.eqb N.eqb_eq x id st). Qed.

Lemma store_get_in id e st : store_get id st = Some e -> In (id, e) st.
Proof. exact (aget_in N.eqb N.eqb_eq id e st). Qed.

Lemma in_store_get id e st : NoDup (map fst st) -> In (id, e) st -> store_get id st = Some e.
Proof. exact (in_aget N.eqb N.eqb_eq id e st). Qed.

Lemma store_del_keys id st : NoDup (map fst st) -> NoDup (map fst (store_del id st)) /\ ~ In id (map fst (store_del id st)).
Proof. exact (adel_keys N.eqb N.eqb_eq id st). Qed.

Lemma store_put_keys id e st : NoDup (map fst st) -> NoDup (map fst (store_put id e st)).
Proof.
  intros Hnd. unfold store_put. cbn [map fst]. destruct (store_del_keys id st Hnd). constructor; auto.
Qed.

(* ---------------------------------------------------------------- subsequences *)

Lemma Subseq_refl {A} (l : list A) : Subseq l l.
Proof. induction l; [apply SubNil|apply SubKeep; assumption]. Qed.

Lemma Subseq_app_both {A} (l1 l2 t : list A) : Subseq l1 l2 -> Subseq (l1 ++ t) (l2 ++ t).
Proof.
  induction 1; cbn [app]; [apply Subseq_refl|apply SubSkip; assumption|apply SubKeep; assumption].
Qed.

Lemma Subseq_app_skip {A} (l1 l2 t : list A) : Subseq l1 l2 -> Subseq l1 (l2 ++ t).
Proof.
  induction 1; cbn [app]; [|apply SubSkip; assumption|apply SubKeep; assumption].
  induction t; [apply SubNil|apply SubSkip; assumption].
Qed.

Lemma Subseq_drop_tail {A} (l1 t l2 : list A) : Subseq (l1 ++ t) l2 -> Subseq l1 l2.
Proof.
  revert l2. induction l1 as [|x l1 IH]; intros l2 H; cbn [app] in H.
  - clear H. induction l2; [apply SubNil|apply SubSkip; assumption].
  - induction l2 as [|y l2 IH2]; [inversion H|].
    inversion H; subst.
    + apply SubSkip. auto.
    + apply SubKeep. auto.
Qed.

Lemma Subseq_in {A} (l1 l2 : list A) x : Subseq l1 l2 -> In x l1 -> In x l2.
Proof. induction 1; intros Hin; [destruct Hin| right; auto|]. destruct Hin as [->|Hin]; [left; reflexivity|right; auto]. Qed.

(* ---------------------------------------------------------------- the dispatcher's pop *)

Lemma handover_keeps {A} (f : state -> A) s : (forall n b, f (enqueue s n b) = f s) -> f (handover s) = f s.
Proof. intros H. unfold handover. destruct (ap s) as [| | |? ? []]; auto. Qed.

Lemma pop_store s n b q : store (pop_cmd s n b q) = store s.
Proof. unfold pop_cmd. rewrite (handover_keeps store); reflexivity. Qed.
Lemma pop_futs s n b q : futs (pop_cmd s n b q) = futs s.
Proof. unfold pop_cmd. rewrite (handover_keeps futs); reflexivity. Qed.
Lemma pop_sp s n b q : sp (pop_cmd s n b q) = sp s.
Proof. unfold pop_cmd. rewrite (handover_keeps sp); reflexivity. Qed.

(* ---------------------------------------------------------------- step inversion *)

(* case analysis of `H : step s e = Some s'` down to the leaves of the definition *)
Ltac dstep H :=
  lazymatch type of H with
  | Some _ = Some _ => injection H as H; try subst
  | None = Some _ => discriminate H
  | context [match ?x with _ => _ end] =>
    let E := fresh "E" in destruct x eqn:E; try discriminate H; dstep H
  | _ => idtac
  end.

Ltac step_inv H := unfold step in H; dstep H.

(* the list-level components stay folded when states are simplified *)
Global Arguments store_del : simpl never.
Global Arguments store_put : simpl never.
Global Arguments store_get : simpl never.
Global Arguments store_cmds : simpl never.
Global Arguments fut_get : simpl never.
Global Arguments fut_resolve : simpl never.
Global Arguments fut_resolve_all : simpl never.
Global Arguments resub_list : simpl never.
Global Arguments apply_body : simpl never.
Global Arguments body_eqb : simpl never.
Global Arguments kind_eqb : simpl never.
Global Arguments is_qos0 : simpl never.
Global Arguments N.add : simpl never.
Global Arguments N.ltb : simpl never.
Global Arguments N.eqb : simpl never.
Global Arguments N.of_nat : simpl never.
