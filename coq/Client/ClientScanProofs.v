(* ClientScanProofs.v — every accepted trace passes the trace scanners of TraceScan.v. *)
From Coq Require Import List NArith Bool Lia.
From GM Require Import Base.Lts Codec.Packet Session.Store Client.Client Client.ClientSpec Client.TraceScan Client.AMap Codec.PacketEqb Client.ClientInvCtl Client.ClientInvWf
  Client.ClientInvHs Client.ClientInvSbs
  Client.ClientStep.
Import ListNotations.
Open Scope N_scope.

(* ---- scan_sbs *)

Definition saved_in (saved : list packet) (s : st) : Prop :=
  forall q, In (Outgoing, q) (g_saved (g s)) -> In q saved.

Lemma scan_sbs_gen es : forall s0 s saved,
  reach s0 -> run step s0 es = Some s -> saved_in saved s0 -> scan_sbs saved es = true.
Proof.
  induction es as [|e es IH]; intros s0 s saved Hr0 Hrun Hinc; [reflexivity|].
  cbn [run] in Hrun. destruct (step s0 e) as [s1|] eqn:Hs; [|discriminate Hrun].
  pose proof (reach_step _ _ _ Hr0 Hs) as Hr1.
  destruct (step_ghost _ _ _ Hs) as (_ & Htx & Hsv & _).
  assert (Hkeep : g_saved (g s1) = g_saved (g s0) -> scan_sbs saved es = true).
  { intros E. apply (IH s1 s saved Hr1 Hrun). unfold saved_in. rewrite E. exact Hinc. }
  destruct e; cbn [scan_sbs]; try (apply Hkeep, Hsv).
  - (* ETx *)
    destruct p; try (apply Hkeep, Hsv).
    apply andb_true_iff. split; [|apply Hkeep, Hsv].
    destruct (m_qos m =? 0) eqn:Eq; [reflexivity|]. apply N.eqb_neq in Eq.
    destruct Hr1 as (es1 & Hr1).
    assert (Hin : In (Publish dup m id, async, r) (g_tx (g s1))) by (rewrite Htx; left; reflexivity).
    pose proof (store_before_send _ _ Hr1 _ _ _ Hin dup m id eq_refl Eq) as Hsaved. rewrite Hsv in Hsaved.
    apply existsb_exists. exists (Publish false m id). split; [exact (Hinc _ Hsaved)|apply packet_eqb_refl].
  - (* ESave *)
    destruct d, r; try (apply Hkeep, Hsv).
    + apply (IH s1 s saved Hr1 Hrun). intros q Hq. rewrite Hsv in Hq. destruct Hq as [Hq|Hq]; [discriminate Hq|auto].
    + apply (IH s1 s (p :: saved) Hr1 Hrun). intros q Hq. rewrite Hsv in Hq.
      destruct Hq as [Hq|Hq]; [injection Hq as ->; left; reflexivity|right; auto].
Qed.

Theorem scan_sbs_accepted es s : run step init es = Some s -> scan_sbs [] es = true.
Proof. intros H. apply (scan_sbs_gen es init s [] reach_init H). intros q Hq. destruct Hq. Qed.

(* ---- scan_pubrec: the scanner's expectation is a function of the processor's control point *)

Definition pexp_of (p : ppc) : pexp :=
  match p with PRecSave id => XSave id | PRecSend id => XTx id | PNone | PRecv true => XInit | _ => XNone end.

Lemma pexp_after_pub q : pexp_of (ppc_after_pub q) = XNone.
Proof. destruct q; try reflexivity. unfold ppc_after_pub. destruct (_ =? 1); [|destruct (_ =? 2)]; reflexivity. Qed.

Lemma pexp_rest p : at_rest p -> pexp_of p = XNone.
Proof. destruct p; try destruct first; cbn; intros H; try contradiction; reflexivity. Qed.

Lemma pubrec_other x e : proc_event e = false -> (forall b, e <> ENew b) -> pubrec_step x e = Some x.
Proof.
  intros He Hn. apply proc_obs_event in He. unfold pubrec_step. rewrite He.
  destruct e; try reflexivity. destruct (Hn _ eq_refl).
Qed.

Lemma pubrec_sim p e p' : pview p e p' -> pubrec_step (pexp_of p) e = Some (pexp_of p').
Proof.
  intros [b p0|p0 e0 p0' Hp|p0 e0 p0' He Hn _ Ho].
  - reflexivity.
  - destruct Hp; try destruct r; try destruct b; cbn [pubrec_step proc_obs pexp_of cont_pc die_pc];
      rewrite ?N.eqb_refl, ?pexp_after_pub; try reflexivity.
    + destruct q, cb; cbn; rewrite ?pexp_after_pub; reflexivity.
    + destruct first; reflexivity.
    + destruct p0, rest; try destruct dup; reflexivity.
    + destruct p0; try destruct dup; reflexivity.
    + destruct x as [[[]|]|], cb; reflexivity.
    + destruct x as [[[]|]|], cb; reflexivity.
    + destruct x as [[]|]; reflexivity.
    + destruct (hid_rest _ _ H) as [Ha Hb]. rewrite (pexp_rest _ Ha), (pexp_rest _ Hb). reflexivity.
  - rewrite (pubrec_other _ _ He Hn). f_equal.
    destruct Ho as [->|[[-> Hd]|[-> ->]]]; [reflexivity| |reflexivity]. rewrite (pexp_rest _ (done_rest _ Hd)). reflexivity.
Qed.

(* every accepted trace passes the PUBREC scanner; its final expectation is the one of the final state *)
Theorem scan_pubrec_accepted es s : run step init es = Some s ->
  scan_pubrec XInit es = Some (pexp_of (k_ppc (k s))).
Proof.
  intros H. destruct (scan_run pubrec_step (fun x s => x = pexp_of (k_ppc (k s)))) with (x := XInit) (es := es) (s := s)
    as (x & Hx & ->); auto.
  intros x s0 e s1 Hr -> Hs. exists (pexp_of (k_ppc (k s1))). split; [exact (pubrec_sim _ e _ (reach_proc s0 e s1 Hr Hs))|reflexivity].
Qed.

(* ---- scan_noack *)

Lemma scan_noack_gen es : forall s0 s, reach s0 -> run step s0 es = Some s -> scan_noack (g_cbfail (g s0)) es = true.
Proof.
  induction es as [|e es IH]; intros s0 s Hr0 Hrun; [reflexivity|].
  cbn [run] in Hrun. destruct (step s0 e) as [s1|] eqn:Hs; [|discriminate Hrun].
  pose proof (IH _ _ (reach_step _ _ _ Hr0 Hs) Hrun) as Hrec.
  destruct (step_ghost _ _ _ Hs) as (_ & _ & _ & Hcl & _). apply (f_equal cs_failed) in Hcl. cbn [cs_failed] in Hcl.
  rewrite Hcl in Hrec. destruct e; cbn [scan_noack close_step cs_failed] in *; try exact Hrec.
  - (* ETx *)
    assert (Hrec' : scan_noack (g_cbfail (g s0)) es = true) by (destruct r; exact Hrec).
    destruct p; try exact Hrec'.
    all: apply andb_true_iff; split; [|exact Hrec'].
    all: destruct (g_cbfail (g s0)) eqn:Ef; [exfalso|reflexivity].
    all: destruct Hr0 as (pre & Hpre); destruct (no_ack_on_error _ _ Hpre Ef) as [Hno _]; specialize (Hno _ _ _ _ Hs); discriminate Hno.
  - (* ECb *)
    destruct r; exact Hrec.
Qed.

Theorem scan_noack_accepted es s : run step init es = Some s -> scan_noack false es = true.
Proof. intros H. exact (scan_noack_gen es init s reach_init H). Qed.

(* ---- scan_hs: the scanner's table IS the ghost table of open handshakes *)

Definition cur_ok (cur : option N) (p : ppc) : Prop :=
  match p with
  | PRelCb _ _ id => cur = Some id
  | PRelComp _ id => cur = None \/ cur = Some id
  | _ => cur = None
  end.

Definition hs_rel (x : hscan) (s : st) : Prop :=
  hs_tab x = g_hs (g s) /\ cur_ok (hs_cur x) (k_ppc (k s)).

Lemma cur_rest cur p : at_rest p -> cur_ok cur p <-> cur = None.
Proof. destruct p; try destruct first; cbn; intros H; try contradiction; reflexivity. Qed.

Lemma cur_after_pub q : cur_ok None (ppc_after_pub q).
Proof. destruct q; try reflexivity. unfold ppc_after_pub. destruct (_ =? 1); [|destruct (_ =? 2)]; reflexivity. Qed.

(* the scanner's note of the message just looked up *)
Lemma cur_sim tab cur p e p' : pview p e p' -> cur_ok cur p -> cur_ok (hs_cur (hs_step (HScan tab cur) e)) p'.
Proof.
  intros Hv Hc. destruct Hv as [b p|p e p' Hp|p e p' He Hn _ Ho].
  - reflexivity.
  - destruct Hp; try (destruct r; [|destruct b]); cbn [cur_ok hs_step hs_cur hs_tab cont_pc die_pc] in *; subst;
      auto using cur_after_pub.
    + destruct b; reflexivity.
    + destruct q, cb; cbn; auto using cur_after_pub.
    + destruct (set_dup q), r, rest; reflexivity.
    + destruct (get_id q); reflexivity.
    + destruct x as [[[]|]|], cb, b; cbn; auto.
    + destruct x as [[]|]; reflexivity.
    + destruct (hid_rest _ _ H) as [Ha Hb]. apply (cur_rest _ _ Hb). apply (cur_rest _ _ Ha). exact Hc.
  - assert (E : hs_cur (hs_step (HScan tab cur) e) = cur).
    { apply proc_obs_event in He. destruct e; try reflexivity; try discriminate He.
      - destruct (Hn _ eq_refl).
      - destruct p0; try reflexivity; discriminate He.
      - destruct d, r; try reflexivity. discriminate He.
      - destruct r; reflexivity. }
    rewrite E. destruct Ho as [->|[[-> Hd]|[-> ->]]]; [exact Hc| |exact Hc].
    apply (cur_rest _ _ (done_rest _ Hd)). exact Hc.
Qed.

(* a delivery is counted when the callback for the looked-up message returns nil *)
Lemma cb_counted tab cur p m p' : pview p (ECb m Ok) p' -> cur_ok cur p ->
  match cur with Some id => hs_incr tab id | None => tab end =
  match p with PRelCb _ _ id => hs_incr tab id | _ => tab end.
Proof.
  intros Hv Hc. inversion Hv as [|? ? ? Hp|? ? ? He]; subst; [|discriminate He].
  inversion Hp; subst; cbn in Hc; subst; reflexivity.
Qed.

Lemma hs_sim s e s' x : reach s -> hs_rel x s -> step s e = Some s' -> hs_rel (hs_step x e) s'.
Proof.
  intros Hr [Ht Hc] H. destruct x as [tab cur]. cbn [hs_tab hs_cur] in Ht, Hc. subst tab.
  pose proof (reach_proc _ _ _ Hr H) as Hv.
  split; [|exact (cur_sim _ _ _ _ _ Hv Hc)].
  destruct (step_ghost _ _ _ H) as (_ & _ & _ & _ & -> & _).
  destruct e; try reflexivity.
  - destruct p; reflexivity.
  - destruct d, r; try reflexivity. cbn [hs_step hs_tab]. destruct (get_id p); reflexivity.
  - destruct d, r as [[[]|]|]; reflexivity.
  - destruct d, r; reflexivity.
  - destruct r; reflexivity.
  - destruct r; [|reflexivity]. cbn [hs_step hs_tab hs_cur]. rewrite <- (cb_counted _ _ _ _ _ Hv Hc). destruct cur; reflexivity.
Qed.

(* on an accepted trace the scanner's table equals the ghost table of the model: what
   C10_exactly_once_partial says about the ghost table holds of the scanner's *)
Theorem scan_hs_accepted es s : run step init es = Some s -> hs_tab (scan_hs es) = g_hs (g s).
Proof.
  intros H. refine (proj1 (scan_fold hs_step hs_rel _ (HScan [] None) _ es s H)).
  - intros x s0 e s1 Hr HR Hs. exact (hs_sim s0 e s1 x Hr HR Hs).
  - split; reflexivity.
Qed.

Corollary scan_hs_once es s : run step init es = Some s ->
  g_compfail (g s) = false -> g_delfail (g s) = false -> hs_twice (scan_hs es) = None.
Proof.
  intros H F1 F2. unfold hs_twice. rewrite (scan_hs_accepted _ _ H).
  destruct (exactly_once_partial _ _ H F1 F2) as [Hle _].
  destruct (filter (fun y => 1 <? snd y) (g_hs (g s))) as [|[id n] l] eqn:E; [reflexivity|exfalso].
  assert (Hin : In (id, n) (filter (fun y => 1 <? snd y) (g_hs (g s)))) by (rewrite E; left; reflexivity).
  apply filter_In in Hin as [Hin Hn]. cbn in Hn. apply N.ltb_lt in Hn.
  destruct (InvWf_reach _ _ H) as (_ & _ & W3 & _).
  apply (in_aget _ _ _ W3) in Hin. apply Hle in Hin. lia.
Qed.

(* ---- scan_ack: the scanner's expectation is determined by the processor's control point *)

Definition yrel (y : yexp) (p : ppc) : Prop :=
  match y, p with
  | YInit, (PNone | PRecv true) => True
  | YInit, _ => False
  | YNone, (PNone | PRecv true | PPubAck _ | PPubSave _ | PPubRec _ | PRelLookup _ | PRelCb _ _ _
           | PRelComp _ _ | PRelDel _) => False
  | YNone, PPubCb _ => False
  | YNone, _ => True
  | YPub q, _ =>
    (exists d m id, q = Publish d m id) /\
    (p = PPubCb q \/
     match after_cb_exp q with
     | YAck id => p = PPubAck id
     | YSave q' => p = PPubSave q'
     | _ => p = PRecv false
     end)
  | YAck id, PPubAck id' => id = id'
  | YSave q, PPubSave q' => q = q'
  | YRec id, PPubRec id' => id = id'
  | YRel id, PRelLookup id' => id = id'
  | YRelCb m pid id, PRelCb m' pid' id' => m = m' /\ pid = pid' /\ id = id'
  | YRelCb m pid id, PRelComp pid' id' => pid = pid' /\ id = id'
  | YComp pid id, PRelComp pid' id' => pid = pid' /\ id = id'
  | YDel id, PRelDel id' => id = id'
  | _, _ => False
  end.

(* between the arrival of a PUBLISH and the scanner's next move the processor is at the callback, or past it *)
Lemma yrel_pub q p : yrel (YPub q) p ->
  exists d m id, q = Publish d m id /\
    (p = PPubCb q \/ (p = PPubAck id /\ after_cb_exp q = YAck id) \/ (p = PPubSave q /\ after_cb_exp q = YSave q) \/
     (p = PRecv false /\ after_cb_exp q = YNone)).
Proof.
  intros [(d & m & id & ->) [H|H]]; exists d, m, id; (split; [reflexivity|]); [left; exact H|right].
  unfold after_cb_exp in *. destruct (m_qos m =? 1); [|destruct (m_qos m =? 2)]; auto.
Qed.

Lemma yrel_rest p : at_rest p -> yrel YNone p.
Proof. destruct p; try destruct first; cbn; auto. Qed.

Lemma yrel_hidden y p p' : hid_next p p' -> yrel y p -> y = YNone.
Proof.
  destruct p; cbn; try contradiction; intros _; destruct y; cbn; try contradiction; try reflexivity.
  all: intros [_ [X|X]]; [discriminate X|]; destruct (after_cb_exp _); discriminate X.
Qed.

Lemma yrel_after_pub d m id : yrel (YPub (Publish d m id)) (ppc_after_pub (Publish d m id)).
Proof.
  split; [eauto|right]. unfold after_cb_exp, ppc_after_pub. destruct (_ =? 1); [|destruct (_ =? 2)]; reflexivity.
Qed.

Lemma yrel_after_cb d m id : yrel (after_cb_exp (Publish d m id)) (ppc_after_pub (Publish d m id)).
Proof. unfold after_cb_exp, ppc_after_pub. destruct (_ =? 1); [|destruct (_ =? 2)]; cbn; auto. Qed.

Lemma yrel_rx cb q : yrel match q with Publish _ _ _ => YPub q | Pubrel id => YRel id | _ => YNone end (ppc_rx cb q).
Proof.
  destruct q, cb; cbn [ppc_rx]; try exact I; try reflexivity; [|apply yrel_after_pub]. split; [eauto|left; reflexivity].
Qed.

Lemma ack_other y e : proc_event e = false -> (forall b, e <> ENew b) -> ack_step y e = Some y.
Proof.
  intros He Hn. apply proc_obs_event in He. unfold ack_step. rewrite He.
  destruct e; try reflexivity. destruct (Hn _ eq_refl).
Qed.

(* the die body hands control back, Connect starts the processor: the scanner expects as much as before *)
Lemma yrel_other y p p' : other_next p p' -> yrel y p -> yrel y p'.
Proof.
  intros [->|[[-> Hd]|[-> ->]]] HR; [exact HR| |].
  - destruct y; cbn in HR; try contradiction; [exact (yrel_rest _ (done_rest _ Hd))|].
    destruct HR as [_ [X|X]]; [discriminate X|destruct (after_cb_exp _); discriminate X].
  - destruct y; cbn in HR; try contradiction; [exact I|].
    destruct HR as [_ [X|X]]; [discriminate X|destruct (after_cb_exp _); discriminate X].
Qed.

Lemma ack_sim y p e p' : pview p e p' -> yrel y p -> exists y', ack_step y e = Some y' /\ yrel y' p'.
Proof.
  intros Hv HR. destruct Hv as [b p|p e p' Hp|p e p' He Hn _ Ho].
  - exists YInit. split; [reflexivity|exact I].
  - destruct Hp.
    all: try match goal with Hh : hid_next _ _ |- _ =>
           rewrite (yrel_hidden _ _ _ Hh HR); exists YNone; split; [reflexivity|exact (yrel_rest _ (proj2 (hid_rest _ _ Hh)))] end.
    all: destruct y; cbn [yrel] in HR; try contradiction.
    (* the scanner waits for the callback: the processor may be past the point where it was due *)
    all: try (apply yrel_pub in HR; destruct HR as (d0 & m0 & i0 & -> & [X|[[X Q]|[[X Q]|[X Q]]]]); try discriminate X).
    all: try (injection X as ?); repeat match goal with H : _ /\ _ |- _ => destruct H end; subst.
    all: try (destruct r; [|destruct b]).
    all: cbn [ack_step proc_obs ack_none get_id cont_pc die_pc]; rewrite ?Q, ?N.eqb_refl, ?message_eqb_refl, ?packet_eqb_refl.
    all: try (eexists; split; [reflexivity|first [exact I | reflexivity | split; reflexivity]]).
    + destruct b; exists YNone; (split; [reflexivity|exact I]).
    + eexists. split; [|apply (yrel_rx cb q)]. destruct q; reflexivity.
    + eexists. split; [|apply (yrel_rx cb q)]. destruct q; reflexivity.
    + exists YNone. split; [destruct (set_dup q) as [| |[]| | | | | | | | | | |]; reflexivity|destruct r, rest; exact I].
    + cbn [get_id] in *. injection H as <-. eexists. split; reflexivity.
    + rewrite H. eexists. split; reflexivity.
    + destruct x as [[[]|]|]; try destruct cb; try destruct b; eexists; (split; [reflexivity|]); cbn; auto.
    + destruct x as [[]|]; exists YNone; (split; [reflexivity|exact I]).
    + eexists. split; [reflexivity|apply yrel_after_cb].
  - exists y. split; [exact (ack_other y e He Hn)|exact (yrel_other y p p' Ho HR)].
Qed.

(* every accepted trace passes the acknowledgement scanner *)
Theorem scan_ack_accepted es s : run step init es = Some s ->
  exists y, scan_ack YInit es = Some y /\ yrel y (k_ppc (k s)).
Proof.
  apply (scan_run ack_step (fun y s => yrel y (k_ppc (k s)))); [|exact I].
  intros y s0 e s1 Hr HR Hs. exact (ack_sim y _ e _ (reach_proc s0 e s1 Hr Hs) HR).
Qed.
