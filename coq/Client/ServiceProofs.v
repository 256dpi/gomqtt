(* ServiceProofs.v — invariants of the service monitor (Client/Service.v) over all accepted traces. *)
From Coq Require Import List NArith Bool Lia Sorted.
From GM Require Import Base.Lts Codec.Packet Client.Service Client.ServiceSpec Client.ServiceLemmas.
Import ListNotations.
Open Scope N_scope.

Definition reach (c : N) (s : state) : Prop := exists es, run step (init c) es = Some s.

Lemma reach_init c : reach c (init c).
Proof. exists []; reflexivity. Qed.

(* the one induction (Base/Lts.v), specialised *)
Lemma reach_inv (Inv : state -> Prop) c :
  Inv (init c) ->
  (forall s e s', Inv s -> step s e = Some s' -> Inv s') ->
  forall s, reach c s -> Inv s.
Proof.
  intros H0 Hs s (es & Hrun).
  exact (invariant_all_traces state event step Inv (init c) H0 Hs es s Hrun).
Qed.

(* ---------------------------------------------------------------- control invariant *)

Definition stopping (s : state) : bool := match ap s with AStop _ true => true | _ => false end.

Record inv_ctl (s : state) : Prop := {
  ic_idle  : sp s = SIdle <-> (started s = false /\ stopping s = false);
  ic_dying : dying s = stopping s;
  ic_start : forall ok, ap s = AStart ok -> started s = true;
  ic_stop  : forall c ok, ap s = AStop c ok -> started s = false;
  ic_store : NoDup (map fst (store s));
  ic_prot  : sp s <> SIdle -> protected s = true
}.

Lemma inv_ctl_init c : inv_ctl (init c).
Proof. constructor; cbn; try tauto; try discriminate; try constructor. Qed.

Ltac rw_ctl :=
  repeat match goal with
  | E : ap _ = _ |- _ => rewrite E in *; clear E
  | E : sp _ = _ |- _ => rewrite E in *; clear E
  | E : started _ = _ |- _ => rewrite E in *; clear E
  | E : dying _ = _ |- _ => rewrite E in *; clear E
  end.

Lemma store_del_nodup id st : NoDup (map fst st) -> NoDup (map fst (store_del id st)).
Proof. intros H; exact (proj1 (store_del_keys id st H)). Qed.

Ltac split_ap :=
  repeat match goal with
  | |- context [match ap ?s with _ => _ end] =>
    let Eap := fresh "Eap" in destruct (ap s) as [| | |? ? []] eqn:Eap; cbn in *
  end.

(* an api slot that Start and Stop do not occupy, or occupy only to report failure *)
Definition ap_quiet (s : state) (x : api) : Prop :=
  match x with AStart _ => started s = true | AStop _ ok => ok = false /\ started s = false | _ => True end.

Definition ctl_view (s : state) := (started s, dying s, protected s).

(* inv_ctl reads the flags, whether the supervisor exists, what Start/Stop have in the api slot, and the keys of the store *)
Lemma ctl_frame s s' :
  ctl_view s' = ctl_view s -> (sp s' = sp s \/ sp s <> SIdle /\ sp s' <> SIdle) ->
  (ap s' = ap s \/ stopping s = false /\ ap_quiet s (ap s')) ->
  NoDup (map fst (store s')) -> inv_ctl s -> inv_ctl s'.
Proof.
  intros E Hsp Hap Hst [I1 I2 I3 I4 I5 I6]. injection E as E1 E2 E3.
  assert (Hs : stopping s' = stopping s).
  { unfold stopping. destruct Hap as [->|[Hs Hq]]; [reflexivity|]. unfold stopping in Hs. rewrite Hs.
    destruct (ap s') as [| |? []|]; try reflexivity. destruct Hq; discriminate. }
  assert (Hi : sp s' = SIdle <-> sp s = SIdle) by (destruct Hsp as [->|[]]; tauto).
  constructor; rewrite ?E1, ?E2, ?E3, ?Hs, ?Hi; auto.
  - destruct Hap as [->|[_ Hq]]; [exact I3|]. intros ok Ha. rewrite Ha in Hq. exact Hq.
  - destruct Hap as [->|[_ Hq]]; [exact I4|]. intros c ok Ha. rewrite Ha in Hq. apply Hq.
Qed.

Lemma ctl_set_sp s x : sp s <> SIdle -> x <> SIdle -> inv_ctl s -> inv_ctl (set_sp s x).
Proof. intros Hs Hx I. apply (ctl_frame s); auto. exact (ic_store s I). Qed.

Lemma ctl_enter s : sp s <> SIdle -> inv_ctl s -> inv_ctl (enter_dispatch s).
Proof. intros Hs I. apply (ctl_frame s); auto. right; split; [exact Hs|discriminate]. exact (ic_store s I). Qed.

Lemma ctl_set_kill s x : inv_ctl s -> inv_ctl (set_kill s x).
Proof. intros I. apply (ctl_frame s); auto. exact (ic_store s I). Qed.

Lemma ctl_set_futs s x : inv_ctl s -> inv_ctl (set_futs s x).
Proof. intros I. apply (ctl_frame s); auto. exact (ic_store s I). Qed.

Lemma ctl_set_store s x : NoDup (map fst x) -> inv_ctl s -> inv_ctl (set_store s x).
Proof. intros Hx I. apply (ctl_frame s); auto. Qed.

Lemma ctl_store_del s id : inv_ctl s -> NoDup (map fst (store_del id (store s))).
Proof. intros I. apply store_del_nodup, I. Qed.

Lemma ctl_put s id e : inv_ctl s -> inv_ctl (put_entry s id e).
Proof. intros I. apply (ctl_frame s); auto. apply store_put_keys, I. Qed.

Lemma ctl_set_ap s x : stopping s = false -> ap_quiet s x -> inv_ctl s -> inv_ctl (set_ap s x).
Proof. intros Hs Hx I. apply (ctl_frame s); auto. exact (ic_store s I). Qed.

Lemma ctl_enqueue s n b : stopping s = false -> inv_ctl s -> inv_ctl (enqueue s n b).
Proof. intros Hs I. apply (ctl_frame s); auto. right; split; [exact Hs|exact Logic.I]. exact (ic_store s I). Qed.

Lemma ctl_handover s : inv_ctl s -> inv_ctl (handover s).
Proof.
  intros I. unfold handover. destruct (ap s) as [| | |n b []] eqn:E; try exact I.
  apply ctl_enqueue; [|exact I]. unfold stopping. rewrite E. reflexivity.
Qed.

Lemma ctl_pop s n b q : inv_ctl s -> inv_ctl (pop_cmd s n b q).
Proof. intros I. apply ctl_handover, (ctl_frame s); auto. exact (ic_store s I). Qed.

#[export] Hint Resolve ctl_set_sp ctl_enter ctl_set_kill ctl_set_futs ctl_set_store ctl_store_del ctl_put ctl_set_ap ctl_pop : ctl.
(* side conditions, read off the equation the inversion of `step` leaves for the control point or the api slot *)
#[export] Hint Extern 1 (_ <> SIdle) => cbn; rewrite ?pop_sp; congruence : ctl.
#[export] Hint Extern 1 (stopping _ = false) =>
  unfold stopping; cbn; match goal with E : ap ?s = _ |- context [ap ?s] => rewrite E; reflexivity end : ctl.
#[export] Hint Extern 1 (ap_quiet _ _) => cbn; auto : ctl.

Lemma inv_ctl_step s e s' : inv_ctl s -> step s e = Some s' -> inv_ctl s'.
Proof.
  intros I H. destruct e; step_inv H; auto 6 with ctl.
  - (* Start, first or after Stop: sp s = SIdle *)
    destruct I as [I1 I2 I3 I4 I5 I6]. constructor; cbn; try easy.
  - (* Stop on a started service *)
    destruct I as [I1 I2 I3 I4 I5 I6]. constructor; cbn; try easy. rewrite I1, E0. easy.
  - (* Stop returns: sp s = SEnded *)
    destruct ok0; [|discriminate]. destruct I as [I1 I2 I3 I4 I5 I6]. specialize (I4 _ _ E).
    destruct clear; constructor; cbn; try easy; constructor.
  - (* Stop returns from a service that was not started *)
    destruct ok0; [discriminate|]. auto with ctl.
  - (* a command is called *)
    apply ctl_enqueue; [reflexivity|]. apply (ctl_frame s); auto with ctl. exact (ic_store s I).
  - apply (ctl_frame s); auto with ctl. exact (ic_store s I).
  - (* resubscribe *)
    apply ctl_set_sp, ctl_put, (ctl_frame s); auto with ctl. exact (ic_store s I).
  - apply ctl_set_sp, ctl_put, (ctl_frame s); auto with ctl. exact (ic_store s I).
  - (* QoS 0 publish: Put, then Delete *)
    apply ctl_set_store; [apply (ctl_store_del (put_entry (pop_cmd s n b0 l) id SNone))|]; auto with ctl.
Qed.

(* ---------------------------------------------------------------- order of commands *)

Record inv_fifo (s : state) : Prop := {
  if_sub    : Subseq (dispatched s ++ queue s) (issued s);
  if_all    : drained s = [] -> issued s = dispatched s ++ queue s;
  if_sorted : StronglySorted N.lt (map fst (issued s));
  if_lt     : Forall (fun n => n < nextn s) (map fst (issued s));
  if_api    : forall n b bl, ap s = ACmd n b bl -> n < nextn s;
  if_blk    : forall n b, ap s = ACmd n b true -> Forall (fun m => m < n) (map fst (issued s));
  if_itags  : map fst (itags s) = map fst (issued s);
  if_dtags  : map fst (dtags s) = map fst (dispatched s);
  if_subs   : subs s = fold_left (fun m b => apply_body b m) (map snd (dispatched s)) []
}.

Lemma inv_fifo_init c : inv_fifo (init c).
Proof. constructor; cbn; try constructor; try reflexivity; try discriminate. Qed.

Lemma sorted_snoc l x : StronglySorted N.lt l -> Forall (fun m => m < x) l -> StronglySorted N.lt (l ++ [x]).
Proof.
  induction 1 as [|y l Hs IH Hy]; intros Hf; cbn [app].
  - constructor; constructor.
  - inversion Hf; subst. constructor; auto.
    apply Forall_app; split; auto.
Qed.

Lemma forall_lt_weaken l a b : a <= b -> Forall (fun m => m < a) l -> Forall (fun m => m < b) l.
Proof. intros H. apply Forall_impl. intros; lia. Qed.

Lemma subseq_enq {A} (d q i : list A) c : Subseq (d ++ q) i -> Subseq (d ++ q ++ [c]) (i ++ [c]).
Proof. intros H. rewrite app_assoc. apply Subseq_app_both; exact H. Qed.

Lemma subseq_pop {A} (d q i : list A) c : Subseq (d ++ c :: q) i -> Subseq ((d ++ [c]) ++ q) i.
Proof. rewrite <- app_assoc. cbn [app]. auto. Qed.

Lemma subseq_drain {A} (d q i : list A) : Subseq (d ++ q) i -> Subseq (d ++ []) i.
Proof. rewrite app_nil_r. apply Subseq_drop_tail. Qed.

Lemma fold_apply_snoc l b :
  fold_left (fun m b => apply_body b m) (l ++ [b]) [] = apply_body b (fold_left (fun m b => apply_body b m) l []).
Proof. rewrite fold_left_app. reflexivity. Qed.

Definition fifo_view (s : state) :=
  (dispatched s, queue s, issued s, drained s, (nextn s, itags s, dtags s, subs s)).

(* inv_fifo reads the ghost lists, the queue, the counter, and the number a command call holds in the api slot *)
Lemma fifo_frame s s' :
  fifo_view s' = fifo_view s -> (forall n b bl, ap s' = ACmd n b bl -> ap s = ACmd n b bl) ->
  inv_fifo s -> inv_fifo s'.
Proof.
  intros E A [I1 I2 I3 I4 I5 I6 I7 I8 I9]. injection E as E1 E2 E3 E4 E5 E6 E7 E8.
  constructor; rewrite ?E1, ?E2, ?E3, ?E4, ?E5, ?E6, ?E7, ?E8; eauto.
Qed.

Lemma fifo_enqueue s n b :
  n < nextn s -> Forall (fun m => m < n) (map fst (issued s)) -> inv_fifo s -> inv_fifo (enqueue s n b).
Proof.
  intros Hn Hlt [I1 I2 I3 I4 I5 I6 I7 I8 I9]. constructor; cbn; rewrite ?map_app; cbn [map fst snd]; try assumption.
  - apply subseq_enq, I1.
  - intros Hd. rewrite (I2 Hd), app_assoc. reflexivity.
  - apply sorted_snoc; assumption.
  - apply Forall_app; auto.
  - intros ? ? ? [= <- _ _]. exact Hn.
  - discriminate.
  - rewrite I7. reflexivity.
Qed.

(* the blocked caller's number is below nextn and above everything issued: if_api, if_blk *)
Lemma fifo_handover s : inv_fifo s -> inv_fifo (handover s).
Proof.
  intros I. unfold handover. destruct (ap s) as [| | |n b []] eqn:E; try exact I.
  apply fifo_enqueue; [exact (if_api s I _ _ _ E)|exact (if_blk s I _ _ E)|exact I].
Qed.

Lemma fifo_pop s n b q : queue s = (n, b) :: q -> inv_fifo s -> inv_fifo (pop_cmd s n b q).
Proof.
  intros Hq [I1 I2 I3 I4 I5 I6 I7 I8 I9]. apply fifo_handover. rewrite Hq in *.
  constructor; cbn; rewrite ?map_app; cbn [map fst snd]; try assumption.
  - apply subseq_pop, I1.
  - intros Hd. rewrite (I2 Hd), <- app_assoc. reflexivity.
  - rewrite I8. reflexivity.
  - rewrite fold_apply_snoc. f_equal. exact I9.
Qed.

Lemma fifo_stop_clear s : inv_fifo s -> inv_fifo (stop_clear s).
Proof.
  intros [I1 I2 I3 I4 I5 I6 I7 I8 I9]. constructor; cbn; try assumption.
  - eapply subseq_drain, I1.
  - intros Hd. apply app_eq_nil in Hd. destruct Hd as [Hd Hq]. rewrite (I2 Hd), Hq. reflexivity.
Qed.

(* a command call takes the next number *)
Lemma fifo_call s b f :
  inv_fifo s ->
  inv_fifo (St (cap s) (started s) (dying s) (kill s) (protected s) (sp s) (ACmd (nextn s) b true) (subs s) (queue s) (store s)
               f (nextn s + 1)
               (issued s) (itags s) (dispatched s) (dtags s) (drained s) (resubs s) (ready s) (gen s)).
Proof.
  intros [I1 I2 I3 I4 I5 I6 I7 I8 I9]. constructor; cbn; try assumption.
  - eapply forall_lt_weaken; [|exact I4]. lia.
  - intros ? ? ? [= <- _ _]. lia.
  - intros ? ? [= <- _]. exact I4.
Qed.

Lemma inv_fifo_step s e s' : inv_fifo s -> step s e = Some s' -> inv_fifo s'.
Proof.
  intros I H. destruct e; step_inv H; try exact I.
  (* updates that leave the fifo fields alone and put no command call into the api slot *)
  all: try (apply (fifo_frame s); [reflexivity|easy|exact I]).
  (* the dispatcher takes the head command *)
  all: try (apply (fifo_frame (pop_cmd s n b0 l)); [reflexivity|easy|apply fifo_pop; assumption]).
  all: try (apply (fifo_frame (pop_cmd s n b l)); [reflexivity|easy|apply fifo_pop; assumption]).
  - (* Stop returns *) destruct clear; [apply fifo_stop_clear|]; apply (fifo_frame s); easy.
  - (* a command is called *) apply fifo_enqueue; cbn; [lia|exact (if_lt s I)|apply fifo_call, I].
  - apply fifo_call, I.
Qed.
