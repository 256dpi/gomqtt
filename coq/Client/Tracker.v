(* Tracker.v — model of client.Tracker (/repo/client/tracker.go) and of the decision rule of the
   pinger goroutine (/repo/client/client.go, pinger()).  The Go type reads time.Now() itself; here
   the clock is an explicit argument (nanoseconds, Z).  `pings` is a uint8: the wrap-around is
   written out. *)
From Coq Require Import ZArith NArith List Lia Bool.
Import ListNotations.
Open Scope Z_scope.

Record tracker := Trk { tk_last : Z; tk_pings : Z; tk_timeout : Z }.

(* NewTracker(timeout) at time now *)
Definition tk_new (timeout now : Z) : tracker := Trk now 0 timeout.
(* Reset: last = time.Now() *)
Definition tk_reset (t : tracker) (now : Z) : tracker := Trk now (tk_pings t) (tk_timeout t).
(* Window: timeout - time.Since(last) *)
Definition tk_window (t : tracker) (now : Z) : Z := tk_timeout t - (now - tk_last t).
(* Ping: pings++ ; Pong: pings-- (uint8) *)
Definition tk_ping (t : tracker) : tracker := Trk (tk_last t) ((tk_pings t + 1) mod 256) (tk_timeout t).
Definition tk_pong (t : tracker) : tracker := Trk (tk_last t) ((tk_pings t - 1) mod 256) (tk_timeout t).
(* Pending: pings > 0 *)
Definition tk_pending (t : tracker) : bool := 0 <? tk_pings t.

(* ---- the pinger loop body: what it does when it looks at the tracker at time now *)
Inductive pinger_move :=
| PmWait (d : Z)       (* window >= 0: sleep for the window (or until the tomb dies) *)
| PmSend               (* window < 0, nothing pending: send PINGREQ, then Ping() *)
| PmDie.               (* window < 0, a ping is pending: die(ErrClientMissingPong) *)

Definition pinger_decide (t : tracker) (now : Z) : pinger_move :=
  let w := tk_window t now in
  if w <? 0 then (if tk_pending t then PmDie else PmSend) else PmWait w.

(* ---- a run: the operations other goroutines and the pinger perform on one tracker *)
Inductive tk_op :=
| OReset (now : Z)     (* any send() *)
| OPong                (* the processor received PINGRESP *)
| OPinger (now : Z).   (* one iteration of the pinger loop at time now; a successful send of PINGREQ
                          is followed by send()'s own Reset and by Ping() *)

(* the state also records whether the pinger died and how many PINGREQ are unanswered *)
Record tk_run := TkRun { r_t : tracker; r_dead : bool; r_sent : list bool (* per PINGREQ: was one already pending? *) }.

Definition tk_apply (r : tk_run) (o : tk_op) : tk_run :=
  match o with
  | OReset now => TkRun (tk_reset (r_t r) now) (r_dead r) (r_sent r)
  | OPong => TkRun (tk_pong (r_t r)) (r_dead r) (r_sent r)
  | OPinger now =>
    if r_dead r then r else
    match pinger_decide (r_t r) now with
    | PmWait _ => r
    | PmDie => TkRun (r_t r) true (r_sent r)
    | PmSend => TkRun (tk_ping (tk_reset (r_t r) now)) false (tk_pending (r_t r) :: r_sent r)
    end
  end.

Definition tk_exec (r : tk_run) (ops : list tk_op) : tk_run := fold_left tk_apply ops r.

(* ------------------------------------------------------------------ theorems *)

(* Window decreases as time passes after a Reset ... *)
Theorem window_decreases t r now1 now2 : now1 <= now2 ->
  tk_window (tk_reset t r) now2 <= tk_window (tk_reset t r) now1.
Proof. unfold tk_window, tk_reset; cbn. lia. Qed.

(* ... by exactly the time that passed *)
Theorem window_exact t r now : tk_window (tk_reset t r) now = tk_timeout t - (now - r).
Proof. reflexivity. Qed.

(* and is negative exactly when more than the keep-alive interval has elapsed since the Reset *)
Theorem window_negative_iff t r now : tk_window (tk_reset t r) now < 0 <-> tk_timeout t < now - r.
Proof. unfold tk_window, tk_reset; cbn. lia. Qed.

(* Ping/Pong/Reset do not touch what they should not *)
Theorem reset_keeps_pings t now : tk_pings (tk_reset t now) = tk_pings t /\ tk_timeout (tk_reset t now) = tk_timeout t.
Proof. split; reflexivity. Qed.
Theorem ping_pong_keep_clock t : tk_last (tk_ping t) = tk_last t /\ tk_last (tk_pong t) = tk_last t.
Proof. split; reflexivity. Qed.

(* Pending is true exactly between a Ping and the Pong that answers it: with n pings outstanding
   (fewer than 256), Pending <-> n > 0; Ping makes it n+1, Pong n-1 *)
Definition outstanding (t : tracker) (n : Z) : Prop := 0 <= n < 256 /\ tk_pings t = n.

Theorem pending_iff t n : outstanding t n -> (tk_pending t = true <-> 0 < n).
Proof. intros [Hn Hp]. unfold tk_pending. rewrite Hp. apply Z.ltb_lt. Qed.

Theorem ping_outstanding t n : outstanding t n -> n < 255 -> outstanding (tk_ping t) (n + 1).
Proof. intros [Hn Hp] H. split; [lia|]. unfold tk_ping; cbn. rewrite Hp. apply Z.mod_small. lia. Qed.

Theorem pong_outstanding t n : outstanding t n -> 0 < n -> outstanding (tk_pong t) (n - 1).
Proof. intros [Hn Hp] H. split; [lia|]. unfold tk_pong; cbn. rewrite Hp. apply Z.mod_small. lia. Qed.

Corollary pending_between t : outstanding t 0 ->
  tk_pending t = false /\ tk_pending (tk_ping t) = true /\ tk_pending (tk_pong (tk_ping t)) = false.
Proof.
  intros H. pose proof (ping_outstanding _ _ H ltac:(lia)) as H1.
  pose proof (pong_outstanding _ _ H1 ltac:(lia)) as H2. cbn in H2.
  repeat split.
  - destruct (tk_pending t) eqn:E; [|reflexivity]. apply (pending_iff _ _ H) in E. lia.
  - apply (pending_iff _ _ H1). lia.
  - destruct (tk_pending (tk_pong (tk_ping t))) eqn:E; [|reflexivity]. apply (pending_iff _ _ H2) in E. lia.
Qed.

(* a PINGRESP nobody asked for: the uint8 wraps to 255 and Pending stays true until 255 more
   arrive — the pinger then dies with ErrClientMissingPong at its next turn although no ping is
   outstanding (recorded as an observation) *)
Example unsolicited_pong_wraps : tk_pings (tk_pong (tk_new 30 0)) = 255 /\ tk_pending (tk_pong (tk_new 30 0)) = true.
Proof. split; reflexivity. Qed.

(* the pinger's rule: it sends only when the window is over and nothing is pending, and it dies
   exactly when the window is over and a ping is pending *)
Lemma pinger_over t now (b : bool) :
  pinger_decide t now = (if b then PmDie else PmSend) <-> (tk_window t now < 0 /\ tk_pending t = b).
Proof.
  unfold pinger_decide. destruct (tk_window t now <? 0) eqn:E.
  - apply Z.ltb_lt in E. destruct (tk_pending t), b; split; intros H; try discriminate; try tauto; destruct H; discriminate.
  - apply Z.ltb_ge in E. split; [destruct b; discriminate|]. intros [H _]. lia.
Qed.

Theorem pinger_send_iff t now : pinger_decide t now = PmSend <-> (tk_window t now < 0 /\ tk_pending t = false).
Proof. exact (pinger_over t now false). Qed.

Theorem pinger_die_iff t now : pinger_decide t now = PmDie <-> (tk_window t now < 0 /\ tk_pending t = true).
Proof. exact (pinger_over t now true). Qed.

(* over every interleaving of sends (Reset), PINGRESPs (Pong) and pinger turns: no PINGREQ is ever
   sent while a ping is pending — the pinger dies instead, and a dead pinger sends nothing *)
Lemma apply_sent r o : Forall (fun b => b = false) (r_sent r) -> Forall (fun b => b = false) (r_sent (tk_apply r o)).
Proof.
  intros H. destruct o; cbn [tk_apply r_sent]; try exact H.
  destruct (r_dead r); [exact H|].
  destruct (pinger_decide (r_t r) now) eqn:E; cbn [r_sent]; try exact H.
  constructor; [|exact H]. apply pinger_send_iff in E. tauto.
Qed.

Theorem never_second_ping ops t0 :
  Forall (fun b => b = false) (r_sent (tk_exec (TkRun t0 false []) ops)).
Proof.
  assert (G : forall r, Forall (fun b => b = false) (r_sent r) ->
                        Forall (fun b => b = false) (r_sent (tk_exec r ops))).
  { unfold tk_exec. induction ops as [|o ops IH]; intros r H; cbn [fold_left]; [exact H|]. apply IH, apply_sent, H. }
  apply G. constructor.
Qed.

Theorem dead_pinger_stays_dead ops r : r_dead r = true -> r_dead (tk_exec r ops) = true /\ r_sent (tk_exec r ops) = r_sent r.
Proof.
  unfold tk_exec. revert r; induction ops as [|o ops IH]; intros r H; cbn [fold_left]; [auto|].
  assert (X : r_dead (tk_apply r o) = true /\ r_sent (tk_apply r o) = r_sent r).
  { destruct o; cbn [tk_apply]; rewrite ?H; auto. }
  destruct X as [X1 X2]. destruct (IH _ X1) as [Y1 Y2]. split; [exact Y1|]. rewrite Y2. exact X2.
Qed.

(* non-vacuity: keep-alive 30 units: ping at 31, no pong, next turn at 62: dies; with a pong: pings again *)
Example pinger_example :
  r_dead (tk_exec (TkRun (tk_new 30 0) false []) [OPinger 10; OPinger 31; OPinger 62]) = true /\
  r_dead (tk_exec (TkRun (tk_new 30 0) false []) [OPinger 31; OPong; OPinger 62]) = false /\
  length (r_sent (tk_exec (TkRun (tk_new 30 0) false []) [OPinger 31; OPong; OPinger 62])) = 2%nat.
Proof. repeat split. Qed.
