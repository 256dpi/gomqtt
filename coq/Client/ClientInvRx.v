(* ClientInvRx.v — the packet the processor is working on is the last one received (InvRx);
   C09_resend_on_connect. *)
From Coq Require Import List NArith Bool Lia.
From GM Require Import Base.Lts Codec.Packet Session.Ids Session.Store Session.StoreProofs
  Client.Future Client.Client Client.ClientSpec
  Client.ClientTactics Client.AMap Codec.PacketEqb Client.ClientInvCtl Client.ClientInvOwed Client.ClientInvWf
  Client.ClientInvHs Client.ClientInvSbs Client.ClientStep.
Import ListNotations.
Open Scope N_scope.

Definition is_ackp (p : packet) : bool :=
  match p with Suback _ _ | Unsuback _ | Puback _ | Pubcomp _ => true | _ => false end.

Definition rx_pc (p : ppc) (rx : list packet) : Prop :=
  match p with
  | PAckDel q | PAckFut q => (exists rest, rx = q :: rest) /\ is_ackp q = true
  | PConnack sp rc => exists rest, rx = Connack sp rc :: rest
  | PRecSave id => exists rest, rx = Pubrec id :: rest
  | PAll sp | PResend sp _ | PConnDone sp _ => exists rest, rx = Connack sp 0 :: rest
  | _ => True
  end.

Definition InvRx (s : st) : Prop := rx_pc (k_ppc (k s)) (g_rx (g s)).

Lemma InvRx_init : InvRx init.
Proof. exact I. Qed.

Lemma InvRx_step s e s' : InvOwed s -> InvRx s -> step s e = Some s' -> InvRx s'.
Proof.
  intros HO R H. pose proof (InvOwed_after _ HO) as HA. clear HO. unfold InvRx in R. unfold InvAfter in HA.
  destruct e.
  all: step_cases H.
  all: unfold InvRx; open_ctl; know_pts.
  all: cbn [rx_pc is_ackp] in R |- *.
  all: try solve [first [exact I | exact R | eexists; reflexivity | split; [eexists; reflexivity|reflexivity]]].
  (* the die body returns to the processor at a point that says nothing about g_rx *)
  all: try solve [destruct after; try contradiction; exact I].
  (* CONNACK accepted: its return code is 0 *)
  all: match goal with E : negb (?rc =? 0) = false |- _ =>
         apply negb_false_iff in E; apply N.eqb_eq in E; subst rc; exact R end.
Qed.

Lemma InvRx_reach es s : run step init es = Some s -> InvRx s.
Proof. exact (reach_inv_rel _ _ InvOwed_reach InvRx_init InvRx_step es s). Qed.

Definition InvE (s : st) : Prop := InvD s /\ InvRx s.

Lemma InvE_reach es s : run step init es = Some s -> InvE s.
Proof. intros H. exact (conj (InvD_reach _ _ H) (InvRx_reach _ _ H)). Qed.

(* ---- C09_resend_on_connect: pure control flow *)
Theorem resend_on_connect : C09_resend_on_connect_statement.
Proof.
  intros es s Hr. split; [|split; [|split]].
  - intros sp rc s' Hpc H Hcs ->.
    cbv beta iota zeta delta [step proc_hidden] in H. rewrite Hpc, Hcs in H. cbn in H.
    injection H as <-. norm. split; reflexivity.
  - intros sp e s' Hpc Hproc H.
    moves Hr Hpc Hproc H.
    eexists. split; [reflexivity|]. intros l ->. split; [|reflexivity].
    cbv beta iota zeta delta [step] in H. rewrite Hpc in H. dhead H. apply list_packet_eqb_eq. assumption.
  - intros sp q rest e s' Hpc Hproc H.
    moves Hr Hpc Hproc H.
    eexists. split; [reflexivity|]. intros ->. reflexivity.
  - intros sp s' Hpc H.
    cbv beta iota zeta delta [step proc_hidden] in H. rewrite Hpc in H.
    injection H as <-. split.
    + norm. reflexivity.
    + intros Hcs. rewrite Hcs. cbn. destruct (t_connfut (t s)); norm; reflexivity.
Qed.
