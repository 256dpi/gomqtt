(* ClientResend.v — every accepted trace passes the retransmission scanner (TraceScan.scan_resend),
   including its window clause resend_before_new. *)
From Coq Require Import List NArith Bool Lia.
From GM Require Import Base.Lts Codec.Packet Session.Store Client.Client Client.ClientSpec Client.TraceScan
  Client.ClientTactics Codec.PacketEqb Client.ClientPre Client.ClientStep.
Import ListNotations.
Open Scope N_scope.

(* what the scanner's expectation says about the state: RInit — no packet processed yet on this Client;
   RConn — an accepted CONNACK was the first packet: nobody is connected or past the "connected" check
   (quiet), the processor is about to list the store (or has ignored the CONNACK because the client was
   closed meanwhile); RDue l — l is what the processor still has to re-send *)
Definition rr (x : rexp) (s : st) : Prop :=
  match x with
  | RInit => k_ppc (k s) = PNone \/ k_ppc (k s) = PRecv true
  | RConn => quiet s /\ ((exists sp, k_ppc (k s) = PConnack sp 0) \/ (exists sp, k_ppc (k s) = PAll sp) \/ k_ppc (k s) = PRecv false)
  | RDue l => l <> [] /\ exists sp, k_ppc (k s) = PResend sp l
  | RNone =>
    match k_ppc (k s) with
    | PNone | PRecv true | PAll _ | PResend _ _ => False
    | PConnack _ rc => rc = 0 -> k_cs (k s) <> StConnecting
    | _ => True
    end
  end.

Lemma quiet_fields s : quiet s <-> quiet_f (k_cs (k s)) (k_api (k s)).
Proof. reflexivity. Qed.

(* quiet lasts until the processor declares the client connected *)
Lemma quiet_step s e s' : step s e = Some s' -> quiet s -> (forall sp d, k_ppc (k s) <> PConnDone sp d) -> quiet s'.
Proof.
  intros H [Qc Qn] Hp. unfold noreq in Qn. apply quiet_fields. destruct e.
  all: step_cases H.
  all: open_ctl; know_pts.
  all: try (split; [first [exact Qc | discriminate] | first [exact I | exact Qn]]).
  (* a call goes on with its request: it was past the "connected" check before *)
  all: try (exfalso; match goal with E : k_api _ = _ |- _ => rewrite E in Qn end; exact Qn).
  (* a request or Disconnect gets the mutex: the client is connected *)
  all: try (exfalso; apply Qc, connected_eq; assumption).
  (* the state word becomes Connected: the processor was at PConnDone *)
  all: exfalso; eapply Hp; reflexivity.
Qed.

(* requests are sent and saved only by calls that are past the "connected" check *)
Lemma api_tx_req s p a r s' : step s (ETx p a r) = Some s' -> api_send p = true -> ~ noreq s.
Proof.
  intros H Hp Hn. unfold noreq in Hn. destruct p; try discriminate Hp; try destruct dup; try discriminate Hp.
  all: step_cases H; exact Hn.
Qed.

Lemma api_save_req s p r s' : step s (ESave Outgoing p r) = Some s' -> proc_obs (ESave Outgoing p r) = false -> ~ noreq s.
Proof.
  intros H Hp Hn. unfold noreq in Hn. destruct p; try discriminate Hp.
  all: step_cases H; exact Hn.
Qed.

Definition rs (x : rexp) (p : ppc) : Prop :=
  match x with
  | RInit => p = PNone \/ p = PRecv true
  | RConn => (exists sp, p = PConnack sp 0) \/ (exists sp, p = PAll sp) \/ p = PRecv false
  | RDue l => l <> [] /\ exists sp, p = PResend sp l
  | RNone => match p with PNone | PRecv true | PAll _ | PResend _ _ => False | PConnack _ rc => rc <> 0 | _ => True end
  end.

Lemma rs_after_pub q : rs RNone (ppc_after_pub q).
Proof. destruct q; try exact I. unfold ppc_after_pub. destruct (_ =? 1); [|destruct (_ =? 2)]; exact I. Qed.

Lemma rs_sim x p e p' : pview p e p' -> rs x p ->
  (in_window x = true -> (forall q a r, e = ETx q a r -> api_send q = false) /\
                         (forall q r, e = ESave Outgoing q r -> proc_obs e = true)) ->
  exists x', resend_step x e = Some x' /\ rs x' p'.
Proof.
  intros Hv HR Hw. destruct Hv as [b p|p e p' Hp|p e p' He Hn Ht Ho].
  - exists RInit. split; [reflexivity|left; reflexivity].
  - clear Hw. destruct Hp.
    all: destruct x; cbn [rs] in HR;
         [destruct HR as [X|X] | | destruct HR as [[sp0 X]|[[sp0 X]|X]] | destruct HR as [Hl [sp0 X]]];
         try discriminate X; try contradiction.
    all: subst; try (injection X as ?; subst).
    (* hidden steps: the scanner does not see them *)
    all: try match goal with Hh : hid_next ?p0 _ |- _ =>
           first [is_var p0; destruct p0 | idtac]; cbn [hid_next] in Hh; try contradiction; eexists; (split; [reflexivity|]);
           repeat match goal with
                  | H : _ \/ _ |- _ => destruct H as [H|H]
                  | H : _ /\ _ |- _ => destruct H as [? H]
                  | H : exists b : bool, _ |- _ => destruct H as [[] H]
                  end; subst; cbn; eauto; try contradiction end.
    all: try (exists RNone; split; [reflexivity|destruct r; try destruct b; exact I]).
    + exists (if rc =? 0 then RConn else RNone). split; [reflexivity|]. destruct (N.eqb_spec rc 0) as [->|Hrc]; cbn; eauto.
    + destruct q; try contradiction; exists RNone; (split; [reflexivity|destruct b; exact I]).
    + exists RNone. split; [reflexivity|]. destruct q, cb; cbn [ppc_rx]; try exact I; apply rs_after_pub.
    + exists RNone. split; [reflexivity|]. destruct q, cb; cbn [ppc_rx]; try exact I; apply rs_after_pub.
    + exists RNone. split; [reflexivity|exact I].
    + exists RNone. split; [reflexivity|exact I].
    + exists RNone. split; [reflexivity|exact I].
    + cbn [resend_step]. rewrite H0, packet_eqb_refl. eexists. split; [reflexivity|].
      destruct r, rest; cbn; eauto. split; [discriminate|eauto].
    + exists RNone. split; [reflexivity|]. destruct x0 as [[[]|]|]; try destruct cb; try destruct b; exact I.
    + destruct x0 as [[|q l]|]; eexists; (split; [reflexivity|]); cbn; eauto. split; [discriminate|eauto].
    + exists RNone. split; [reflexivity|]. destruct r; [apply rs_after_pub|destruct b; exact I].
  - exists x. split.
    + pose proof (proc_obs_event _ He) as Hb. destruct e; try discriminate He; try reflexivity; cbn [resend_step].
      * destruct (Hn _ eq_refl).
      * rewrite (Ht _ _ _ eq_refl). destruct (api_send p0) eqn:Ea; [|reflexivity].
        destruct (in_window x) eqn:Ew; [|reflexivity]. rewrite (proj1 (Hw eq_refl) _ _ _ eq_refl) in Ea. discriminate Ea.
      * rewrite Hb. destruct d; [reflexivity|]. destruct (in_window x) eqn:Ew; [|reflexivity].
        rewrite (proj2 (Hw eq_refl) _ _ eq_refl) in Hb. discriminate Hb.
    + destruct Ho as [->|[[-> Hd]|[-> ->]]]; [exact HR| |].
      * destruct x; cbn in HR;
          [ destruct HR as [X|X]; discriminate X | | destruct HR as [[? X]|[[? X]|X]]; discriminate X
          | destruct HR as [_ [? X]]; discriminate X ].
        destruct p'; try destruct first; cbn in Hd; try contradiction; exact I.
      * destruct x; cbn in HR;
          [ right; reflexivity | contradiction | destruct HR as [[? X]|[[? X]|X]]; discriminate X
          | destruct HR as [_ [? X]]; discriminate X ].
Qed.

(* the window opens on a first CONNACK only *)
Lemma resend_to_conn x e : resend_step x e = Some RConn -> x = RInit \/ x = RConn.
Proof.
  destruct x; auto; intros H; exfalso.
  all: destruct e; cbn in H; unfold rdue in H;
    repeat match type of H with context [match ?c with _ => _ end] => destruct c end; discriminate H.
Qed.

(* what is carried along the trace: the control-point relation, and that the client is quiet where the
   window is open; the rest of rr follows *)
Definition rrel (x : rexp) (s : st) : Prop := rs x (k_ppc (k s)) /\ (x = RConn -> quiet s).

Lemma rrel_rr x s : rrel x s -> rr x s.
Proof.
  intros [HR HQ]. destruct x; cbn [rs rr] in *; [exact HR| |exact (conj (HQ eq_refl) HR)|exact HR].
  destruct (k_ppc (k s)); try exact HR. intros ->. destruct (HR eq_refl).
Qed.

Lemma resend_sim x s e s' : reach s -> rrel x s -> step s e = Some s' ->
  exists x', resend_step x e = Some x' /\ rrel x' s'.
Proof.
  intros Hr [HR HQ] Hs.
  assert (HP : pre_f (k_ppc (k s)) (k_cs (k s)) (k_api (k s))) by (destruct Hr as (es & Hr); apply (InvPre_reach _ _ Hr)).
  (* before and in the window the client is quiet *)
  assert (Hq : x <> RNone -> quiet s).
  { destruct x; cbn [rs] in HR; [|intros X; destruct (X eq_refl)|intros _; exact (HQ eq_refl)|].
    - intros _. destruct HR as [X|X]; rewrite X in HP; apply HP.
    - intros _. destruct HR as [_ [sp X]]. rewrite X in HP. apply HP. }
  destruct (rs_sim x _ e _ (reach_proc s e s' Hr Hs) HR) as (x' & Hx & HR').
  { intros Hw. assert (Hn : noreq s) by (apply Hq; intros ->; discriminate Hw). split.
    - intros q a r ->. destruct (api_send q) eqn:E; [destruct (api_tx_req _ _ _ _ _ Hs E Hn)|reflexivity].
    - intros q r ->. destruct (proc_obs (ESave Outgoing q r)) eqn:E; [reflexivity|destruct (api_save_req _ _ _ _ Hs E Hn)]. }
  exists x'. split; [exact Hx|]. split; [exact HR'|]. intros ->.
  apply (quiet_step s e s' Hs).
  - apply Hq. destruct (resend_to_conn _ _ Hx) as [-> | ->]; discriminate.
  - intros sp d X. rewrite X in HR. destruct (resend_to_conn _ _ Hx) as [-> | ->]; cbn in HR.
    + destruct HR as [Y|Y]; discriminate Y.
    + destruct HR as [[? Y]|[[? Y]|Y]]; discriminate Y.
Qed.

Lemma scan_resend_from es s0 s x : reach s0 -> rrel x s0 -> run step s0 es = Some s ->
  exists x', scan_resend x es = Some x' /\ rrel x' s.
Proof. exact (sim_run step reach rrel reach_step resend_step resend_sim es x s0 s). Qed.

(* every accepted trace passes the retransmission scanner (so: between an accepted first CONNACK and the
   last re-send no API request is sent or saved); what it still expects at the end describes the final
   state: RDue l only if the processor still has exactly l to re-send *)
Theorem scan_resend_accepted es s : run step init es = Some s ->
  exists x, scan_resend RInit es = Some x /\ rr x s.
Proof.
  intros H. destruct (scan_resend_from es init s RInit reach_init) as (x & Hx & HR); [|exact H|eauto using rrel_rr].
  split; [left; reflexivity|discriminate].
Qed.

Corollary scan_resend_due es s l : run step init es = Some s -> scan_resend RInit es = Some (RDue l) ->
  exists sp, k_ppc (k s) = PResend sp l.
Proof.
  intros H Hs. destruct (scan_resend_accepted _ _ H) as (x & Hx & R). rewrite Hs in Hx. injection Hx as <-.
  exact (proj2 R).
Qed.
