(* AMap.v — facts about the association lists of Future.v (amap_put/get/del) and their
   agreement with the packet store of Session/Store.v. *)
From Coq Require Import List NArith Bool Lia.
From GM Require Import Codec.Packet Session.Store Client.Future.
Import ListNotations.
Open Scope N_scope.

Section AMap.
  Context {A : Type}.
  Implicit Types (m : list (N * A)).

  Definition akeys m : list N := map fst m.

  Lemma aget_put m k v j : amap_get (amap_put m k v) j = if j =? k then Some v else amap_get m j.
  Proof.
    induction m as [|[k' v'] m IH]; cbn [amap_put amap_get].
    - destruct (j =? k); reflexivity.
    - destruct (N.eqb_spec k k') as [->|Hk]; cbn [amap_get].
      + destruct (N.eqb_spec j k'); reflexivity.
      + rewrite IH. destruct (N.eqb_spec j k') as [->|]; [|reflexivity].
        destruct (N.eqb_spec k' k); [congruence|reflexivity].
  Qed.

  Lemma aget_none_notin m k : amap_get m k = None <-> ~ In k (akeys m).
  Proof.
    induction m as [|[k' v'] m IH]; cbn [amap_get akeys map fst In]; [tauto|].
    destruct (N.eqb_spec k k') as [->|Hk].
    - split; [discriminate|intros H; exfalso; apply H; now left].
    - rewrite IH. unfold akeys. split; [intros H [E|E]; [congruence|tauto]|tauto].
  Qed.

  Lemma akeys_put m k v :
    akeys (amap_put m k v) = match amap_get m k with Some _ => akeys m | None => akeys m ++ [k] end.
  Proof.
    induction m as [|[k' v'] m IH]; cbn [amap_put amap_get akeys map fst app]; [reflexivity|].
    destruct (N.eqb_spec k k') as [->|Hk]; cbn [map fst]; [reflexivity|].
    fold (akeys (amap_put m k v)). rewrite IH. fold (akeys m).
    destruct (amap_get m k); reflexivity.
  Qed.

  Lemma anodup_put m k v : NoDup (akeys m) -> NoDup (akeys (amap_put m k v)).
  Proof.
    intros H. rewrite akeys_put. destruct (amap_get m k) eqn:E; [exact H|].
    apply (NoDup_Add (Add_app k (akeys m) [])). rewrite app_nil_r. split; [exact H|apply aget_none_notin, E].
  Qed.

  Lemma aget_del m k j : NoDup (akeys m) ->
    amap_get (amap_del m k) j = if j =? k then None else amap_get m j.
  Proof.
    induction m as [|[k' v'] m IH]; intros Hnd; cbn [amap_del amap_get].
    - destruct (j =? k); reflexivity.
    - inversion Hnd as [|? ? Hnotin Hnd' Heq]. clear Heq.
      destruct (N.eqb_spec k k') as [Ek|Hk].
      + destruct (N.eqb_spec j k) as [Ej|Hj].
        * apply aget_none_notin. rewrite Ej, Ek. exact Hnotin.
        * destruct (N.eqb_spec j k') as [Ejk|]; [congruence|reflexivity].
      + cbn [amap_get]. rewrite IH by assumption.
        destruct (N.eqb_spec j k') as [Ejk|]; [|reflexivity].
        destruct (N.eqb_spec j k); [congruence|reflexivity].
  Qed.

  Lemma in_amap_put m k v x : In x (amap_put m k v) -> x = (k, v) \/ In x m.
  Proof.
    induction m as [|[k' v'] m IH]; cbn [amap_put].
    - intros [H|H]; [left; symmetry; exact H|contradiction].
    - destruct (N.eqb_spec k k') as [->|Hne].
      + intros [H|H]; [left; symmetry; exact H|right; right; exact H].
      + intros [H|H]; [right; left; exact H|]. destruct (IH H) as [X|X]; [left; exact X|right; right; exact X].
  Qed.

  Lemma in_amap_del m k x : In x (amap_del m k) -> In x m.
  Proof.
    induction m as [|[k' v'] m IH]; cbn [amap_del]; [intros H; exact H|].
    destruct (k =? k'); [intros H; right; exact H|]. intros [H|H]; [left; exact H|right; apply IH, H].
  Qed.

  Lemma akeys_del_incl m k : incl (akeys (amap_del m k)) (akeys m).
  Proof. intros j Hj. apply in_map_iff in Hj as (x & <- & Hx). apply in_map, (in_amap_del m k), Hx. Qed.

  Lemma anodup_del m k : NoDup (akeys m) -> NoDup (akeys (amap_del m k)).
  Proof.
    induction m as [|[k' v'] m IH]; intros Hnd; cbn [amap_del akeys map fst]; [constructor|].
    inversion Hnd as [|? ? Hnotin Hnd']; subst.
    destruct (k =? k'); [exact Hnd'|]. cbn [map fst]. constructor; [|apply IH; exact Hnd'].
    intros H. apply Hnotin. apply (akeys_del_incl m k). exact H.
  Qed.

  Lemma aget_in m k v : amap_get m k = Some v -> In (k, v) m.
  Proof.
    induction m as [|[k' v'] m IH]; cbn [amap_get]; [discriminate|].
    destruct (N.eqb_spec k k') as [->|]; [intros H; injection H as ->; now left|intros H; right; auto].
  Qed.

  Lemma in_aget m k v : NoDup (akeys m) -> In (k, v) m -> amap_get m k = Some v.
  Proof.
    induction m as [|[k' v'] m IH]; intros Hnd Hin; [contradiction|].
    inversion Hnd as [|? ? Hnotin Hnd']; subst. cbn [amap_get].
    destruct Hin as [E|Hin].
    - injection E as -> ->. rewrite N.eqb_refl. reflexivity.
    - destruct (N.eqb_spec k k') as [->|]; [|auto].
      exfalso. apply Hnotin. change k' with (fst (k', v)). apply in_map. exact Hin.
  Qed.
End AMap.

(* the packet store is the same association list *)
Lemma store_put_amap st i p : store_put st i p = amap_put st i p.
Proof. induction st as [|[j q] st IH]; cbn; [reflexivity|]. destruct (i =? j); [reflexivity|]. rewrite IH. reflexivity. Qed.
Lemma store_lookup_amap st i : store_lookup st i = amap_get st i.
Proof. induction st as [|[j q] st IH]; cbn; [reflexivity|]. destruct (i =? j); [reflexivity|]. exact IH. Qed.
Lemma store_delete_amap st i : store_delete st i = amap_del st i.
Proof. induction st as [|[j q] st IH]; cbn; [reflexivity|]. destruct (i =? j); [reflexivity|]. rewrite IH. reflexivity. Qed.
