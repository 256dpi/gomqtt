(* ClientInvWf.v — the association lists of the state have distinct keys. *)
From Coq Require Import List NArith Bool Lia.
From GM Require Import Base.Lts Codec.Packet Session.Ids Session.Store Client.Future Client.Client
  Client.ClientTactics Client.AMap.
Import ListNotations.
Open Scope N_scope.

(* what the future helpers do to the tables *)
Lemma t_protected_fut_resolve stt s c v : t_protected (t (fut_resolve stt s c v)) = t_protected (t s).
Proof. apply fut_resolve_frame. Qed.
Lemma t_connfut_fut_resolve stt s c v : t_connfut (t (fut_resolve stt s c v)) = t_connfut (t s).
Proof. apply fut_resolve_frame. Qed.
Lemma fkeys_fut_resolve stt s c v : akeys (t_futs (t (fut_resolve stt s c v))) = akeys (t_futs (t s)).
Proof. apply fut_resolve_frame. Qed.

Lemma fold_cancel_store l s :
  t_store (t (fold_left (fun acc (ic : N * N) => fut_cancel acc (snd ic) VNil) l s)) = t_store (t s).
Proof. revert s. induction l as [|x l IH]; intros s; cbn [fold_left]; [reflexivity|]. rewrite IH. apply t_store_fut_resolve. Qed.

Lemma fkeys_store_clear_f s : akeys (t_futs (t (store_clear_f s))) = akeys (t_futs (t s)).
Proof. apply store_clear_frame. Qed.
Lemma t_store_store_clear_f s :
  t_store (t (store_clear_f s)) = if t_protected (t s) then t_store (t s) else [].
Proof. unfold store_clear_f. destruct (t_protected (t s)); reflexivity. Qed.
Lemma t_protected_store_clear_f s : t_protected (t (store_clear_f s)) = t_protected (t s).
Proof. apply store_clear_frame. Qed.
Lemma t_connfut_store_clear_f s : t_connfut (t (store_clear_f s)) = t_connfut (t s).
Proof. apply store_clear_frame. Qed.

Lemma fkeys_store_put_f s id c : akeys (t_futs (t (store_put_f s id c))) = akeys (t_futs (t s)).
Proof. apply store_put_frame. Qed.
Lemma t_store_store_put_f s id c : t_store (t (store_put_f s id c)) = amap_put (t_store (t s)) id c.
Proof.
  unfold store_put_f, fut_cancel. destruct (amap_get (t_store (t s)) id) as [c'|]; [destruct (c' =? c)|];
    cbn [t t_store set_t t_set_store]; rewrite ?t_store_fut_resolve; reflexivity.
Qed.
Lemma t_protected_store_put_f s id c : t_protected (t (store_put_f s id c)) = t_protected (t s).
Proof. apply store_put_frame. Qed.
Lemma t_connfut_store_put_f s id c : t_connfut (t (store_put_f s id c)) = t_connfut (t s).
Proof. apply store_put_frame. Qed.

Lemma t_store_fut_complete s c v : t_store (t (fut_complete s c v)) = t_store (t s). Proof. apply t_store_fut_resolve. Qed.
Lemma t_store_fut_cancel s c v : t_store (t (fut_cancel s c v)) = t_store (t s). Proof. apply t_store_fut_resolve. Qed.
Lemma t_protected_fut_complete s c v : t_protected (t (fut_complete s c v)) = t_protected (t s). Proof. apply fut_resolve_frame. Qed.
Lemma t_protected_fut_cancel s c v : t_protected (t (fut_cancel s c v)) = t_protected (t s). Proof. apply fut_resolve_frame. Qed.
Lemma t_connfut_fut_complete s c v : t_connfut (t (fut_complete s c v)) = t_connfut (t s). Proof. apply fut_resolve_frame. Qed.
Lemma t_connfut_fut_cancel s c v : t_connfut (t (fut_cancel s c v)) = t_connfut (t s). Proof. apply fut_resolve_frame. Qed.
Lemma fkeys_fut_complete s c v : akeys (t_futs (t (fut_complete s c v))) = akeys (t_futs (t s)). Proof. apply fut_resolve_frame. Qed.
Lemma fkeys_fut_cancel s c v : akeys (t_futs (t (fut_cancel s c v))) = akeys (t_futs (t s)). Proof. apply fut_resolve_frame. Qed.

Global Hint Rewrite t_store_fut_resolve t_protected_fut_resolve t_connfut_fut_resolve fkeys_fut_resolve
  fkeys_store_clear_f t_store_store_clear_f t_protected_store_clear_f t_connfut_store_clear_f
  fkeys_store_put_f t_store_store_put_f t_protected_store_put_f t_connfut_store_put_f
  t_store_fut_complete t_store_fut_cancel t_protected_fut_complete t_protected_fut_cancel
  t_connfut_fut_complete t_connfut_fut_cancel fkeys_fut_complete fkeys_fut_cancel : proj.

Definition InvWf (s : st) : Prop :=
  NoDup (akeys (s_in (sess s))) /\ NoDup (akeys (s_out (sess s))) /\
  NoDup (akeys (g_hs (g s))) /\ NoDup (akeys (t_store (t s))) /\ NoDup (akeys (t_futs (t s))).

Lemma InvWf_init : InvWf init.
Proof. repeat split; constructor. Qed.

Lemma nodup_store_save st p : NoDup (akeys st) -> NoDup (akeys (store_save st p)).
Proof. unfold store_save. destruct (get_id p); [|auto]. rewrite store_put_amap. apply anodup_put. Qed.
Lemma nodup_store_delete st i : NoDup (akeys st) -> NoDup (akeys (store_delete st i)).
Proof. rewrite store_delete_amap. apply anodup_del. Qed.
Lemma nodup_store_setdup st p : NoDup (akeys st) -> NoDup (akeys (store_setdup st p)).
Proof.
  unfold store_setdup. destruct p; auto. destruct (store_lookup st id) as [[]|]; auto.
  rewrite store_put_amap. apply anodup_put.
Qed.
Lemma nodup_hs_open h id : NoDup (akeys h) -> NoDup (akeys (hs_open h id)).
Proof. unfold hs_open. destruct (amap_get h id); [auto|apply anodup_put]. Qed.
Lemma nodup_hs_incr h id : NoDup (akeys h) -> NoDup (akeys (hs_incr h id)).
Proof. unfold hs_incr. destruct (amap_get h id); apply anodup_put. Qed.

(* InvWf over the five tables *)
Definition wf_inv (si so : store) (hs st : list (N * N)) (fk : list N) : Prop :=
  NoDup (akeys si) /\ NoDup (akeys so) /\ NoDup (akeys hs) /\ NoDup (akeys st) /\ NoDup fk.

Lemma InvWf_step s e s' : InvWf s -> step s e = Some s' -> InvWf s'.
Proof.
  intros (W1 & W2 & W3 & W4 & W5) H.
  destruct e.
  all: step_cases H.
  all: try (destruct cu; cbn [cu_hidden] in *; try discriminate;
            match goal with E : Some _ = Some _ |- _ => injection E as E; subst end).
  all: lazymatch goal with |- InvWf ?x =>
         change (wf_inv (s_in (sess x)) (s_out (sess x)) (g_hs (g x)) (t_store (t x)) (akeys (t_futs (t x)))) end.
  all: open_ctl.
  all: repeat split;
       first [ assumption | constructor
             | apply nodup_store_save; assumption | apply nodup_store_delete; assumption
             | apply nodup_store_setdup; assumption | apply nodup_hs_open; assumption
             | apply nodup_hs_incr; assumption | apply anodup_put; assumption | apply anodup_del; assumption
             | apply anodup_del; apply anodup_put; assumption
             | destruct (t_protected (t s)); [assumption|constructor] ].
Qed.

Lemma InvWf_reach es s : run step init es = Some s -> InvWf s.
Proof. apply reach_inv; [exact InvWf_init|exact InvWf_step]. Qed.
