(* ServiceFutures.v — what can resolve a command future: one step of the monitor changes the
   status of a pending future only in the ways listed by `explains`; resolved futures never
   change; a command future gets attached to the client future of its own request only. *)
From Coq Require Import List NArith Bool Lia Sorted.
From GM Require Import Base.Lts Codec.Packet Client.Service Client.ServiceSpec Client.ServiceLemmas Client.ServiceProofs
  Client.ServiceStop.
Import ListNotations.
Open Scope N_scope.

(* command n's request is being handed to the client: it is the head of the queue of a running dispatcher *)
Definition dispatching (s : state) (n : N) (b : body) : Prop :=
  sp s = SDispatch /\ exists q, queue s = (n, b) :: q.

Inductive explains (s : state) (e : event) (n : N) : fstatus -> Prop :=
(* completed: the acknowledgement for packet id reaches the client future n is attached to *)
| ExAck id : e = EAck id -> store_get id (store s) = Some (SCmd n) -> explains s e n (FCompleted id)
(* completed: a QoS 0 publish, when its send succeeded *)
| ExQos0 id b b' : e = EDispSend id b true -> dispatching s n b' -> is_qos0 b' = true -> explains s e n (FCompleted id)
(* cancelled: failed dispatch *)
| ExDispErr k b : e = EDispErr k -> dispatching s n b -> explains s e n (FCancelled CDispatchFail)
| ExDispErr' k : e = EDispErr k -> sp s = SDispFailing n k -> explains s e n (FCancelled CDispatchFail)
(* cancelled: queue timeout of the caller *)
| ExQueueTimeout b : e = EQueueTimeout -> ap s = ACmd n b true -> explains s e n (FCancelled CQueueTimeout)
(* cancelled: the client future it is attached to was cancelled (subscription rejected) *)
| ExReject id : e = EAckReject id -> store_get id (store s) = Some (SCmd n) -> explains s e n (FCancelled CClientCancel)
(* cancelled: Stop(true) returns; n was attached in the store or still queued *)
| ExStop : e = EStopRet true -> ap s = AStop true true ->
           In n (store_cmds (store s)) \/ In n (map fst (queue s)) -> explains s e n (FCancelled CStopClear)
(* cancelled: a newer request with the same packet id replaces its client future in the store *)
| ExReplacedR id l ok : e = EResubSend id l ok -> store_get id (store s) = Some (SCmd n) -> explains s e n (FCancelled CReplaced)
| ExReplacedD id b ok : e = EDispSend id b ok -> store_get id (store s) = Some (SCmd n) -> explains s e n (FCancelled CReplaced).

Lemma kind_eqb_eq a b : kind_eqb a b = true -> a = b.
Proof. destruct a, b; cbn; intros H; try reflexivity; discriminate. Qed.

Ltac fut_cases H :=
  repeat match type of H with
  | fut_get _ (fut_resolve _ _ _) = Some _ =>
    let H1 := fresh "Hy" in let H2 := fresh "Hn" in
    apply fut_resolve_cases in H; destruct H as [H|(H & H1 & H2)]
  | fut_get _ (fut_resolve_all _ _ _) = Some _ =>
    let H1 := fresh "Hy" in let H2 := fresh "Hn" in
    apply fut_resolve_all_cases in H; destruct H as [H|(H & H1 & H2)]
  end.

Theorem futures_step s e s' n st :
  step s e = Some s' ->
  fut_get n (futs s) = Some FPending -> fut_get n (futs s') = Some st -> st <> FPending ->
  explains s e n st.
Proof.
  intros H Hp Hs Hst. destruct e; step_inv H.
  all: cbn in Hs; rewrite ?pop_futs, ?pop_store in Hs.
  all: try (rewrite Hp in Hs; injection Hs as <-; contradiction Hst; reflexivity).
  all: try (rewrite fut_get_app, Hp in Hs; injection Hs as <-; contradiction Hst; reflexivity).
  all: try match type of Hs with context [match store_get ?i ?t with _ => _ end] =>
             let Eg := fresh "Eg" in destruct (store_get i t) as [[| m |]|] eqn:Eg end.
  all: try (destruct clear).
  all: cbn in Hs; fut_cases Hs.
  all: try (rewrite Hp in Hs; injection Hs as <-; contradiction Hst; reflexivity).
  all: subst.
  all: try (eapply ExAck; eauto; fail).
  all: try (eapply ExReject; eauto; fail).
  all: try (eapply ExQueueTimeout; eauto; fail).
  all: try (eapply ExReplacedR; eauto; fail).
  all: try (eapply ExReplacedD; eauto; fail).
  all: try (eapply ExDispErr'; eauto; fail).
  all: try (eapply ExDispErr; [reflexivity|split; eauto]; fail).
  all: try (eapply ExQos0; [reflexivity|split; eauto|assumption]; fail).
  all: try (match goal with Ek : kind_eqb ?a ?b = true |- _ => apply kind_eqb_eq in Ek; subst end; eapply ExDispErr'; eauto; fail).
  all: try (match goal with Eo : negb (eqb true ?o) = false |- _ => destruct o; [|discriminate Eo] end;
            eapply ExStop; eauto; fail).
Qed.

(* the table of futures only grows: a known future stays known, a resolved one keeps its status
   (the `done` flag of future.Future) *)
Definition fle (fs fs' : futs_t) : Prop :=
  forall n, (fut_get n fs <> None -> fut_get n fs' <> None) /\
            (forall st, fut_get n fs = Some st -> st <> FPending -> fut_get n fs' = Some st).

Lemma fle_refl fs : fle fs fs.
Proof. intros n. auto. Qed.

Lemma fle_trans fs1 fs2 fs3 : fle fs1 fs2 -> fle fs2 fs3 -> fle fs1 fs3.
Proof. intros H1 H2 n. destruct (H1 n) as [A1 B1], (H2 n) as [A2 B2]. split; auto. Qed.

Lemma fle_resolve m st fs : fle fs (fut_resolve m st fs).
Proof.
  intros n. split.
  - intros H H'. apply fut_resolve_dom in H'. contradiction.
  - intros x Hx Hp. apply fut_resolve_stable; assumption.
Qed.

Lemma fle_resolve_all ns : forall st fs, fle fs (fut_resolve_all ns st fs).
Proof.
  unfold fut_resolve_all. induction ns as [|k ns IH]; intros st fs; cbn [fold_left]; [apply fle_refl|].
  eapply fle_trans; [apply fle_resolve|apply IH].
Qed.

Lemma fle_app fs k st : fle fs (fs ++ [(k, st)]).
Proof. intros n. rewrite fut_get_app. destruct (fut_get n fs); split; try discriminate; auto; intros H; contradiction. Qed.

Lemma futs_step s e s' : step s e = Some s' -> fle (futs s) (futs s').
Proof.
  intros H. destruct e; step_inv H.
  all: cbn; rewrite ?pop_futs, ?pop_store.
  all: try match goal with |- context [match store_get ?i ?t with _ => _ end] =>
             let Eg := fresh "Eg" in destruct (store_get i t) as [[| m |]|] eqn:Eg end.
  all: try (destruct clear).
  all: cbn; repeat first [apply fle_refl | apply fle_app | (eapply fle_trans; [|first [apply fle_resolve | apply fle_resolve_all]])].
Qed.

Theorem futures_stable s e s' n st :
  step s e = Some s' -> fut_get n (futs s) = Some st -> st <> FPending -> fut_get n (futs s') = Some st.
Proof. intros H. apply (futs_step s e s' H n). Qed.

(* futures are never forgotten: a known future stays known *)
Theorem futures_kept s e s' n :
  step s e = Some s' -> fut_get n (futs s) <> None -> fut_get n (futs s') <> None.
Proof. intros H. apply (futs_step s e s' H n). Qed.

(* a command future gets attached (in the shared store, under packet id `id`) only when the
   dispatcher hands that command's own request, with that id, to the connection *)
Theorem attach_step s e s' id n :
  step s e = Some s' -> store_get id (store s') = Some (SCmd n) ->
  store_get id (store s) = Some (SCmd n) \/
  (exists b b', e = EDispSend id b true /\ dispatching s n b' /\ body_eqb b b' = true /\ is_qos0 b' = false).
Proof.
  intros H Hg. destruct e; step_inv H.
  all: cbn in Hg; rewrite ?pop_store in Hg.
  all: try (left; exact Hg).
  all: try (destruct clear; cbn in Hg; first [left; exact Hg | discriminate Hg]).
  all: repeat match type of Hg with
       | context [store_get _ (store_del _ _)] => rewrite store_get_del in Hg
       | context [store_get _ (store_put _ _ _)] => rewrite store_get_put in Hg
       end.
  all: repeat match type of Hg with context [if ?c then _ else _] => let Ec := fresh "Ec" in destruct c eqn:Ec end.
  all: try discriminate Hg.
  all: try (left; exact Hg).
  all: try (injection Hg as <-; apply N.eqb_eq in Ec; subst; right; do 2 eexists; split; [reflexivity|];
            split; [split; eauto|]; split; assumption).
Qed.

(* ---- how the dispatcher is entered, and that only a running dispatcher hands requests out *)

Theorem ready_step s e s' :
  step s e = Some s' ->
  ready s' = ready s \/
  (ready s' = ready s + 1 /\ sp s' = SDispatch /\
   ((exists b, e = EOnline b /\ sp s = SConnecting /\ resub_list (subs s) = []) \/
    (exists id, e = EAck id /\ sp s = SResubWait id /\ store_get id (store s) = Some SResub))).
Proof.
  intros H. destruct e; step_inv H.
  all: try (left; reflexivity).
  all: try (destruct clear; left; reflexivity).
  all: try (left; cbn; unfold pop_cmd, handover; cbn; destruct (ap s) as [| | |? ? []]; reflexivity).
  - right. cbn. split; [reflexivity|]. split; [reflexivity|]. left. eexists; split; [reflexivity|]. split; first [assumption|reflexivity].
  - right. cbn. split; [reflexivity|]. split; [reflexivity|]. right. apply N.eqb_eq in E2; subst. eexists; split; [reflexivity|]. split; first [assumption|reflexivity].
Qed.

Theorem dispatch_needs_dispatcher s e s' :
  step s e = Some s' ->
  (forall id b ok, e = EDispSend id b ok -> sp s = SDispatch) /\
  (forall k, e = EDispErr k -> sp s = SDispatch \/ exists n, sp s = SDispFailing n k).
Proof.
  intros H. split.
  - intros id b ok ->. step_inv H; reflexivity.
  - intros k ->. step_inv H; [left; reflexivity|right]. apply kind_eqb_eq in E0; subst. eexists; reflexivity.
Qed.
