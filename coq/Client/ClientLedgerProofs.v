(* ClientLedgerProofs.v — proofs of the statements of ClientLedger.v: conservation of the outgoing
   store over whole accepted traces (nothing_dropped), the ledger (ledger_exact), the ledger scanner
   (scan_ledger_accepted) and the retransmission companions (recorded_is_resent,
   resent_before_anything_else, saved_is_listed).
   Built on ClientKept.kept_until_acked (one step of an outgoing entry), ClientScan3.kept_sim
   (scan_kept), ClientResend.scan_resend_from (the retransmission scanner) and ClientStep.step_ghost;
   the file's own part is a small invariant (only PUBLISH requests reach SavePacket) and the inductions
   over the trace. *)
From Coq Require Import List NArith Bool Lia.
From GM Require Import Base.Lts Codec.Packet Session.Ids Session.Store Session.StoreProofs
  Client.Future Client.Client Client.ClientSpec Client.TraceScan
  Client.ClientTactics Client.AMap Codec.PacketEqb Client.ClientInvWf Client.ClientInvSbs Client.ClientKept
  Client.ClientPre Client.ClientStep Client.ClientResend Client.ClientScan3 Client.ClientLedger.
Import ListNotations.
Open Scope N_scope.

(* ------------------------------------------------------------------ one step, read off the event *)

(* the log of received packets grows by Rx events and by nothing else *)
Lemma rx_step s e s' : step s e = Some s' ->
  g_rx (g s') = match e with ERx p => p :: g_rx (g s) | _ => g_rx (g s) end.
Proof. intros H. apply (step_ghost _ _ _ H). Qed.

(* the outgoing store changes as the ledger says *)
Lemma sout_step s e s' : step s e = Some s' -> s_out (sess s') = ledger_step (s_out (sess s)) e.
Proof. intros H. apply (step_ghost _ _ _ H). Qed.

(* only PUBLISH requests get to SavePacket *)
Definition InvSv (s : st) : Prop :=
  forall c rq id, k_api (k s) = Some (c, AReqSave rq id) -> exists m, rq = RPub m.

Lemma InvSv_init : InvSv init.
Proof. intros c rq id H. discriminate H. Qed.

Definition sv_ok (a : option (N * apc)) : Prop :=
  match a with Some (_, AReqSave rq _) => exists m, rq = RPub m | _ => True end.

Lemma InvSv_fields s : InvSv s <-> sv_ok (k_api (k s)).
Proof.
  unfold InvSv. split.
  - intros H. destruct (k_api (k s)) as [[c []]|]; cbn; eauto.
  - intros H c rq id E. rewrite E in H. exact H.
Qed.

Lemma InvSv_step s e s' : InvSv s -> step s e = Some s' -> InvSv s'.
Proof.
  intros HI H. apply InvSv_fields. apply InvSv_fields in HI. destruct e.
  all: step_cases H; open_ctl; know_pts.
  all: first [exact HI | exact I | eexists; reflexivity].
Qed.

Lemma InvSv_reach es s : run step init es = Some s -> InvSv s.
Proof. apply reach_inv; [exact InvSv_init|exact InvSv_step]. Qed.

(* ------------------------------------------------------------------ last_rx *)

Definition rx_upd (x : option packet) (e : event) : option packet :=
  match e with ERx p => Some p | _ => x end.

Lemma last_rx_fold es : last_rx es = fold_left rx_upd es None.
Proof. reflexivity. Qed.

Lemma fold_rx_from b : forall x,
  fold_left rx_upd b x = match fold_left rx_upd b None with Some p => Some p | None => x end.
Proof.
  induction b as [|e b IH]; intros x; cbn [fold_left]; [reflexivity|].
  destruct e; cbn [rx_upd]; try apply IH.
  rewrite (IH (Some p)). destruct (fold_left rx_upd b None); reflexivity.
Qed.

Lemma last_rx_app a b :
  last_rx (a ++ b) = match last_rx b with Some p => Some p | None => last_rx a end.
Proof. rewrite !last_rx_fold, fold_left_app. apply fold_rx_from. Qed.

(* splitting at a Session call: the last packet received came after it, or nothing came after it *)
Lemma last_rx_split es1 e0 es2 p : (forall q, e0 <> ERx q) ->
  last_rx (es1 ++ e0 :: es2) = Some p ->
  last_rx es2 = Some p \/ (last_rx es2 = None /\ last_rx es1 = Some p).
Proof.
  intros Hne H. rewrite last_rx_app in H.
  change (e0 :: es2) with ([e0] ++ es2) in H. rewrite last_rx_app in H.
  destruct (last_rx es2) as [q|]; [left; exact H|right].
  assert (E0 : last_rx [e0] = None).
  { destruct e0; try reflexivity. exfalso. eapply Hne. reflexivity. }
  rewrite E0 in H. split; [reflexivity|exact H].
Qed.

(* the head of the model's log is the packet most recently received in the observable history *)
Lemma hd_rx es s : run step init es = Some s -> hd_error (g_rx (g s)) = last_rx es.
Proof.
  rewrite last_rx_fold. apply (scan_fold rx_upd (fun x s => hd_error (g_rx (g s)) = x)); [|reflexivity].
  intros x s0 e s1 _ <- Hs. rewrite (rx_step _ _ _ Hs). destruct e; reflexivity.
Qed.

(* ------------------------------------------------------------------ answered: monotone in the history *)

Lemma answered_snoc es2 e what on : answered es2 what on -> answered (es2 ++ [e]) what on.
Proof.
  intros (pre & post & p & -> & Hl & Hon).
  exists pre, (post ++ [e]), p. split; [|split; assumption].
  rewrite <- app_assoc. reflexivity.
Qed.

Lemma in_flight_snoc es1 es2 e what on :
  answered_in_flight es1 es2 what on -> answered_in_flight es1 (es2 ++ [e]) what on.
Proof.
  intros (pre & post & p & -> & Hl & Hl1 & Hon).
  exists pre, (post ++ [e]), p. split; [|split; [|split]; assumption].
  rewrite <- app_assoc. reflexivity.
Qed.

(* the reaction that has just happened *)
Lemma answered_now es1 e0 es2 what on p : (forall q, e0 <> ERx q) ->
  last_rx (es1 ++ e0 :: es2) = Some p -> on p = true ->
  answered (es2 ++ [what]) what on \/ answered_in_flight es1 (es2 ++ [what]) what on.
Proof.
  intros Hne Hl Hon. destruct (last_rx_split _ _ _ _ Hne Hl) as [H2|[H2 H1]].
  - left. exists es2, [], p. split; [reflexivity|split; assumption].
  - right. exists es2, [], p. split; [reflexivity|split; [|split]; assumption].
Qed.

(* ------------------------------------------------------------------ conservation *)

Definition save_ev (m : message) (id : N) : event := ESave Outgoing (Publish false m id) Ok.

Lemma save_ev_not_rx m id q : save_ev m id <> ERx q.
Proof. discriminate. Qed.

Lemma save_step s m id s' : step s (save_ev m id) = Some s' ->
  store_lookup (s_out (sess s')) id = Some (Publish false m id).
Proof.
  intros H. rewrite (sout_step _ _ _ H). unfold save_ev. cbn [ledger_step].
  unfold store_save. cbn [get_id]. rewrite lookup_put, N.eqb_refl. reflexivity.
Qed.

Lemma is_pubrec_refl id : is_pubrec id (Pubrec id) = true.
Proof. cbn. apply N.eqb_refl. Qed.

(* why an entry saved under id is no longer recorded: deleted on an acknowledgement, reset, or replaced by a
   later request; and how it came to be replaced by the PUBREL — both are facts about the history after
   the save, and stay true when the history grows *)
Definition gone (es1 : list event) (id : N) (es2 : list event) : Prop :=
  (answered es2 (EDelete Outgoing id Ok) (is_ack_for id) \/
   answered_in_flight es1 es2 (EDelete Outgoing id Ok) (is_ack_for id)) \/
  (exists w, In (EReset w Ok) es2) \/ (exists m', In (ESave Outgoing (Publish false m' id) Ok) es2).

Definition relled (es1 : list event) (id : N) (es2 : list event) : Prop :=
  answered es2 (ESave Outgoing (Pubrel id) Ok) (is_pubrec id) \/
  answered_in_flight es1 es2 (ESave Outgoing (Pubrel id) Ok) (is_pubrec id).

Lemma gone_snoc es1 id es2 e : gone es1 id es2 -> gone es1 id (es2 ++ [e]).
Proof.
  intros [[A|A]|[(w & A)|(m' & A)]].
  - left; left. apply answered_snoc, A.
  - left; right. apply in_flight_snoc, A.
  - right; left. exists w. apply in_or_app. left. exact A.
  - right; right. exists m'. apply in_or_app. left. exact A.
Qed.

Lemma relled_snoc es1 id es2 e : relled es1 id es2 -> relled es1 id (es2 ++ [e]).
Proof. intros [A|A]; [left; apply answered_snoc, A|right; apply in_flight_snoc, A]. Qed.

(* the fate of the request, with what "recorded" means left open: in the store, or in a listing *)
Definition fate (pub rel : Prop) (es1 : list event) (id : N) (es2 : list event) : Prop :=
  pub \/ (rel /\ relled es1 id es2) \/ gone es1 id es2.

Lemma fate_cases (pub rel : Prop) es1 id es2 : fate pub rel es1 id es2 ->
     pub
  \/ (rel /\ answered es2 (ESave Outgoing (Pubrel id) Ok) (is_pubrec id))
  \/ answered es2 (EDelete Outgoing id Ok) (is_ack_for id)
  \/ (exists w, In (EReset w Ok) es2)
  \/ (exists m', In (ESave Outgoing (Publish false m' id) Ok) es2)
  \/ (rel /\ answered_in_flight es1 es2 (ESave Outgoing (Pubrel id) Ok) (is_pubrec id))
  \/ answered_in_flight es1 es2 (EDelete Outgoing id Ok) (is_ack_for id).
Proof. unfold fate, relled, gone. tauto. Qed.

(* what the next event of an accepted history does to a recorded entry — kept_until_acked with its
   control-point clauses translated into the observable history *)
Lemma entry_step es1 m0 id0 es2 s1 e s2 id p :
  run step init (es1 ++ save_ev m0 id0 :: es2) = Some s1 -> step s1 e = Some s2 ->
  store_lookup (s_out (sess s1)) id = Some p ->
     store_lookup (s_out (sess s2)) id = Some p
  \/ store_lookup (s_out (sess s2)) id = Some (set_dup p)
  \/ (store_lookup (s_out (sess s2)) id = Some (Pubrel id) /\ relled es1 id (es2 ++ [e]))
  \/ gone es1 id (es2 ++ [e]).
Proof.
  intros Hr Hs Hl.
  pose proof (hd_rx _ _ Hr) as Hhd.
  assert (Hin : In e (es2 ++ [e])) by (apply in_or_app; right; left; reflexivity).
  destruct (kept_until_acked _ _ _ _ Hr Hs id p Hl)
    as [K|[K|[(K & -> & (q & rest & Hrx & Hack & _))|[(K & -> & (rest & Hrx))|[(w & -> & _)|(c & rq & Hapi & ->)]]]]].
  - left. exact K.
  - right. left. exact K.
  - do 3 right. left.
    rewrite Hrx in Hhd. cbn [hd_error] in Hhd. symmetry in Hhd.
    exact (answered_now _ _ _ _ _ _ (save_ev_not_rx m0 id0) Hhd Hack).
  - right. right. left. split; [exact K|].
    rewrite Hrx in Hhd. cbn [hd_error] in Hhd. symmetry in Hhd.
    exact (answered_now _ _ _ _ _ _ (save_ev_not_rx m0 id0) Hhd (is_pubrec_refl id)).
  - do 3 right. right. left. exists w. exact Hin.
  - do 3 right. right. right. destruct (InvSv_reach _ _ Hr _ _ _ Hapi) as [m' ->]. exists m'. exact Hin.
Qed.

Lemma snoc_split (es1 : list event) e0 es2 e : es1 ++ e0 :: es2 ++ [e] = (es1 ++ e0 :: es2) ++ [e].
Proof. rewrite <- app_assoc. reflexivity. Qed.

Lemma run_snoc es e s : run step init (es ++ [e]) = Some s ->
  exists s1, run step init es = Some s1 /\ step s1 e = Some s.
Proof.
  intros Hr. apply run_prefix in Hr as (s1 & H1 & H2). exists s1. split; [exact H1|].
  cbn [run] in H2. destruct (step s1 e) as [s2|]; [|discriminate H2]. exact H2.
Qed.

Lemma dropped_fate es1 m id es2 : forall s, run step init (es1 ++ save_ev m id :: es2) = Some s ->
  fate (exists d, store_lookup (s_out (sess s)) id = Some (Publish d m id))
       (store_lookup (s_out (sess s)) id = Some (Pubrel id)) es1 id es2.
Proof.
  induction es2 as [|e es2 IH] using rev_ind; intros s Hr.
  - destruct (run_snoc _ _ _ Hr) as (s0 & _ & Hs).
    left. exists false. exact (save_step _ _ _ _ Hs).
  - rewrite snoc_split in Hr. destruct (run_snoc _ _ _ Hr) as (s1 & Hr1 & Hs).
    destruct (IH s1 Hr1) as [(d & Hl)|[(Hl & A)|A]].
    + (* still recorded *)
      destruct (entry_step _ _ _ _ _ _ _ _ _ Hr1 Hs Hl) as [K|[K|[K|K]]].
      * left. exists d. exact K.
      * left. exists true. exact K.
      * right. left. exact K.
      * right. right. exact K.
    + (* replaced by the PUBREL *)
      destruct (entry_step _ _ _ _ _ _ _ _ _ Hr1 Hs Hl) as [K|[K|[K|K]]].
      * right. left. split; [exact K|apply relled_snoc, A].
      * right. left. split; [exact K|apply relled_snoc, A].
      * right. left. exact K.
      * right. right. exact K.
    + right. right. apply gone_snoc, A.
Qed.

Theorem nothing_dropped : C09_nothing_dropped_statement.
Proof. intros es1 m id es2 s Hr. exact (fate_cases _ _ _ _ _ (dropped_fate es1 m id es2 s Hr)). Qed.

(* ------------------------------------------------------------------ the ledger *)

Theorem ledger_exact : C09_ledger_exact_statement.
Proof.
  intros es s. apply (scan_fold ledger_step (fun x s => s_out (sess s) = x)); [|reflexivity].
  intros x s0 e s1 _ <- Hs. exact (sout_step _ _ _ Hs).
Qed.

(* ------------------------------------------------------------------ the scanner *)

Lemma all_step s l s' : step s (EAll Outgoing (Some l)) = Some s' ->
  list_eqb packet_eqb l (store_all (s_out (sess s))) = true /\
  exists sp, k_ppc (k s') = match l with [] => PConnDone sp None | _ => PResend sp l end.
Proof.
  intros H. cbv beta iota zeta delta [step] in H.
  destruct (k_ppc (k s)) eqn:Ep; try discriminate H.
  destruct (list_eqb packet_eqb l (store_all (s_out (sess s)))) eqn:E; [|discriminate H].
  injection H as <-. split; [reflexivity|]. exists sp. norm. reflexivity.
Qed.

Lemma ledger_ok_accepted s e s' x : lg_store x = s_out (sess s) -> step s e = Some s' ->
  ledger_ok false x e = true.
Proof.
  intros Hst H.
  destruct e; try reflexivity.
  - destruct d; try reflexivity. destruct p; try reflexivity. destruct r; reflexivity.
  - destruct d, r; reflexivity.
  - destruct d; try reflexivity. destruct r as [l|]; [|reflexivity].
    cbn [ledger_ok]. rewrite Hst. exact (proj1 (all_step _ _ _ H)).
Qed.

Definition lrel (x : lscan) (s : st) : Prop :=
  lg_store x = s_out (sess s) /\ krel' (lg_last x) (k_ppc (k s)).

Lemma lscan_sim x s e s' : reach s -> lrel x s -> step s e = Some s' ->
  exists x', lscan_step false x e = Some x' /\ lrel x' s'.
Proof.
  intros Hr [Hst Hk] Hs.
  destruct (kept_sim _ _ e _ (reach_proc s e s' Hr Hs) Hk) as (y & Hy & Hk').
  unfold lscan_step. rewrite (ledger_ok_accepted _ _ _ _ Hst Hs), Hy.
  eexists. split; [reflexivity|]. split; [|exact Hk'].
  cbn [lg_store]. rewrite Hst. symmetry. exact (sout_step _ _ _ Hs).
Qed.

Lemma scan_ledger_run b es : forall x, scan_ledger_from b x es = run (lscan_step b) x es.
Proof. induction es as [|e es IH]; intros x; cbn [scan_ledger_from run]; [reflexivity|]. destruct (lscan_step b x e); auto. Qed.

Theorem scan_ledger_sound : C09_scan_ledger_sound_statement.
Proof.
  intros es s Hr.
  destruct (scan_run (lscan_step false) lrel lscan_sim lscan0) with (es := es) (s := s) as (x & Hx & Hst & _);
    [split; [reflexivity|split; exact I]|exact Hr|].
  rewrite <- scan_ledger_run in Hx.
  split.
  - unfold scan_ledger. rewrite Hx. reflexivity.
  - exists x. split; [exact Hx|exact Hst].
Qed.

Theorem scan_ledger_accepted : forall es s, run step init es = Some s -> scan_ledger es = true.
Proof. intros es s Hr. exact (proj1 (scan_ledger_sound es s Hr)). Qed.

(* ------------------------------------------------------------------ retransmission *)

Lemma scan_resend_due_other q rest e x : (forall b, e <> ENew b) -> (forall p a r, e <> ETx p a r) ->
  resend_step (RDue (q :: rest)) e = Some x ->
  x = RDue (q :: rest) /\ forall es, proc_sends (e :: es) = proc_sends es.
Proof.
  intros Hn Ht H.
  destruct e; try (exfalso; eapply Hn; reflexivity); try (exfalso; eapply Ht; reflexivity).
  all: cbn in H; try discriminate H.
  all: try (injection H as <-; split; [reflexivity|intros es; reflexivity]).
  (* ESave *)
  destruct d; [discriminate H|]. destruct p; cbn in H; discriminate H.
Qed.

(* pure list fact: the retransmission scanner, started with l due, accepts only if the processor's
   Send calls re-send l; and (all) it cannot get past a packet being received unless all of l has been
   handed to Send *)
Lemma scan_resend_sends (all : bool) es2 : forall l tail x, l <> [] ->
  (all = true -> (forall b, ~ In (ENew b) es2) /\ exists p es3, tail = ERx p :: es3) ->
  scan_resend (RDue l) (es2 ++ tail) = Some x ->
  (if all then resent_all l (proc_sends es2) else resent l (proc_sends es2)) = true.
Proof.
  induction es2 as [|e es2 IH]; intros l tail x Hl Ha H; (destruct l as [|q rest]; [contradiction|]).
  - destruct all; [|reflexivity]. destruct (proj2 (Ha eq_refl)) as (p & es3 & ->). cbn in H. discriminate H.
  - cbn [app scan_resend] in H.
    destruct (resend_step (RDue (q :: rest)) e) as [x1|] eqn:E1; [|discriminate H].
    assert (Ha' : all = true -> (forall b, ~ In (ENew b) es2) /\ exists p es3, tail = ERx p :: es3).
    { intros X. destruct (Ha X) as [Hn Ht]. split; [intros b Y; apply (Hn b); right; exact Y|exact Ht]. }
    destruct e.
    1: { destruct all; [|reflexivity]. exfalso. apply (proj1 (Ha eq_refl) protected). left. reflexivity. }
    6: { (* ETx *)
      cbn [resend_step] in E1. cbn [proc_sends]. destruct (tx_proc p) eqn:Etp.
      - destruct (async && packet_eqb p (set_dup q)) eqn:Ea; [|discriminate E1].
        apply andb_true_iff in Ea as [_ Ea]. injection E1 as <-.
        assert (Hr : r = Ok -> (if all then resent_all rest (proc_sends es2) else resent rest (proc_sends es2)) = true).
        { intros ->. destruct rest as [|q' rest']; [destruct all; reflexivity|].
          cbn [rdue] in H. eapply IH; [discriminate|exact Ha'|exact H]. }
        destruct all; cbn [resent resent_all]; rewrite Ea; cbn [andb]; (destruct r; [exact (Hr eq_refl)|reflexivity]).
      - destruct (api_send p); [cbn in E1; discriminate E1|]. injection E1 as <-.
        eapply IH; [discriminate|exact Ha'|exact H]. }
    all: match goal with |- context [proc_sends (?ev :: _)] =>
           destruct (scan_resend_due_other q rest ev x1) as [-> Hps];
           [intros b X; discriminate X|intros p0 a0 r0 X; discriminate X|exact E1|];
           rewrite Hps; eapply IH; [discriminate|exact Ha'|exact H] end.
Qed.

(* the state right after the listing, as the retransmission scanner sees it *)
Lemma listing_due es1 l s1 : run step init (es1 ++ [EAll Outgoing (Some l)]) = Some s1 ->
  l = store_all (ledger es1) /\ (l <> [] -> rrel (RDue l) s1).
Proof.
  intros Hr. destruct (run_snoc _ _ _ Hr) as (s0 & Hr0 & Hs).
  destruct (all_step _ _ _ Hs) as [Heq (sp & Hpc)]. apply list_packet_eqb_eq in Heq.
  split.
  - rewrite Heq, (ledger_exact _ _ Hr0). reflexivity.
  - intros Hl. split; [|discriminate]. split; [exact Hl|]. exists sp. rewrite Hpc. destruct l; [contradiction|reflexivity].
Qed.

Lemma cons_split (es1 : list event) e es2 : es1 ++ e :: es2 = (es1 ++ [e]) ++ es2.
Proof. rewrite <- app_assoc. reflexivity. Qed.

Theorem recorded_is_resent : C09_recorded_is_resent_statement.
Proof.
  intros es1 l es2 s Hr. rewrite cons_split in Hr.
  apply run_prefix in Hr as (s1 & Hr1 & Hr2).
  destruct (listing_due _ _ _ Hr1) as [Heq Hdue]. split; [exact Heq|].
  destruct l as [|q rest]; [reflexivity|].
  assert (Hl : q :: rest <> []) by discriminate.
  destruct (scan_resend_from es2 _ _ (RDue (q :: rest)) (ex_intro _ _ Hr1) (Hdue Hl) Hr2) as (x & Hx & _).
  rewrite <- (app_nil_r es2) in Hx. exact (scan_resend_sends false es2 _ [] x Hl (fun X => False_ind _ (Bool.diff_false_true X)) Hx).
Qed.

Theorem resent_before_anything_else : C09_resent_before_anything_else_statement.
Proof.
  intros es1 l es2 p es3 s Hr Hnew. rewrite cons_split in Hr.
  apply run_prefix in Hr as (s1 & Hr1 & Hr2).
  destruct (listing_due _ _ _ Hr1) as [_ Hdue].
  destruct l as [|q rest]; [reflexivity|].
  assert (Hl : q :: rest <> []) by discriminate.
  destruct (scan_resend_from _ _ _ (RDue (q :: rest)) (ex_intro _ _ Hr1) (Hdue Hl) Hr2) as (x & Hx & _).
  exact (scan_resend_sends true es2 _ _ x Hl (fun _ => conj Hnew (ex_intro _ p (ex_intro _ es3 eq_refl))) Hx).
Qed.

Lemma lookup_in_all st id p : store_lookup st id = Some p -> In p (store_all st).
Proof.
  induction st as [|[j q] st IH]; cbn [store_lookup store_all map]; [discriminate|].
  destruct (id =? j); [intros H; injection H as ->; left; reflexivity|intros H; right; exact (IH H)].
Qed.

Theorem saved_is_listed : C09_saved_is_listed_statement.
Proof.
  intros es1 m id es2 l es3 s Hr.
  assert (Hre : es1 ++ ESave Outgoing (Publish false m id) Ok :: es2 ++ EAll Outgoing (Some l) :: es3 =
                ((es1 ++ ESave Outgoing (Publish false m id) Ok :: es2) ++ [EAll Outgoing (Some l)]) ++ es3).
  { rewrite <- !app_assoc. reflexivity. }
  rewrite Hre in Hr. apply run_prefix in Hr as (s2 & Hr2 & _).
  destruct (run_snoc _ _ _ Hr2) as (s1 & Hr1 & Hs).
  destruct (all_step _ _ _ Hs) as [Heq _]. apply list_packet_eqb_eq in Heq.
  assert (Hin : forall p, store_lookup (s_out (sess s1)) id = Some p -> In p l).
  { intros p Hl. rewrite Heq. exact (lookup_in_all _ _ _ Hl). }
  apply fate_cases. destruct (dropped_fate es1 m id es2 s1 Hr1) as [(d & Hl)|[(Hl & A)|A]].
  - left. exists d. exact (Hin _ Hl).
  - right. left. split; [exact (Hin _ Hl)|exact A].
  - right. right. exact A.
Qed.

(* ------------------------------------------------------------------ Session.Reset: clean session only *)

(* the flag the observable history computes covers every pending Connect call and the configuration
   the Client runs under *)
Definition InvCr (b : bool) (s : st) : Prop :=
  (forall c cfg, In (c, CConnect cfg) (k_pending (k s)) -> cf_clean cfg = true -> b = true) /\
  (cf_clean (k_cfg (k s)) = true -> b = true).

Definition cr_ok (b : bool) (pend : list (N * call)) (cfg : config) : Prop :=
  (forall c cfg', In (c, CConnect cfg') pend -> cf_clean cfg' = true -> b = true) /\ (cf_clean cfg = true -> b = true).

Lemma InvCr_fields b s : InvCr b s <-> cr_ok b (k_pending (k s)) (k_cfg (k s)).
Proof. reflexivity. Qed.

Lemma cr_put b pend cfg c cl : cr_ok b pend cfg ->
  cr_ok (match cl with CConnect cfg' => b || cf_clean cfg' | _ => b end) (amap_put pend c cl) cfg.
Proof.
  intros [I1 I2]. assert (M : b = true -> match cl with CConnect cfg' => b || cf_clean cfg' | _ => b end = true).
  { intros ->. destruct cl; reflexivity. }
  split; [|auto]. intros c0 cfg0 Hin Hcl. destruct (in_amap_put _ _ _ _ Hin) as [X|X]; [|eauto].
  injection X as <- <-. rewrite Hcl. apply orb_true_r.
Qed.

(* a call gets the mutex; a Connect call brings its configuration *)
Lemma cr_del b pend cfg c cfg' : cr_ok b pend cfg ->
  (cfg' = cfg \/ amap_get pend c = Some (CConnect cfg')) -> cr_ok b (amap_del pend c) cfg'.
Proof.
  intros [I1 I2] Hc. split; [intros c0 cfg0 Hin; exact (I1 c0 cfg0 (in_amap_del _ _ _ Hin))|].
  destruct Hc as [->|Hc]; [exact I2|]. exact (I1 _ _ (aget_in _ _ _ Hc)).
Qed.

Lemma InvCr_step b s e s' : InvCr b s -> step s e = Some s' -> InvCr (clean_step b e) s'.
Proof.
  intros HI H. apply InvCr_fields. apply InvCr_fields in HI. destruct e.
  all: step_cases H; open_ctl; know_pts; cbn [clean_step].
  all: try exact HI.
  all: try (apply cr_put; exact HI).
  all: try (apply (cr_del _ _ _ _ _ HI); auto).
  split; [intros ? ? []|discriminate].
Qed.

Lemma InvCr_run es : forall b s0 s, InvCr b s0 -> run step s0 es = Some s -> InvCr (fold_left clean_step es b) s.
Proof.
  induction es as [|e es IH]; intros b s0 s Hi Hr; cbn [run] in Hr.
  - injection Hr as <-. exact Hi.
  - destruct (step s0 e) as [s1|] eqn:Hs; [|discriminate Hr].
    cbn [fold_left]. eapply IH; [eapply InvCr_step; eassumption|exact Hr].
Qed.

Lemma reset_clean s w r s' : InvCl s -> step s (EReset w r) = Some s' -> cf_clean (k_cfg (k s)) = true.
Proof.
  intros (L1 & L2 & _) H. cbv beta iota zeta delta [step] in H.
  destruct w.
  - destruct (k_api (k s)) as [[c a]|]; [|discriminate H].
    destruct a; try discriminate H; try exact L1.
    destruct cu; try discriminate H. exact L1.
  - destruct (k_dpc (k s)); try discriminate H. destruct cu; try discriminate H. exact L2.
Qed.

Theorem reset_only_clean : C09_reset_only_clean_statement.
Proof.
  intros es1 w r es2 s Hr. rewrite cons_split in Hr. apply run_prefix in Hr as (s1 & Hr1 & _).
  destruct (run_snoc _ _ _ Hr1) as (s0 & Hr0 & Hs).
  pose proof (InvCl_reach _ _ Hr0) as HL.
  assert (Hi : InvCr false init). { split; [intros c cfg X; contradiction|intros X; discriminate X]. }
  destruct (InvCr_run _ _ _ _ Hi Hr0) as [_ I2]. apply I2. eapply reset_clean; eassumption.
Qed.
