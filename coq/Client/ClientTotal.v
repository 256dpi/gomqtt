(* ClientTotal.v — C09_future_total. *)
From Coq Require Import List NArith Bool Lia.
From GM Require Import Base.Lts Codec.Packet Session.Ids Session.Store
  Client.Future Client.Client Client.ClientSpec
  Client.ClientTactics Client.AMap Codec.PacketEqb Client.ClientInvCtl Client.ClientInvOwed Client.ClientInvWf Client.ClientKept Client.ClientPre Client.ClientStep.
Import ListNotations.
Open Scope N_scope.

(* an entry of the future store whose future is still pending *)
Definition pend (f : ftab) (j c : N) : Prop :=
  amap_get (t_store f) j = Some c /\
  exists cf, amap_get (t_futs f) c = Some cf /\ f_done (cf_fut cf) = false.
Definition has_pending (f : ftab) : Prop := exists j c, pend f j c.

Lemma resolve1_done stt f v : stt <> Pending -> f_done (fst (resolve1 stt f v)) = true.
Proof. intros Hs. unfold resolve1. destruct (f_done f) eqn:E; cbn; [exact E|destruct stt; try reflexivity; contradiction]. Qed.

Lemma pend_fut_resolve stt x c v j c' : stt <> Pending -> pend (t (fut_resolve stt x c v)) j c' -> pend (t x) j c' /\ c' <> c.
Proof.
  intros Hstt.
  unfold pend, fut_resolve, fut_get. destruct (amap_get (t_futs (t x)) c) as [f0|] eqn:E.
  - cbn [t t_store t_futs set_t t_set_futs]. intros [Hs (f & Hf & Hd)]. rewrite aget_put in Hf.
    destruct (N.eqb_spec c' c) as [->|Hne].
    + injection Hf as <-. cbn [cf_fut] in Hd. rewrite resolve1_done in Hd by exact Hstt. discriminate Hd.
    + split; [|exact Hne]. split; [exact Hs|]. exists f. auto.
  - intros [Hs (f & Hf & Hd)]. split; [split; [exact Hs|exists f; auto]|]. intros ->. rewrite E in Hf. discriminate Hf.
Qed.

Lemma pend_store_del x id j c' : NoDup (akeys (t_store (t x))) ->
  pend (t (store_del_f x id)) j c' -> pend (t x) j c' /\ j <> id.
Proof.
  unfold pend, store_del_f. cbn [t t_store t_futs set_t t_set_store]. intros Hnd [Hs Hf].
  rewrite aget_del in Hs by exact Hnd. destruct (N.eqb_spec j id) as [->|Hne]; [discriminate Hs|].
  split; [split; assumption|exact Hne].
Qed.

Lemma pend_store_put x id c j c' :
  pend (t (store_put_f x id c)) j c' -> (j = id /\ c' = c) \/ (j <> id /\ pend (t x) j c').
Proof.
  assert (G : forall y, pend (t (set_t y (t_set_store (t y) (amap_put (t_store (t y)) id c)))) j c' ->
                        (j = id /\ c' = c) \/ (j <> id /\ pend (t y) j c')).
  { intros y. unfold pend. cbn [t t_store t_futs set_t t_set_store]. intros [Hs Hf]. rewrite aget_put in Hs.
    destruct (N.eqb_spec j id) as [->|Hne]; [injection Hs as <-; left; auto|right; split; [exact Hne|split; assumption]]. }
  unfold store_put_f.
  destruct (amap_get (t_store (t x)) id) as [c0|]; [destruct (c0 =? c)|]; intros H; apply G in H; try exact H.
  destruct H as [H|[Hne H]]; [left; exact H|right]. split; [exact Hne|].
  apply pend_fut_resolve in H; [|discriminate]. exact (proj1 H).
Qed.

Lemma pend_fut_new x c id kd j c' : pend (t (fut_new x c id kd)) j c' -> c' = c \/ pend (t x) j c'.
Proof.
  unfold pend, fut_new. cbn [t t_store t_futs set_t t_set_futs]. intros [Hs (f & Hf & Hd)].
  rewrite aget_put in Hf. destruct (N.eqb_spec c' c) as [->|]; [left; reflexivity|right].
  split; [exact Hs|exists f; auto].
Qed.

Lemma hp_resolve stt x c v : stt <> Pending -> has_pending (t (fut_resolve stt x c v)) -> has_pending (t x).
Proof. intros Hs (j & c' & H). apply pend_fut_resolve in H; [|exact Hs]. exists j, c'. exact (proj1 H). Qed.
(* the request whose re-check failed leaves nothing behind *)
Lemma hp_reqput_fail s c id kd : NoDup (akeys (t_store (t s))) ->
  has_pending (t (fut_cancel (store_del_f (store_put_f (fut_new s c id kd) id c) id) c VNil)) -> has_pending (t s).
Proof.
  intros Hnd (j & c' & H).
  apply pend_fut_resolve in H as [H Hc]; [|discriminate].
  apply pend_store_del in H as [H Hj].
  - apply pend_store_put in H as [[Hj' _]|[_ H]]; [contradiction|].
    apply pend_fut_new in H as [->|H]; [contradiction|]. exists j, c'. exact H.
  - rewrite t_store_store_put_f. apply anodup_put. exact Hnd.
Qed.

Definition cu_late (cu : cupc) : bool := match cu with CU3 | CU4 | CU5 => true | _ => false end.
Definition api_clearing (a : option (N * apc)) : bool :=
  match a with Some (_, ACu cu _ _ _ _) => cu_late cu | _ => false end.
Definition dpc_clearing (d : dpc) : bool :=
  match d with DCu cu _ _ => cu_late cu | _ => false end.

Definition api_connecting2 (a : option (N * apc)) : bool :=
  match a with Some (_, AConnReset) | Some (_, AConnSend) => true | _ => false end.

(* InvTot over the fields it reads: when an unprotected client has ended, whatever is still pending
   in its future store is about to be cleared by a cleanup under way; and Connect, once it has dialled,
   finds the state word as it left it *)
Definition tot_inv (f : ftab) (cs : cstate) (a : option (N * apc)) (d : dpc) : Prop :=
  (t_protected f = false -> cs = StDisconnected -> has_pending f -> api_clearing a || dpc_clearing d = true) /\
  (api_connecting2 a = true -> cs = StConnecting).
Definition InvTot (s : st) : Prop := tot_inv (t s) (k_cs (k s)) (k_api (k s)) (k_dpc (k s)).

Lemma InvTot_init : InvTot init.
Proof. split; [intros _ H; discriminate H|intros H; discriminate H]. Qed.

Lemma connecting_none a p cs : conn_f a p cs -> api_connecting2 a = true -> p = PNone.
Proof. destruct a as [[? []]|]; cbn; intros K X; first [discriminate X | exact (proj1 K)]. Qed.

(* cu_late: the cleanup stages from conn.Close on *)
Lemma cu_after_late cu cc cl cu' : cu_after cu cc cl = Some cu' -> cu_late cu = true \/ cu = CU2 -> cu_late cu' = true.
Proof.
  destruct cu, cc, cl; cbn; intros E [X|X]; try discriminate X; try discriminate E; injection E as <-; reflexivity.
Qed.

(* the operations that store nothing new: what is pending after them was pending before, and no Clear of an
   unprotected store is among them *)
Definition keeps (o : tab_op) : bool :=
  match o with OComplete _ _ | OCancel _ _ | ODel _ | OClear | OConnfut _ => true | _ => false end.

Lemma hp_do x o : keeps o = true -> NoDup (akeys (t_store (t x))) ->
  NoDup (akeys (t_store (t (tab_do x o)))) /\ t_protected (t (tab_do x o)) = t_protected (t x) /\
  (has_pending (t (tab_do x o)) -> has_pending (t x) /\ (o = OClear -> t_protected (t x) = true)).
Proof.
  destruct o; try discriminate; intros _ W; cbn [tab_do].
  - rewrite t_store_fut_complete, t_protected_fut_complete.
    repeat split; [exact W|exact (hp_resolve Completed _ _ _ ltac:(discriminate) H)|discriminate].
  - rewrite t_store_fut_cancel, t_protected_fut_cancel.
    repeat split; [exact W|exact (hp_resolve Cancelled _ _ _ ltac:(discriminate) H)|discriminate].
  - repeat split; [apply anodup_del; exact W| |discriminate].
    destruct H as (j & c' & H). apply pend_store_del in H; [|exact W]. exists j, c'. exact (proj1 H).
  - rewrite t_store_store_clear_f, t_protected_store_clear_f. destruct (t_protected (t x)) eqn:P.
    + repeat split; [exact W|]. unfold store_clear_f in H. rewrite P in H. exact H.
    + split; [constructor|]. split; [reflexivity|]. intros (j & c & [Hs _]).
      rewrite t_store_store_clear_f, P in Hs. discriminate Hs.
  - repeat split; [exact W|exact H|discriminate].
Qed.

Lemma hp_run ops : forall x, forallb keeps ops = true -> NoDup (akeys (t_store (t x))) ->
  t_protected (t (fold_left tab_do ops x)) = false -> has_pending (t (fold_left tab_do ops x)) ->
  t_protected (t x) = false /\ has_pending (t x) /\ ~ In OClear ops.
Proof.
  induction ops as [|o ops IH]; intros x K W P HP; cbn [fold_left forallb] in *; [split; [exact P|split; [exact HP|intros []]]|].
  apply andb_true_iff in K as [Ko K]. destruct (hp_do x o Ko W) as (W' & Pe & Hb).
  destruct (IH _ K W' P HP) as (P' & HP' & NC). rewrite Pe in P'. destruct (Hb HP') as [HPx Hc].
  split; [exact P'|]. split; [exact HPx|]. intros [E|X]; [|exact (NC X)]. rewrite (Hc E) in P'. discriminate P'.
Qed.

(* the steps that store a new future; after none of them is the state word Disconnected *)
Definition creates (s : st) (e : event) : Prop :=
  match e with
  | EDial Ok => True
  | EReset WApi Ok => exists c, k_api (k s) = Some (c, AConnReset)
  | EHid HApi => exists c r id, k_api (k s) = Some (c, AReqPut r id) /\ is_connected (k_cs (k s)) = true
  | _ => False
  end.

Lemma hp_ops s e : NoDup (akeys (t_store (t s))) ->
  t_protected (t (fold_left tab_do (tab_ops s e) s)) = false -> has_pending (t (fold_left tab_do (tab_ops s e) s)) ->
  (t_protected (t s) = false /\ has_pending (t s) /\ ~ In OClear (tab_ops s e)) \/ creates s e.
Proof.
  intros W. unfold tab_ops, cu_ops, on_connfut. dgoal.
  all: intros P HP.
  all: try solve [left; apply hp_run; [reflexivity|exact W|exact P|exact HP] | right; exact I | right; eexists; eassumption].
  - destruct HP as (j & c & [X _]). discriminate X.
  - left. cbn [fold_left tab_do] in P, HP.
    rewrite t_protected_fut_cancel, t_protected_store_del_f, t_protected_store_put_f in P.
    split; [exact P|]. split; [exact (hp_reqput_fail _ _ _ _ W HP)|]. cbn [In]. intuition discriminate.
  - right. do 3 eexists. split; [eassumption|]. apply negb_false_iff. assumption.
Qed.

Lemma InvTot_step s e s' : InvWf s -> InvCl s -> InvPre s -> InvTot s -> step s e = Some s' -> InvTot s'.
Proof.
  intros (_ & _ & _ & W4 & _) (_ & _ & L3) (_ & _ & K & _) (I1 & I3) H.
  pose proof (connecting_none _ _ _ K) as I2. clear K.
  pose proof (hp_ops s e W4) as HB. rewrite <- (step_tab _ _ _ H) in HB.
  (* with the table traced back to the one before the step, what is left concerns the control points only *)
  cut ((k_cs (k s') = StDisconnected ->
        (t_protected (t s) = false /\ has_pending (t s) /\ ~ In OClear (tab_ops s e)) \/ creates s e ->
        api_clearing (k_api (k s')) || dpc_clearing (k_dpc (k s')) = true) /\
       (api_connecting2 (k_api (k s')) = true -> k_cs (k s') = StConnecting)).
  { intros [X1 X2]. split; [intros P C HP; exact (X1 C (HB P HP))|exact X2]. }
  clear HB.
  destruct e.
  all: step_cases H.
  all: try (destruct cu; cbn [cu_hidden] in *; try discriminate;
            match goal with E : Some _ = Some _ |- _ => injection E as E; subst end).
  all: open_ctl; know_pts.
  all: norm; split.
  all: try solve [first [exact I1 | exact I3]].
  (* while Connect holds the mutex there is no processor, hence (InvCl) no die body *)
  all: try solve [intros X; first
       [ discriminate X | discriminate (I2 X) | reflexivity
       | destruct (L3 (I2 X)) as [Y1 Y2]; first [discriminate Y1|discriminate Y2] ]].
  (* the main clause: the state word is not Disconnected afterwards (the step sets it otherwise, Connect is
     under way, or a request found the client connected); or the step is stage 5 of a cleanup, whose Clear
     leaves nothing pending; or the cleanup that will clear what is pending stays in, or moves on within, its
     late stages; or this is the step that sets Disconnected, stage 2 of a cleanup, whose next stage is late *)
  all: intros C D; first
       [ discriminate C
       | rewrite (I3 eq_refl) in C; discriminate C
       | match goal with E : negb (is_connected _) = false |- _ =>
           autorewrite with proj tab in E; cbn in E; rewrite C in E; discriminate E end
       | destruct D as [(P & HP & NC)|D]; [|first [contradiction D | destruct D as (? & D); congruence | destruct D as (? & ? & ? & D & D'); first [congruence | rewrite C in D'; discriminate D']]];
         first
           [ match goal with
             | E : _ = Some (_, ACu CU5 _ _ _ _) |- _ => exfalso; apply NC; unfold tab_ops; rewrite E; left; reflexivity
             | E : _ = DCu CU5 _ _ |- _ => exfalso; apply NC; unfold tab_ops; rewrite E; left; reflexivity
             end
           | specialize (I1 P C HP); first
             [ exact I1
             | match goal with E : cu_after _ _ _ = Some _ |- _ =>
                 cbn [api_clearing dpc_clearing] in I1 |- *; apply orb_true_iff in I1 as [I1|I1];
                 first [ rewrite I1; first [reflexivity | apply orb_true_r]
                       | rewrite (cu_after_late _ _ _ _ E (or_introl I1)); first [reflexivity | apply orb_true_r] ] end ] ]
       | match goal with E : cu_after CU2 _ _ = Some _ |- _ =>
           cbn [api_clearing dpc_clearing]; rewrite (cu_after_late _ _ _ _ E (or_intror eq_refl));
           first [reflexivity | apply orb_true_r] end ].
Qed.

Lemma InvTot_reach es s : run step init es = Some s -> InvTot s.
Proof.
  revert es s. apply (reach_inv_rel (fun s => InvWf s /\ InvCl s /\ InvPre s)).
  - intros es s H. exact (conj (InvWf_reach _ _ H) (conj (InvCl_reach _ _ H) (InvPre_reach _ _ H))).
  - exact InvTot_init.
  - intros s e s' (HW & HL & HP). exact (InvTot_step s e s' HW HL HP).
Qed.

Theorem future_total : C09_future_total_statement.
Proof.
  intros es s Hr. destruct (InvTot_reach _ _ Hr) as (I1 & _). split.
  - intros (Hapi & _ & Hd & _) Hcs Hprot id c f Hs Hf.
    destruct (f_done (cf_fut f)) eqn:Ed; [reflexivity|exfalso].
    assert (HP : has_pending (t s)) by (exists id, c; split; [exact Hs|exists f; split; [exact Hf|exact Ed]]).
    specialize (I1 Hprot Hcs HP). rewrite Hapi in I1. cbn [api_clearing orb] in I1.
    destruct Hd as [Hd|Hd]; rewrite Hd in I1; discriminate I1.
  - intros c err Hapi Hst. cbv beta iota zeta delta [step api_hidden]. rewrite Hapi, Hst. cbn. eexists. reflexivity.
Qed.

