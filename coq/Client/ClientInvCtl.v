(* ClientInvCtl.v — control invariant of the die body; C10_no_ack_on_error. *)
From Coq Require Import List NArith Bool Lia.
From GM Require Import Base.Lts Codec.Packet Session.Ids Session.Store Client.Future Client.Client Client.ClientSpec Client.ClientTactics.
Import ListNotations.
Open Scope N_scope.

Definition dead_ppc (p : ppc) : Prop := p = PInDie \/ p = PExited.
Definition dead_after (d : dpc) : Prop :=
  match d with DCu _ _ (DAProc a) | DCb (DAProc a) => a = PExited | _ => True end.
Definition proc_owned (d : dpc) : bool :=
  match d with DCu _ _ (DAProc _) | DCb (DAProc _) => true | _ => false end.
Definition after_ok (d : dpc) : Prop :=
  match d with DCu _ _ (DAProc a) | DCb (DAProc a) => a <> PNone | _ => True end.
(* the die body is still going to call conn.Close *)
Definition closing (d : dpc) : Prop :=
  match d with DCu CU1 true _ | DCu CU2 true _ | DCu CU3 true _ => True | _ => False end.

Definition InvCtl (s : st) : Prop :=
  (g_cbfail (g s) = true -> dead_ppc (k_ppc (k s)) /\ dead_after (k_dpc (k s))) /\
  (k_dpc (k s) = DNone \/ g_dead (g s) = true \/ closing (k_dpc (k s))) /\
  (proc_owned (k_dpc (k s)) = true -> k_ppc (k s) = PInDie) /\
  (k_ppc (k s) = PNone -> g_cbfail (g s) = false) /\
  after_ok (k_dpc (k s)) /\
  (k_ppc (k s) = PErrChk -> g_dead (g s) = true) /\
  (forall sp, k_ppc (k s) = PConnDone sp (Some false) -> g_dead (g s) = true).

Lemma InvCtl_init : InvCtl init.
Proof. repeat split; cbn; try discriminate; auto. Qed.

(* InvCtl over the four fields it reads *)
Definition ctl_inv (p : ppc) (d : dpc) (c x : bool) : Prop :=
  (c = true -> dead_ppc p /\ dead_after d) /\
  (d = DNone \/ x = true \/ closing d) /\
  (proc_owned d = true -> p = PInDie) /\
  (p = PNone -> c = false) /\
  after_ok d /\
  (p = PErrChk -> x = true) /\
  (forall sp, p = PConnDone sp (Some false) -> x = true).

Ltac ctl_fields :=
  lazymatch goal with |- InvCtl ?x =>
    change (ctl_inv (k_ppc (k x)) (k_dpc (k x)) (g_cbfail (g x)) (g_dead (g x))) end.

Definition proc_live (p : ppc) : bool := match p with PInDie | PExited => false | _ => true end.
Definition needs_dead (p : ppc) : bool :=
  match p with PErrChk | PConnDone _ (Some false) => true | _ => false end.

Lemma running_facts p d c x : ctl_inv p d c x -> proc_live p = true -> c = false /\ proc_owned d = false.
Proof.
  intros (I1 & _ & I3 & _) R. split.
  - destruct c; [|reflexivity]. destruct (proj1 (I1 eq_refl)) as [->| ->]; discriminate R.
  - destruct (proc_owned d); [|reflexivity]. rewrite (I3 eq_refl) in R. discriminate R.
Qed.

Lemma not_owned_dead_after d : proc_owned d = false -> dead_after d.
Proof. destruct d as [|? ? []|[]|]; cbn; intros H; first [exact I|discriminate H]. Qed.

Lemma ctl_needs_dead p d c x : ctl_inv p d c x -> needs_dead p = true -> x = true.
Proof.
  intros (_ & _ & _ & _ & _ & I6 & I7). destruct p as [| | | | | | |sp [[]|]| | | | | | | | | | | | | |]; try discriminate; intros _.
  - exact (I6 eq_refl).
  - exact (I7 _ eq_refl).
Qed.

(* the processor moves on (or returns, a die body existing already); a failed callback
   leaves it dead *)
Lemma ctl_move p p' d c c' x :
  ctl_inv p d c x -> proc_live p = true -> (needs_dead p' = true -> x = true) ->
  c' = c \/ dead_ppc p' -> ctl_inv p' d c' x.
Proof.
  intros HI R N C. destruct (running_facts _ _ _ _ HI R) as [-> O]. destruct HI as (_ & I2 & _ & _ & I5 & _).
  split; [|split; [exact I2|split; [|split; [|split; [exact I5|split]]]]].
  - intros ->. destruct C as [C|C]; [discriminate C|]. split; [exact C|apply not_owned_dead_after, O].
  - rewrite O. discriminate.
  - intros ->. destruct C as [C|[C|C]]; [exact C|discriminate C|discriminate C].
  - intros ->. apply N. reflexivity.
  - intros sp ->. apply N. reflexivity.
Qed.

Lemma ctl_dead p d c x : ctl_inv p d c x -> ctl_inv p d c true.
Proof.
  intros (I1 & _ & I3 & I4 & I5 & _).
  split; [exact I1|split; [right; left; reflexivity|split; [exact I3|split; [exact I4|split; [exact I5|split; reflexivity]]]]].
Qed.

(* die(err, cc) called by the processor while no die body exists: the connection gets closed
   (or is dead already); after a failed callback the processor does not resume *)
Lemma ctl_die p cc a c c' x :
  ctl_inv p DNone c x -> proc_live p = true -> cc = true \/ x = true -> a <> PNone ->
  c' = c \/ a = PExited -> ctl_inv PInDie (DCu CU1 cc (DAProc a)) c' x.
Proof.
  intros HI R X A C. destruct (running_facts _ _ _ _ HI R) as [-> _].
  split; [|split; [|split; [|split; [|split; [exact A|split]]]]]; try discriminate.
  - intros ->. split; [left; reflexivity|]. destruct C as [C|C]; [discriminate C|exact C].
  - destruct X as [->|X]; [right; right; exact I|right; left; exact X].
  - reflexivity.
Qed.

Lemma ctl_die_ping p cc c x : ctl_inv p DNone c x -> cc = true \/ x = true -> ctl_inv p (DCu CU1 cc DAPing) c x.
Proof.
  intros (I1 & _ & _ & I4 & _ & I67) X.
  split; [intros C; split; [apply I1, C|exact I]|split; [|split; [discriminate|split; [exact I4|split; [exact I|exact I67]]]]].
  destruct X as [->|X]; [right; right; exact I|right; left; exact X].
Qed.

(* conn.Close is cleanup stage 3 *)
Lemma ctl_cu_next p cu cu' cc cl a c x :
  ctl_inv p (DCu cu cc a) c x -> cu_after cu cc cl = Some cu' -> (cu = CU3 -> x = true) ->
  ctl_inv p (DCu cu' cc a) c x.
Proof.
  intros (I1 & I2 & T) E X. split; [exact I1|split; [|exact T]].
  destruct I2 as [I2|[I2|I2]]; [discriminate I2|right; left; exact I2|].
  destruct cu, cc; try contradiction;
    first [right; left; apply X; reflexivity|cbn in E; injection E as <-; right; right; exact I].
Qed.

Lemma ctl_cb p cc a c x : ctl_inv p (DCu CU5 cc a) c x -> ctl_inv p (DCb a) c x.
Proof.
  intros (I1 & I2 & T). split; [exact I1|split; [|exact T]].
  destruct I2 as [I2|[I2|[]]]; [discriminate I2|right; left; exact I2].
Qed.

Lemma ctl_done p a c x :
  ctl_inv p (DCb a) c x -> ctl_inv (match a with DAProc p' => p' | DAPing => p end) DDone c x.
Proof.
  intros (I1 & I2 & I3 & I4 & I5 & I67).
  assert (X : x = true) by (destruct I2 as [I2|[I2|[]]]; [discriminate I2|exact I2]).
  split; [|split; [right; left; exact X|split; [discriminate|split; [|split; [exact I|split; intros; exact X]]]]].
  - intros C. split; [|exact I]. destruct (I1 C) as [D A]. destruct a; [right; exact A|exact D].
  - destruct a as [p'|]; [|exact I4]. intros ->. contradiction.
Qed.

Lemma InvCtl_step s e s' : InvCtl s -> step s e = Some s' -> InvCtl s'.
Proof.
  intros HI H. change (ctl_inv (k_ppc (k s)) (k_dpc (k s)) (g_cbfail (g s)) (g_dead (g s))) in HI.
  destruct e.
  all: step_cases H.
  all: ctl_fields; open_ctl.
  all: know_pts.
  all: try exact HI.
  (* ENew *)
  all: try solve [repeat split; cbn; try discriminate; auto].
  (* the connection was closed or found dead *)
  all: try match goal with |- ctl_inv _ _ _ true => apply ctl_dead in HI end.
  all: try exact HI.
  (* the processor *)
  all: try solve [apply ctl_move with (1 := HI);
         [ reflexivity
         | let N := fresh in intros N; first [discriminate N | reflexivity]
         | first [left; reflexivity | right; right; reflexivity] ]].
  all: try match goal with |- ctl_inv _ (DCu _ ?b _) _ _ => is_var b; destruct b end.
  all: try solve [apply ctl_die with (1 := HI);
         [ reflexivity
         | first [left; reflexivity | right; reflexivity | right; exact (ctl_needs_dead _ _ _ _ HI eq_refl)]
         | discriminate
         | first [left; reflexivity | right; reflexivity] ]].
  (* the pinger; the die body *)
  all: try solve [apply ctl_die_ping with (1 := HI); first [left; reflexivity | right; reflexivity]].
  all: try solve [match goal with E : cu_after _ _ _ = Some _ |- _ =>
         apply ctl_cu_next with (1 := HI) (2 := E);
         first [ discriminate | intros _; reflexivity
               | intros ->; match goal with E0 : cu_hidden _ _ = _ |- _ => discriminate E0 end ] end].
  all: try apply ctl_cb in HI.
  all: try exact HI.
  all: apply ctl_done in HI; exact HI.
Qed.

Lemma InvCtl_reach es s : run step init es = Some s -> InvCtl s.
Proof. apply reach_inv; [exact InvCtl_init|exact InvCtl_step]. Qed.

(* no PUBACK/PUBREC/PUBCOMP can be written from a dead processor *)
Lemma dead_no_ack s p a r s' :
  dead_ppc (k_ppc (k s)) -> step s (ETx p a r) = Some s' -> is_inbound_ack p = false.
Proof.
  intros Hd H. destruct p; cbn [is_inbound_ack]; try reflexivity; exfalso.
  all: cbv beta iota zeta delta [step step_tx] in H.
  all: destruct a; cbn [negb] in H; try discriminate H.
  all: destruct Hd as [Hd|Hd]; rewrite Hd in H; discriminate H.
Qed.

Theorem no_ack_on_error : C10_no_ack_on_error_statement.
Proof.
  intros es s Hr Hcb. destruct (InvCtl_reach _ _ Hr) as (I1 & I2 & _).
  destruct (I1 Hcb) as [Hd _]. split.
  - intros p a r s' H. eapply dead_no_ack; eassumption.
  - intros Hdone. rewrite Hdone in I2. cbn in I2. intuition discriminate.
Qed.
