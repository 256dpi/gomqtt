(* ClientScan2.v — soundness of scan_close and scan_rel (TraceScan.v) on accepted traces. *)
From Coq Require Import List NArith Bool Lia.
From GM Require Import Base.Lts Codec.Packet Session.Store Client.Client Client.ClientSpec Client.TraceScan
  Client.ClientTactics Client.ClientInvCtl
  Client.ClientStep Client.ClientScanProofs.
Import ListNotations.
Open Scope N_scope.

(* ---- scan_close: the scanner's flags are the model's ghost flags *)

Theorem scan_close_accepted es s : run step init es = Some s ->
  scan_close es = CScan (g_cbfail (g s)) (g_dead (g s)).
Proof.
  apply (scan_fold close_step (fun x s => x = CScan (g_cbfail (g s)) (g_dead (g s)))); [|reflexivity].
  intros x s0 e s1 _ -> Hs. symmetry. apply (step_ghost _ _ _ Hs).
Qed.

(* once the die body is done, a callback error implies that the connection is over *)
Corollary scan_close_ok es s : run step init es = Some s -> k_dpc (k s) = DDone ->
  error_closes_ok (scan_close es) = true.
Proof.
  intros H Hd. rewrite (scan_close_accepted _ _ H). unfold error_closes_ok. cbn [cs_failed cs_over].
  destruct (g_cbfail (g s)) eqn:Ef; [|reflexivity]. cbn [negb orb].
  exact (proj2 (no_ack_on_error _ _ H Ef) Hd).
Qed.

(* ---- scan_rel *)

Lemma lookup_sim s d id x s' : step s (ELookup d id (Some x)) = Some s' ->
  d = Incoming /\ option_eqb packet_eqb x (store_lookup (s_in (sess s)) id) = true.
Proof. intros H. step_cases H; split; first [reflexivity|assumption]. Qed.

Lemma delete_in_sim y p id p' : pview p (EDelete Incoming id Ok) p' -> yrel y p -> y = YDel id.
Proof.
  intros Hv HR. inversion Hv as [|? ? ? Hp|? ? ? He]; subst; [|discriminate He]. inversion Hp; subst.
  destruct y; cbn [yrel] in HR; try contradiction; [|subst; reflexivity].
  apply yrel_pub in HR. destruct HR as (d0 & m0 & i0 & _ & [X|[[X _]|[[X _]|[X _]]]]); discriminate X.
Qed.

Definition rel_scan (x : store * yexp) (e : event) : option (store * yexp) :=
  if rel_ok (fst x) e then
    match ack_step (snd x) e with Some y' => Some (rel_step (fst x) (snd x) e, y') | None => None end
  else None.

Lemma scan_rel_run es : forall st y, scan_rel st y es = run rel_scan (st, y) es.
Proof.
  induction es as [|e es IH]; intros st y; cbn [scan_rel run]; [reflexivity|].
  unfold rel_scan at 1. cbn [fst snd]. destruct (rel_ok st e); [|reflexivity]. destruct (ack_step y e); [apply IH|reflexivity].
Qed.

Definition rel_rel (x : store * yexp) (s : st) : Prop := fst x = s_in (sess s) /\ yrel (snd x) (k_ppc (k s)).

Lemma rel_sim x s e s' : reach s -> rel_rel x s -> step s e = Some s' -> exists x', rel_scan x e = Some x' /\ rel_rel x' s'.
Proof.
  intros Hr [Hst HR] H. destruct x as [st y]. cbn [fst snd] in *. subst st.
  pose proof (reach_proc _ _ _ Hr H) as Hv.
  destruct (ack_sim y _ e _ Hv HR) as (y' & Hy & HR').
  assert (Hok : rel_ok (s_in (sess s)) e = true).
  { destruct e; try reflexivity. destruct r as [x|]; [|destruct d; reflexivity].
    destruct (lookup_sim _ _ _ _ _ H) as [-> Hx]. exact Hx. }
  unfold rel_scan. cbn [fst snd]. rewrite Hok, Hy. eexists. split; [reflexivity|]. split; [|exact HR'].
  cbn [fst]. destruct (step_ghost _ _ _ H) as (_ & _ & _ & _ & _ & -> & _).
  destruct e; try reflexivity. destruct d; [|reflexivity]. destruct r; [|reflexivity].
  cbn [rel_step]. rewrite (delete_in_sim y _ _ _ Hv HR), N.eqb_refl. reflexivity.
Qed.

(* on an accepted trace the lockstep scanner never fails and its store is the model's incoming store *)
Theorem scan_rel_accepted es s : run step init es = Some s ->
  exists y, scan_rel [] YInit es = Some (s_in (sess s), y) /\ yrel y (k_ppc (k s)).
Proof.
  intros H. rewrite scan_rel_run.
  destruct (scan_run rel_scan rel_rel rel_sim ([], YInit)) with (es := es) (s := s) as ([st y] & Hx & Hst & HR);
    [split; [reflexivity|exact I]|exact H|].
  cbn [fst snd] in *. subst st. exists y. split; assumption.
Qed.
