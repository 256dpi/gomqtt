(* ClientScan3.v — soundness of scan_kept (TraceScan.v) on accepted traces. *)
From Coq Require Import List NArith Bool Lia.
From GM Require Import Base.Lts Codec.Packet Client.Client Client.ClientSpec Client.TraceScan Client.ClientInvRx Client.ClientKept
  Client.ClientStep.
Import ListNotations.
Open Scope N_scope.

Definition krel (x : option packet) (p : ppc) : Prop :=
  match p with
  | PAckDel q => x = Some q
  | PRecSave id => x = Some (Pubrec id)
  | _ => True
  end.

(* only acknowledgements get as far as DeletePacket(Outgoing) *)
Definition ack_del (p : ppc) : Prop := match p with PAckDel q => is_ackp q = true | _ => True end.

Definition krel' (x : option packet) (p : ppc) : Prop := krel x p /\ ack_del p.

Lemma krel_after_pub x q : krel' x (ppc_after_pub q).
Proof. destruct q; try (split; exact I). unfold ppc_after_pub. destruct (_ =? 1); [|destruct (_ =? 2)]; split; exact I. Qed.

Lemma krel_rest x p : at_rest p -> krel' x p.
Proof. destruct p; try destruct first; cbn; intros H; try contradiction; split; exact I. Qed.

Lemma krel_rx cb q : krel' (Some q) (ppc_rx cb q).
Proof. destruct q, cb; cbn [ppc_rx]; try apply krel_after_pub; split; cbn; auto. Qed.

Lemma kept_other x e : proc_event e = false -> (forall b, e <> ENew b) -> kept_step x e = Some x.
Proof.
  intros He Hn. destruct e; try discriminate He; try reflexivity.
  - destruct (Hn _ eq_refl).
  - destruct p as [| |[]| | | | | | | | | | |]; try discriminate He; reflexivity.
  - destruct d; [discriminate He|]. destruct p; try discriminate He; reflexivity.
Qed.

Lemma kept_sim x p e p' : pview p e p' -> krel' x p -> exists x', kept_step x e = Some x' /\ krel' x' p'.
Proof.
  intros Hv [HR HA]. destruct Hv as [b p|p e p' Hp|p e p' He Hn _ Ho].
  - exists None. split; [reflexivity|split; exact I].
  - destruct Hp; cbn [krel ack_del] in HR, HA; subst.
    all: try (destruct r; [|destruct b]); cbn [kept_step proc_obs cont_pc die_pc]; rewrite ?N.eqb_refl, ?(is_ack_for_of _ _ HA H).
    all: try (eexists; split; [reflexivity|first [split; exact I | apply krel_after_pub]]).
    + destruct b; eexists; (split; [reflexivity|split; exact I]).
    + eexists; split; [reflexivity|apply krel_rx].
    + destruct (set_dup q) as [| |[]| | | | | | | | | | |]; eexists; (split; [reflexivity|destruct r, rest; split; exact I]).
    + destruct x0 as [[[]|]|]; try destruct cb; try destruct b; eexists; (split; [reflexivity|split; exact I]).
    + destruct x0 as [[]|]; eexists; (split; [reflexivity|split; exact I]).
    + eexists; split; [reflexivity|exact (krel_rest _ _ (proj2 (hid_rest _ _ H)))].
  - exists x. split; [exact (kept_other x e He Hn)|].
    destruct Ho as [->|[[-> Hd]|[-> ->]]]; [split; assumption|exact (krel_rest _ _ (done_rest _ Hd))|split; exact I].
Qed.

(* every accepted trace passes: an outgoing entry is deleted only on an acknowledgement carrying its id,
   replaced by the PUBREL only on PUBREC *)
Theorem scan_kept_accepted es s : run step init es = Some s ->
  exists x, scan_kept None es = Some x /\ krel x (k_ppc (k s)).
Proof.
  intros H. destruct (scan_run kept_step (fun x s => krel' x (k_ppc (k s)))) with (x := @None packet) (es := es) (s := s)
    as (x & Hx & HR & _); [|split; exact I|exact H|eauto].
  intros x s0 e s1 Hr HR Hs. exact (kept_sim x _ e _ (reach_proc s0 e s1 Hr Hs) HR).
Qed.
