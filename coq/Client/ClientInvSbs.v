(* ClientInvSbs.v — C09_store_before_send. *)
From Coq Require Import List NArith Bool Lia.
From GM Require Import Base.Lts Codec.Packet Session.Ids Session.Store Client.Future Client.Client Client.ClientSpec
  Client.ClientTactics Client.AMap Codec.PacketEqb Client.ClientInvCtl Client.ClientInvOwed Client.ClientInvWf Client.ClientInvHs.
Import ListNotations.
Open Scope N_scope.

Definition pub_saved (sv : list (direction * packet)) (p : packet) : Prop :=
  match p with
  | Publish _ m id => m_qos m = 0 \/ In (Outgoing, Publish false m id) sv
  | _ => True
  end.

Definition all_tx sv (tx : list (packet * bool * res)) : Prop := forall e, In e tx -> pub_saved sv (fst (fst e)).
Definition all_store sv (st : store) : Prop := forall i q, In (i, q) st -> pub_saved sv q.
Definition all_list sv (l : list packet) : Prop := forall q, In q l -> pub_saved sv q.

Lemma pub_saved_cons x sv p : pub_saved sv p -> pub_saved (x :: sv) p.
Proof. destruct p; cbn; auto. intros [H|H]; [left|right; right]; assumption. Qed.
Lemma all_tx_sv x sv tx : all_tx sv tx -> all_tx (x :: sv) tx.
Proof. intros H e He. apply pub_saved_cons, H, He. Qed.
Lemma all_store_sv x sv st : all_store sv st -> all_store (x :: sv) st.
Proof. intros H i q Hq. eapply pub_saved_cons, H, Hq. Qed.
Lemma all_list_sv x sv l : all_list sv l -> all_list (x :: sv) l.
Proof. intros H q Hq. apply pub_saved_cons, H, Hq. Qed.

Lemma all_tx_cons sv tx p a r : all_tx sv tx -> pub_saved sv p -> all_tx sv ((p, a, r) :: tx).
Proof. intros H Hp e [<-|He]; [exact Hp|apply H, He]. Qed.

Lemma all_store_save sv st p : all_store sv st -> pub_saved sv p -> all_store sv (store_save st p).
Proof.
  intros H Hp i q Hq. unfold store_save in Hq. destruct (get_id p); [|eapply H, Hq].
  rewrite store_put_amap in Hq. apply in_amap_put in Hq as [E|Hq]; [injection E as -> ->; exact Hp|eapply H, Hq].
Qed.
Lemma all_store_delete sv st k : all_store sv st -> all_store sv (store_delete st k).
Proof. intros H i q Hq. rewrite store_delete_amap in Hq. apply in_amap_del in Hq. eapply H, Hq. Qed.
Lemma all_store_setdup sv st p : all_store sv st -> all_store sv (store_setdup st p).
Proof.
  intros H. unfold store_setdup. destruct p; try exact H.
  destruct (store_lookup st id) as [[]|] eqn:E; try exact H.
  intros i q Hq. rewrite store_put_amap in Hq. apply in_amap_put in Hq as [E'|Hq]; [|eapply H, Hq].
  injection E' as -> ->. rewrite store_lookup_amap in E. apply aget_in in E. apply H in E. exact E.
Qed.
Lemma all_list_store sv st : all_store sv st -> all_list sv (store_all st).
Proof.
  intros H q Hq. unfold store_all in Hq. apply in_map_iff in Hq as [[i q'] [<- Hin]]. eapply H, Hin.
Qed.
Lemma all_store_nil sv : all_store sv [].
Proof. intros i q []. Qed.
Lemma all_list_tl sv q l : all_list sv (q :: l) -> all_list sv l.
Proof. intros H x Hx. apply H. right. exact Hx. Qed.
Lemma all_list_hd_dup sv q l : all_list sv (q :: l) -> pub_saved sv (set_dup q).
Proof. intros H. specialize (H q (or_introl eq_refl)). destruct q; exact H. Qed.

Lemma list_packet_eqb_eq a b : list_eqb packet_eqb a b = true -> a = b.
Proof. apply list_eqb_eq. exact packet_eqb_eq. Qed.

Definition api_saved (s : st) : Prop :=
  match k_api (k s) with
  | Some (_, AReqSend rq id) => pub_saved (g_saved (g s)) (req_packet rq id)
  | _ => True
  end.
Definition resend_saved (s : st) : Prop :=
  match k_ppc (k s) with
  | PResend _ l => all_list (g_saved (g s)) l
  | _ => True
  end.

Definition InvSbs (s : st) : Prop :=
  all_tx (g_saved (g s)) (g_tx (g s)) /\ all_store (g_saved (g s)) (s_out (sess s)) /\
  api_saved s /\ resend_saved s.

Lemma InvSbs_init : InvSbs init.
Proof. split; [intros ? []|split; [intros ? ? []|split; exact I]]. Qed.

Global Hint Resolve all_tx_sv all_store_sv all_list_sv all_tx_cons all_store_save all_store_delete
  all_store_setdup all_list_store all_store_nil all_list_tl all_list_hd_dup pub_saved_cons : sbs.

Global Hint Extern 1 (pub_saved _ _) => cbn [pub_saved req_packet set_dup In]; first [exact I | assumption | (right; left; reflexivity) | tauto] : sbs.

(* InvSbs over the fields it reads *)
Definition sbs_inv sv tx (so : store) (a : option (N * apc)) (p : ppc) : Prop :=
  all_tx sv tx /\ all_store sv so /\
  match a with Some (_, AReqSend rq id) => pub_saved sv (req_packet rq id) | _ => True end /\
  match p with PResend _ l => all_list sv l | _ => True end.
Ltac sbs_fields :=
  lazymatch goal with |- InvSbs ?x =>
    change (sbs_inv (g_saved (g x)) (g_tx (g x)) (s_out (sess x)) (k_api (k x)) (k_ppc (k x))) end.

Lemma InvSbs_step s e s' : InvOwed s -> InvSbs s -> step s e = Some s' -> InvSbs s'.
Proof.
  intros HO (S1 & S2 & S3 & S4) H. pose proof (InvOwed_after _ HO) as HA. clear HO.
  unfold api_saved in S3. unfold resend_saved in S4. unfold InvAfter in HA.
  destruct e.
  all: step_cases H.
  all: sbs_fields; open_ctl; know_pts.
  all: unfold sbs_inv.
  all: try solve [repeat split; first [assumption | exact I]].
  all: repeat match goal with
       | E : _ && _ = true |- _ => apply andb_true_iff in E; destruct E
       | E : packet_eqb _ _ = true |- _ => apply packet_eqb_eq in E; subst
       | E : list_eqb packet_eqb _ _ = true |- _ => apply list_packet_eqb_eq in E; subst
       end.
  all: repeat match goal with
       | E : _ = set_dup ?q |- _ => rewrite E in *; clear E
       | E : _ :: _ = store_all _ |- _ => rewrite E in *; clear E
       end.
  all: repeat match goal with
       | E : _ = req_packet ?r _ |- _ => destruct r; cbn [req_packet] in E; try discriminate E; inversion E; subst; clear E
       end.
  all: cbn [req_packet fst] in *.
  all: try solve [repeat split; first [assumption | exact I | eauto 6 with sbs]].
  (* the packet just saved is new to the other clauses *)
  all: repeat match goal with
       | |- context [match k_api (k ?s) with _ => _ end] => destruct (k_api (k s)) as [[? []]|]
       | |- context [match k_ppc (k ?s) with _ => _ end] => destruct (k_ppc (k s))
       end.
  all: try solve [repeat split; first [assumption | exact I | eauto 6 with sbs]].
  (* the die body returns to the processor: not into the resend loop *)
  all: try solve [destruct after; try contradiction; repeat split; first [assumption | exact I]].
  (* a QoS 0 PUBLISH need not be saved *)
  all: match goal with E : req_qos0 ?r = true |- _ =>
         destruct r; cbn [req_qos0] in E; try discriminate E; apply N.eqb_eq in E end;
       cbn [req_packet pub_saved]; repeat split; first [assumption | exact I | left; assumption].
Qed.

Lemma InvSbs_reach es s : run step init es = Some s -> InvSbs s.
Proof. exact (reach_inv_rel _ _ InvOwed_reach InvSbs_init InvSbs_step es s). Qed.

Definition InvD (s : st) : Prop := InvC s /\ InvSbs s.

Lemma InvD_reach es s : run step init es = Some s -> InvD s.
Proof. intros H. exact (conj (InvC_reach _ _ H) (InvSbs_reach _ _ H)). Qed.

Theorem store_before_send : C09_store_before_send_statement.
Proof.
  intros es s Hr p a r Hin d m id -> Hq.
  destruct (InvSbs_reach _ _ Hr) as (S1 & _).
  specialize (S1 _ Hin). cbn in S1. destruct S1 as [X|X]; [contradiction|exact X].
Qed.

(* the boolean checker run on observed traces agrees with the statement *)
Lemma saved_out_In h m id : saved_out h m id = true -> In (Outgoing, Publish false m id) (g_saved h).
Proof.
  unfold saved_out. intros H. apply existsb_exists in H as [[d q] [Hin Hq]].
  destruct d; [discriminate Hq|]. apply packet_eqb_eq in Hq. subst q. exact Hin.
Qed.

Lemma store_before_send_ok_sound s : store_before_send_ok s = true ->
  forall p a r, In (p, a, r) (g_tx (g s)) -> forall d m id, p = Publish d m id -> m_qos m <> 0 ->
  In (Outgoing, Publish false m id) (g_saved (g s)).
Proof.
  unfold store_before_send_ok. intros H p a r Hin d m id -> Hq.
  rewrite forallb_forall in H. specialize (H _ Hin). cbn in H.
  apply orb_true_iff in H as [H|H]; [apply N.eqb_eq in H; contradiction|]. apply saved_out_In. exact H.
Qed.

