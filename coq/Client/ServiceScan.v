(* ServiceScan.v — the trace scanners of ServiceSpec.v hold of every trace the service monitor accepts. *)
From Coq Require Import List NArith Bool Lia.
From GM Require Import Base.Lts Codec.Packet Client.Service Client.ServiceSpec Client.ServiceLemmas Client.ServiceProofs Client.ServiceStop.
Import ListNotations.
Open Scope N_scope.

(* simulation: if related states stay related along every monitor step, the scanner accepts what the monitor accepts *)
Lemma scan_sim {S : Type} (f : S -> event -> option S) (R : S -> state -> Prop) :
  (forall g s e s', R g s -> step s e = Some s' -> exists g', f g e = Some g' /\ R g' s') ->
  forall es g s s', R g s -> run step s es = Some s' -> scan f g es = true.
Proof.
  intros Hstep. induction es as [|e es IH]; intros g s s' HR Hrun; cbn [scan]; [reflexivity|].
  cbn [run] in Hrun. destruct (step s e) as [s1|] eqn:E; [|discriminate].
  destruct (Hstep g s e s1 HR E) as (g' & Hg & HR'). rewrite Hg. eapply IH; eauto.
Qed.

(* ---------------------------------------------------------------- dispatch gate *)

Definition gate_rel (g : gstate) (s : state) : Prop :=
  (sp s = SDispatch -> g = G1 \/ g = G3) /\
  (forall n k, sp s = SDispFailing n k -> g = G4) /\
  (sp s = SResubCall -> g = G1) /\
  (forall id, sp s = SResubWait id -> g = G2 id /\ store_get id (store s) = Some SResub).

Ltac gate_rel_tac :=
  unfold gate_rel; cbn; rewrite ?pop_sp, ?pop_store; cbn; rw_ctl; cbn;
  repeat split; intros; try discriminate; try tauto; try congruence.

Lemma gate_sim g s e s' : gate_rel g s -> step s e = Some s' -> exists g', gate_step g e = Some g' /\ gate_rel g' s'.
Proof.
  intros (R1 & R2 & R3 & R4) H. destruct e; step_inv H.
  all: try (subst; eexists; split; [reflexivity|]; unfold gate_rel; tauto).
  all: cbn [gate_step].
  (* what the relation says about g at this control point *)
  all: try (destruct (R1 eq_refl); subst g).
  all: try (rewrite (R2 _ _ eq_refl) in * ).
  all: try (rewrite (R3 eq_refl) in * ).
  all: try (destruct (R4 _ eq_refl) as [-> Hst]).
  all: try (match goal with |- context [if ?c then _ else _] => destruct c eqn:?; try discriminate end).
  all: try (eexists; split; [reflexivity|]; gate_rel_tac; fail).
  all: try (destruct g as [| |i| | |]; cbn; try (destruct (id =? i) eqn:Ei; [apply N.eqb_eq in Ei; subst i|]);
            eexists; (split; [reflexivity|]); unfold gate_rel; cbn;
            (split; [intros H0; try (destruct (R1 H0)); try discriminate; auto|]);
            (split; [intros n0 k0 H0; try (pose proof (R2 _ _ H0)); try discriminate; auto|]);
            (split; [intros H0; try (pose proof (R3 H0)); try discriminate; auto|]);
            intros i0 H0; try (destruct (R4 _ H0) as [Hg Hs]); try discriminate; try congruence;
            try (injection Hg as <-); try (split; [reflexivity|]);
            rewrite ?store_get_del; try rewrite N.eqb_sym, Ei; try assumption; try congruence; fail).
  - eexists; split; [reflexivity|]. unfold gate_rel; cbn. repeat split; intros; try discriminate.
    + congruence.
    + injection H as <-. unfold put_entry; cbn. rewrite store_get_put, N.eqb_refl. reflexivity.
  - eexists; split; [reflexivity|]. unfold gate_rel; cbn. rewrite E1. repeat split; intros; try discriminate.
    + congruence.
    + injection H as <-. rewrite store_get_del. rewrite N.eqb_sym in Heqb. rewrite Heqb. exact Hst.
  - eexists; split; [reflexivity|]. unfold gate_rel; cbn. rewrite E1. repeat split; intros; try discriminate.
    + congruence.
    + injection H as <-. rewrite store_get_del. rewrite N.eqb_sym in Heqb. rewrite Heqb. exact Hst.
Qed.

Theorem gate_ok_accepted c es s : run step (init c) es = Some s -> gate_ok es = true.
Proof.
  intros H. unfold gate_ok. apply (scan_sim gate_step gate_rel gate_sim es G0 (init c) s); [|exact H].
  unfold gate_rel; cbn. repeat split; intros; discriminate.
Qed.

(* ---------------------------------------------------------------- lifecycle *)

Definition life_rel (l : lstate) (s : state) : Prop :=
  inv_ctl s /\
  l_call l = match ap s with AStart ok => Some (LStart ok) | AStop _ ok => Some (LStop ok) | _ => None end /\
  (l_run l = true <-> (started s = true \/ stopping s = true)).

Lemma life_running l s : life_rel l s -> sp s <> SIdle -> l_run l = true.
Proof.
  intros (C & _ & Hr) Hsp. apply Hr. destruct (started s) eqn:Es; [left; reflexivity|].
  destruct (stopping s) eqn:Et; [right; reflexivity|]. exfalso. apply Hsp. apply (ic_idle s C). auto.
Qed.

Lemma life_idle l s : life_rel l s -> ap s = ANone -> l_run l = started s.
Proof.
  intros (_ & _ & Hr) Ea. destruct (l_run l) eqn:El, (started s) eqn:Es; try reflexivity.
  - destruct (proj1 Hr eq_refl) as [Hx|Hx]; [discriminate|]. unfold stopping in Hx. rewrite Ea in Hx. discriminate.
  - exfalso. assert (Hx : false = true) by (apply Hr; left; reflexivity). discriminate.
Qed.

Lemma life_sim l s e s' : life_rel l s -> step s e = Some s' -> exists l', life_step l e = Some l' /\ life_rel l' s'.
Proof.
  intros R H. pose proof R as (C & Hc & Hr). pose proof (inv_ctl_step s e s' C H) as C'.
  destruct e; cbn [life_step is_sup_event].
  all: try (rewrite (life_running l s R)
              by (intros Hs; unfold step in H; rewrite Hs in H; try discriminate H; destruct (queue s); discriminate H)).
  all: try (eexists; split; [reflexivity|]; split; [exact C'|]; revert Hc Hr; clear C C' R; step_inv H;
            unfold stopping, pop_cmd, handover, put_entry, enqueue, enter_dispatch in *; cbn; split_ap; cbn; rw_ctl; cbn;
            intros Hc Hr; (split; [exact Hc|exact Hr]); fail).
  5-7: (eexists; split; [reflexivity|]; split; [exact C'|]; revert Hc Hr; clear C C' R; step_inv H;
        unfold stopping, pop_cmd, handover, put_entry, enqueue, enter_dispatch in *; cbn; split_ap; cbn; rw_ctl; cbn;
        intros Hc Hr; try discriminate; try (split; [exact Hc|exact Hr])).
  - (* Start called *)
    unfold step in H. destruct (ap s) eqn:Ea; try discriminate. rewrite Hc. cbn.
    pose proof (life_idle l s R Ea) as Hrs.
    rewrite Hrs. destruct (started s) eqn:Es.
    + injection H as <-. eexists; split; [reflexivity|]. split; [exact C'|]. cbn. rewrite Es. unfold stopping; cbn. split; [reflexivity|tauto].
    + destruct (sp s); try discriminate. injection H as <-. eexists; split; [reflexivity|]. split; [exact C'|]. cbn.
      unfold stopping; cbn. split; [reflexivity|tauto].
  - (* Start returned *)
    unfold step in H. destruct (ap s) eqn:Ea; try discriminate. rewrite Hc.
    destruct (eqb ok ok0) eqn:Eo; [|discriminate]. injection H as <-. eexists; split; [reflexivity|]. split; [exact C'|]. cbn.
    split; [reflexivity|]. unfold stopping in *; cbn. rewrite Ea in Hr. exact Hr.
  - (* Stop called *)
    unfold step in H. destruct (ap s) eqn:Ea; try discriminate. rewrite Hc.
    pose proof (life_idle l s R Ea) as Hrs.
    destruct (started s) eqn:Es; injection H as <-; eexists; (split; [reflexivity|]); (split; [exact C'|]); cbn;
      unfold stopping; cbn; rewrite Hrs; (split; [reflexivity|]); try rewrite Es; tauto.
  - (* Stop returned *)
    unfold step in H. destruct (ap s) as [| |c ok0|] eqn:Ea; try discriminate. rewrite Hc.
    pose proof (ic_stop s C c ok0 Ea) as Hst.
    destruct (eqb ok ok0) eqn:Eo; cbn [negb] in H; [|discriminate]. apply eqb_prop in Eo. subst ok0.
    unfold stopping in Hr. rewrite Ea in Hr.
    destruct ok.
    + destruct (sp s); try discriminate. injection H as <-. eexists; split; [reflexivity|]. split; [exact C'|].
      destruct c; cbn; unfold stopping; cbn; rewrite ?Hst; (split; [reflexivity|]); split; intros Hx; try discriminate;
        destruct Hx; discriminate.
    + injection H as <-. eexists; split; [reflexivity|]. split; [exact C'|]. cbn. unfold stopping; cbn.
      split; [reflexivity|]. exact Hr.
  - (* "Resubscribe Error" *)
    rewrite (life_running l s R) by (intros Hs; unfold step in H; rewrite Hs in H; destruct r; discriminate H).
    eexists; split; [reflexivity|]. split; [exact C'|]. unfold step in H.
    destruct r, (sp s); try discriminate H; injection H as <-; cbn; unfold stopping in *; cbn; (split; [exact Hc|exact Hr]).
Qed.

Theorem life_ok_accepted c es s : run step (init c) es = Some s -> life_ok es = true.
Proof.
  intros H. unfold life_ok. apply (scan_sim life_step life_rel life_sim es (LS false None) (init c) s); [|exact H].
  split; [apply inv_ctl_init|]. cbn. split; [reflexivity|]. unfold stopping; cbn. split; [discriminate|intros [Hx|Hx]; discriminate].
Qed.
