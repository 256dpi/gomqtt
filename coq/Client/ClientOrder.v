(* ClientOrder.v — C15, client side: callbacks follow the arrival order (scan_order). *)
From Coq Require Import List NArith Bool Lia.
From GM Require Import Base.Lts Codec.Packet Session.Store Client.Client Client.ClientSpec Client.TraceScan Codec.PacketEqb
  Client.ClientStep.
Import ListNotations.
Open Scope N_scope.

Definition orel (last : option message) (p : ppc) : Prop :=
  match p with
  | PPubCb (Publish _ m _) => last = Some m
  | PRelCb m _ _ => last = Some m
  | _ => True
  end.

Lemma orel_after_pub last q : orel last (ppc_after_pub q).
Proof. destruct q; try exact I. unfold ppc_after_pub. destruct (_ =? 1); [|destruct (_ =? 2)]; exact I. Qed.

Lemma orel_rest last p : at_rest p -> orel last p.
Proof. destruct p; try destruct first; cbn; intros H; try contradiction; exact I. Qed.

Lemma order_other last e : proc_event e = false -> (forall b, e <> ENew b) -> order_step last e = Some last.
Proof.
  intros He Hn. apply proc_obs_event in He. unfold order_step. rewrite He.
  destruct e; try reflexivity; [destruct (Hn _ eq_refl)|discriminate He].
Qed.

Lemma order_sim last p e p' : pview p e p' -> orel last p -> exists last', order_step last e = Some last' /\ orel last' p'.
Proof.
  intros Hv HR. destruct Hv as [b p|p e p' Hp|p e p' He Hn _ Ho].
  - exists None. split; [reflexivity|exact I].
  - destruct Hp; cbn [orel] in HR; subst.
    all: try (destruct r; [|destruct b]); cbn [order_step proc_obs cont_pc die_pc]; rewrite ?message_eqb_refl.
    all: try (eexists; split; [reflexivity|first [exact I | apply orel_after_pub]]).
    + destruct q, b; eexists; (split; [reflexivity|exact I]).
    + destruct q, cb; eexists; (split; [reflexivity|]); cbn [ppc_rx orel]; auto using orel_after_pub.
    + destruct (set_dup q) as [| |[]| | | | | | | | | | |]; eexists; (split; [reflexivity|destruct r, rest; exact I]).
    + destruct x as [[[]|]|]; try destruct cb; try destruct b; eexists; (split; [reflexivity|]); cbn; auto.
    + destruct x as [[]|]; eexists; (split; [reflexivity|exact I]).
    + eexists; split; [reflexivity|exact (orel_rest _ _ (proj2 (hid_rest _ _ H)))].
  - exists last. split; [exact (order_other last e He Hn)|].
    destruct Ho as [->|[[-> Hd]|[-> ->]]]; [exact HR|exact (orel_rest _ _ (done_rest _ Hd))|exact I].
Qed.

(* every accepted trace passes the arrival-order scanner *)
Theorem scan_order_accepted es s : run step init es = Some s ->
  exists last, scan_order None es = Some last /\ orel last (k_ppc (k s)).
Proof.
  apply (scan_run order_step (fun last s => orel last (k_ppc (k s)))); [|exact I].
  intros last s0 e s1 Hr HR Hs. exact (order_sim last _ e _ (reach_proc s0 e s1 Hr Hs) HR).
Qed.

(* what passing the scanner means, spelled out: split an accepted trace at any message callback;
   the last observable processor event before it is the arrival of that very message — Rx of a
   PUBLISH carrying it, or the lookup of the stored PUBLISH carrying it (for the PUBREL just
   received) *)
Fixpoint last_proc_obs (es : list event) : option event :=
  match es with
  | [] => None
  | e :: es' => match last_proc_obs es' with
                | Some x => Some x
                | None => if proc_obs e then Some e else match e with ENew _ => Some e | _ => None end
                end
  end.

Lemma scan_order_app last es1 es2 :
  scan_order last (es1 ++ es2) = match scan_order last es1 with Some l => scan_order l es2 | None => None end.
Proof.
  revert last; induction es1 as [|e es1 IH]; intros last; cbn [app scan_order]; [reflexivity|].
  destruct (order_step last e); [apply IH|reflexivity].
Qed.

Lemma order_step_some last e m : order_step last e = Some (Some m) ->
  (proc_obs e = false /\ (forall b, e <> ENew b) /\ last = Some m) \/
  (exists d id, e = ERx (Publish d m id)) \/
  (exists d id pid, e = ELookup Incoming id (Some (Some (Publish d m pid)))).
Proof.
  destruct e; cbn [order_step proc_obs];
    repeat match goal with |- context [match ?x with _ => _ end] => destruct x end;
    intros H; try discriminate H; injection H as H; try discriminate H; subst;
    first [ left; split; [reflexivity|split; [intros b X; discriminate X|reflexivity]]
          | solve [right; left; eauto]
          | solve [right; right; eauto] ].
Qed.

Lemma scan_order_last es : forall last l m, scan_order last es = Some l -> l = Some m ->
  (last_proc_obs es = None /\ last = Some m) \/
  (exists d id, last_proc_obs es = Some (ERx (Publish d m id))) \/
  (exists d id pid, last_proc_obs es = Some (ELookup Incoming id (Some (Some (Publish d m pid))))).
Proof.
  induction es as [|e es IH]; intros last l m Hs Hl; cbn [scan_order] in Hs.
  - injection Hs as <-. left. split; [reflexivity|exact Hl].
  - destruct (order_step last e) as [l1|] eqn:E1; [|discriminate Hs].
    destruct (IH _ _ _ Hs Hl) as [[Hnone Hl1]|[H|H]].
    + cbn [last_proc_obs]. rewrite Hnone. subst l1.
      destruct (order_step_some _ _ _ E1) as [(Hp & Hn & Hlast)|[(d & id & ->)|(d & id & pid & ->)]].
      * rewrite Hp. left. split; [|exact Hlast]. destruct e; try reflexivity. exfalso. eapply Hn. reflexivity.
      * right. left. cbn. eauto.
      * right. right. cbn. eauto.
    + right. left. destruct H as (d & id & H). cbn [last_proc_obs]. rewrite H. eauto.
    + right. right. destruct H as (d & id & pid & H). cbn [last_proc_obs]. rewrite H. eauto.
Qed.

Theorem callback_follows_its_arrival es1 m r es2 s :
  run step init (es1 ++ ECb m r :: es2) = Some s ->
  (exists d id, last_proc_obs es1 = Some (ERx (Publish d m id))) \/
  (exists d id pid, last_proc_obs es1 = Some (ELookup Incoming id (Some (Some (Publish d m pid))))).
Proof.
  intros H. destruct (scan_order_accepted _ _ H) as (l & Hs & _).
  rewrite scan_order_app in Hs. destruct (scan_order None es1) as [l1|] eqn:E1; [|discriminate Hs].
  cbn [scan_order order_step] in Hs. destruct l1 as [m'|]; [|discriminate Hs].
  destruct (message_eqb m m') eqn:Em; [|discriminate Hs]. apply message_eqb_eq in Em. subst m'.
  destruct (scan_order_last _ _ _ _ E1 eq_refl) as [[_ X]|X]; [discriminate X|exact X].
Qed.

