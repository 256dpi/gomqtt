(* ClientC10.v — C10_pubrec_always, C10_qos01, C10_pubrel_answered_partial. *)
From Coq Require Import List NArith Bool Lia.
From GM Require Import Base.Lts Codec.Packet Session.Store Session.StoreProofs Client.Client Client.ClientSpec Client.ClientTactics Codec.PacketEqb
  Client.ClientInvCtl Client.ClientInvOwed Client.ClientStep.
Import ListNotations.
Open Scope N_scope.

Lemma only_comp_no (l : list packet) p : forallb is_pubcomp l = true -> In p l -> is_pubcomp p = true.
Proof. intros H Hin. rewrite forallb_forall in H. apply H; exact Hin. Qed.

Lemma recv_owed es s first p :
  run step init es = Some s -> k_ppc (k s) = PRecv first -> In p (g_owed (g s)) -> is_pubcomp p = true.
Proof.
  intros Hr Hpc Hin. destruct (InvB_reach _ _ Hr) as [_ [HO _]]. rewrite Hpc in HO.
  destruct first; cbn [owed_pc] in HO.
  - rewrite HO in Hin. contradiction.
  - eapply only_comp_no; eassumption.
Qed.

Theorem pubrec_always : C10_pubrec_always_statement.
Proof.
  intros es s Hr. split; [|split].
  - intros first id Hpc Hin. pose proof (recv_owed _ _ _ _ Hr Hpc Hin) as X. discriminate X.
  - intros p e s' Hpc Hproc H.
    moves Hr Hpc Hproc H.
    exists r. split; [reflexivity|]. intros ->. exists id. split; [assumption|]. split; [reflexivity|].
    destruct (step_ghost _ _ _ H) as (_ & _ & _ & _ & _ & Gin & _). rewrite Gin. unfold store_save.
    match goal with X : get_id _ = _ |- _ => rewrite X end. rewrite lookup_put, N.eqb_refl. reflexivity.
  - intros id e s' Hpc Hproc H.
    moves Hr Hpc Hproc H.
    eexists; reflexivity.
Qed.

Theorem qos01 : C10_qos01_statement.
Proof.
  intros es s Hr. split; [|split; [|split]].
  - intros first d m id s' Hpc -> Hq Hcb H.
    cbv beta iota zeta delta [step] in H. rewrite Hpc in H. cbv beta iota in H. injection H; intros <-.
    unfold proc_rx. cbv beta zeta. norm.
    apply N.leb_le in Hq. rewrite Hq, Hcb. reflexivity.
  - intros p e s' Hpc Hproc H.
    moves Hr Hpc Hproc H.
    do 2 eexists; (split; [reflexivity|]). intros d0 id0 Hp -> Hq. injection Hp as -> ->.
    unfold cont_pc, ppc_after_pub. rewrite Hq. reflexivity.
  - intros id e s' Hpc Hproc H.
    moves Hr Hpc Hproc H.
    eexists; reflexivity.
  - intros first id Hpc Hin. pose proof (recv_owed _ _ _ _ Hr Hpc Hin) as X. discriminate X.
Qed.

(* C10_pubrel_answered_partial: a PUBREL whose id IS in the incoming store is answered:
   the processor's only moves are (the callback in default mode, then) the PUBCOMP write,
   then the removal from the store *)
Definition C10_pubrel_answered_partial_statement : Prop :=
  forall es s, run step init es = Some s ->
  (forall id x s', k_ppc (k s) = PRelLookup id -> step s (ELookup Incoming id (Some x)) = Some s' ->
     x = store_lookup (s_in (sess s)) id /\
     forall d m pid, x = Some (Publish d m pid) ->
       k_ppc (k s') = (if cf_callback (k_cfg (k s)) && negb (cf_early (k_cfg (k s)))
                       then PRelCb m pid id else PRelComp pid id)) /\
  (forall m pid id e s', k_ppc (k s) = PRelCb m pid id -> proc_event e = true -> step s e = Some s' ->
     exists r, e = ECb m r /\ (r = Ok -> k_ppc (k s') = PRelComp pid id)) /\
  (forall pid id e s', k_ppc (k s) = PRelComp pid id -> proc_event e = true -> step s e = Some s' ->
     exists r, e = ETx (Pubcomp pid) true r /\ (r = Ok -> k_ppc (k s') = PRelDel id)) /\
  (forall id e s', k_ppc (k s) = PRelDel id -> proc_event e = true -> step s e = Some s' ->
     exists r, e = EDelete Incoming id r).

Lemma opt_packet_eqb_eq a b : opt_packet_eqb a b = true -> a = b.
Proof. unfold opt_packet_eqb. apply option_eqb_eq. exact packet_eqb_eq. Qed.

Theorem pubrel_answered_partial : C10_pubrel_answered_partial_statement.
Proof.
  intros es s Hr. split; [|split; [|split]].
  - intros id x s' Hpc H.
    cbv beta iota zeta delta [step] in H. rewrite Hpc, N.eqb_refl in H.
    destruct (opt_packet_eqb x (store_lookup (s_in (sess s)) id)) eqn:E; [|discriminate H].
    apply opt_packet_eqb_eq in E. split; [exact E|].
    intros d m pid ->. destruct (cf_callback (k_cfg (k s)) && negb (cf_early (k_cfg (k s)))); injection H as <-; reflexivity.
  - intros m pid id e s' Hpc Hproc H.
    moves Hr Hpc Hproc H.
    eexists; (split; [reflexivity|]). intros ->. reflexivity.
  - intros pid id e s' Hpc Hproc H.
    moves Hr Hpc Hproc H.
    eexists; (split; [reflexivity|]). intros ->. reflexivity.
  - intros id e s' Hpc Hproc H.
    moves Hr Hpc Hproc H.
    eexists; reflexivity.
Qed.
