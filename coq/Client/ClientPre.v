(* ClientPre.v — until processConnack has listed and re-sent the stored packets the client is not
   connected and no request call is under way; C09_resend_before_new. *)
From Coq Require Import List NArith Bool Lia.
From GM Require Import Base.Lts Codec.Packet
  Client.Future Client.Client Client.ClientSpec
  Client.ClientTactics Codec.PacketEqb Client.ClientInvCtl Client.ClientInvOwed.
Import ListNotations.
Open Scope N_scope.

(* no call that passed the "connected" check is under way *)
Definition noreq (s : st) : Prop :=
  match k_api (k s) with
  | Some (_, (AReqNext _ | AReqPut _ _ | AReqSave _ _ | AReqSend _ _ | AReqFin | ADiscSet | ADiscSend)) => False
  | _ => True
  end.
Definition quiet (s : st) : Prop := k_cs (k s) <> StConnected /\ noreq s.

(* InvPre is stated over the four fields it reads *)
Definition noreq_a (a : option (N * apc)) : Prop :=
  match a with
  | Some (_, (AReqNext _ | AReqPut _ _ | AReqSave _ _ | AReqSend _ _ | AReqFin | ADiscSet | ADiscSend)) => False
  | _ => True
  end.
Definition quiet_f (cs : cstate) a : Prop := cs <> StConnected /\ noreq_a a.
Definition hi_f (cs : cstate) : Prop := (2 <=? cst_n cs) = true.
Definition late_f (d : dpc) (cs : cstate) : Prop := forall x, after_of d = Some x -> x = PExited \/ hi_f cs.
Definition pre_f (p : ppc) (cs : cstate) a : Prop :=
  match p with
  | PNone => quiet_f cs a
  | PRecv true => quiet_f cs a /\ cs <> StInit
  | PAll _ | PResend _ _ => quiet_f cs a /\ hi_f cs
  | PConnack _ _ => (quiet_f cs a /\ cs <> StInit) \/ hi_f cs
  | PInDie | PExited | PErrChk => True
  | _ => hi_f cs
  end.
Definition conn_f (a : option (N * apc)) (p : ppc) (cs : cstate) : Prop :=
  match a with
  | Some (_, AConnDial) => p = PNone
  | Some (_, (AConnReset | AConnSend)) => p = PNone /\ cs <> StInit
  | _ => True
  end.
Definition init_f (cs : cstate) (p : ppc) : Prop := cs = StInit -> p = PNone.
Definition pre_inv p d cs a : Prop := late_f d cs /\ pre_f p cs a /\ conn_f a p cs /\ init_f cs p.
Definition InvPre (s : st) : Prop := pre_inv (k_ppc (k s)) (k_dpc (k s)) (k_cs (k s)) (k_api (k s)).

Lemma InvPre_init : InvPre init.
Proof. split; [intros a Ha; discriminate Ha|]. split; [split; [discriminate|exact I]|split; [exact I|intros _; reflexivity]]. Qed.

(* once a processor exists no Connect call is under way *)
Lemma conn_moved a p p' cs cs' : conn_f a p cs -> p <> PNone -> conn_f a p' cs'.
Proof. destruct a as [[? []]|]; cbn; intros K N; first [exact I | contradiction | destruct K; contradiction]. Qed.
Lemma init_moved cs p p' : init_f cs p -> p <> PNone -> init_f cs p'.
Proof. intros K0 N X. apply K0 in X. contradiction. Qed.

Lemma pre_api p cs a a' : pre_f p cs a -> (noreq_a a -> noreq_a a') -> pre_f p cs a'.
Proof.
  unfold pre_f, quiet_f. intros R N.
  destruct p; try destruct first; tauto.
Qed.
Lemma pre_req p cs a a' : pre_f p cs a -> cs = StConnected -> pre_f p cs a'.
Proof.
  unfold pre_f, quiet_f. intros R ->.
  destruct p; try destruct first; first [exact R | right; reflexivity | tauto].
Qed.
Lemma pre_cs p cs cs' a : pre_f p cs a -> hi_f cs' -> cs' <> StConnected -> pre_f p cs' a.
Proof.
  unfold pre_f, quiet_f. intros R Hh Hc. assert (Hi : cs' <> StInit) by (intros ->; discriminate Hh).
  destruct p; try destruct first; tauto.
Qed.
Lemma pre_late p cs a : ret_point p -> p = PExited \/ hi_f cs -> pre_f p cs a.
Proof.
  destruct p; try destruct first; cbn; try contradiction; intros _ [X|X];
    first [exact I | discriminate X | exact X].
Qed.

Lemma conn_cs a p cs cs' : conn_f a p cs -> cs' <> StInit -> conn_f a p cs'.
Proof. destruct a as [[? []]|]; cbn; intros K N; first [exact I | exact K | split; [apply K|exact N]]. Qed.

Lemma connected_eq cs : negb (is_connected cs) = false -> cs = StConnected.
Proof. destruct cs; cbn; intros H; first [reflexivity | discriminate H]. Qed.

(* CONNACK is looked at: unless the state is Connecting it is ignored *)
Lemma connack_late cs a : pre_f (PConnack false 0) cs a -> negb (cst_n cs =? 1) = true -> hi_f cs.
Proof. intros [[[X _] Y]|X] E; [|exact X]. destruct cs; first [reflexivity | contradiction | discriminate E]. Qed.
Lemma connack_quiet cs a : pre_f (PConnack false 0) cs a -> negb (cst_n cs =? 1) = false -> noreq_a a.
Proof. intros [[[_ X] _]|X] E; [exact X|]. destruct cs; first [discriminate E | discriminate X]. Qed.

Lemma InvPre_step s e s' : InvCtl s -> InvAfter s -> InvPre s -> step s e = Some s' -> InvPre s'.
Proof.
  intros (_ & _ & C3 & _) HA (L & R & K & K0) H. unfold InvAfter in HA.
  destruct e.
  all: step_cases H.
  all: unfold InvPre; open_ctl; know_pts.
  all: split; [|split; [|split]].
  (* late_f: the die body keeps its return point; a new one is PExited, or the state is late *)
  all: try solve [first
       [ exact L
       | intros x Hx; discriminate Hx
       | intros x Hx; injection Hx as <-; first [left; reflexivity | right; first [reflexivity | exact R | apply R]]
       | intros x Hx; right; reflexivity ]].
  (* conn_f, init_f: unchanged, or a processor exists *)
  all: try solve [first [exact K | exact I | apply (conn_moved _ _ _ _ _ K); discriminate
                        | apply (conn_cs _ _ _ _ K); discriminate ]].
  all: try solve [first [exact K0 | intros X; discriminate X | apply (init_moved _ _ _ K0); discriminate
                        | intros _; reflexivity]].
  (* pre_f: the processor moves among late points, or only the call or the state word changes *)
  all: try solve [first [exact R | exact I | exact (proj2 R) | reflexivity | left; exact R
                        | split; [discriminate|exact I] ]].
  all: try solve [first [ apply (pre_api _ _ _ _ R); intros _; exact I
                        | apply (pre_cs _ _ _ _ R); [reflexivity|discriminate] ]].
  (* a request or Disconnect gets the mutex: the client is connected *)
  all: try solve [apply (pre_req _ _ _ _ R), connected_eq; assumption].
  (* Connect gets the mutex: no processor yet; while it dials none is started, so a die body
     is not the processor's *)
  all: try solve [match goal with E : k_ppc _ = PNone |- _ => exact E end].
  all: try solve [intros x Hx; apply after_owned in Hx; apply C3 in Hx; rewrite K in Hx; discriminate Hx].
  all: try solve [rewrite K; split; [discriminate|exact I]].
  all: try solve [split; [exact K|discriminate]].
  (* CONNECT is sent: the processor starts *)
  all: try solve [split; [split; [exact (proj1 R)|exact I]|exact (proj2 K)]].
  all: try solve [intros X; destruct (proj2 K X)].
  (* CONNACK *)
  all: try solve [eapply connack_late; eassumption].
  all: try solve [split; [split; [discriminate|eapply connack_quiet; eassumption]|reflexivity]].
  (* the die body returns to the processor *)
  all: try solve [apply pre_late; [exact HA | exact (L _ eq_refl)]].
  all: try solve [apply (conn_moved _ _ _ _ _ K); rewrite (C3 eq_refl); discriminate].
  all: apply (init_moved _ _ _ K0); rewrite (C3 eq_refl); discriminate.
Qed.

Lemma InvPre_reach es s : run step init es = Some s -> InvPre s.
Proof.
  revert es s. apply (reach_inv_rel (fun s => InvCtl s /\ InvAfter s)).
  - intros es s Hr. split; [exact (InvCtl_reach _ _ Hr)|exact (InvAfter_reach _ _ Hr)].
  - exact InvPre_init.
  - intros s e s' [HC HA]. exact (InvPre_step s e s' HC HA).
Qed.

(* ---- C09_resend_before_new *)
Theorem resend_before_new : C09_resend_before_new_statement.
Proof.
  intros es s Hr Hw. destruct (InvPre_reach _ _ Hr) as (_ & R & _).
  unfold pre_f, quiet_f, noreq_a in R.
  destruct (k_ppc (k s)) as [| [|] | | | | sp | sp l | | | | | | | | | | | | | | |] eqn:Ep; try discriminate Hw.
  all: destruct R as [[Rc Rn] _]; split; [exact Rc|].
  all: intros e s' H; split; [|split].
  all: try (intros p a r ->).
  all: try (intros p r ->).
  all: try (intros c ->).
  all: step_cases H.
  all: try discriminate Ep.
  all: try (rewrite Ep in *).
  all: repeat match goal with E : k_api (k _) = _ |- _ => rewrite E in Rn end; try contradiction.
  all: try solve [left; reflexivity].
  all: try exact I.
  all: try solve [right; do 3 eexists; split; [reflexivity|]; apply packet_eqb_eq; assumption].
  all: cbn [k set_k k_cs k_api k_set_pending] in *.
  all: try solve [norm; assumption].
  all: try solve [exfalso; unfold is_connected in *; destruct (k_cs (k s)); cbn in *; try discriminate; congruence].
  all: try solve [injection Ep as <- <-; right; do 3 eexists; split; [reflexivity|]; apply packet_eqb_eq; assumption].
  all: try reflexivity.
Qed.
