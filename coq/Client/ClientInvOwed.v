(* ClientInvOwed.v — the acknowledgement owed for the packet being processed, per control point of the
   processor (InvOwed); the C10 theorems of ClientC10.v read it off. *)
From Coq Require Import List NArith Bool Lia.
From GM Require Import Base.Lts Codec.Packet Session.Ids Session.Store Client.Future Client.Client Client.ClientSpec Client.ClientTactics Codec.PacketEqb Client.ClientInvCtl.
Import ListNotations.
Open Scope N_scope.

Definition is_pubcomp (p : packet) : bool := match p with Pubcomp _ => true | _ => false end.

Definition owed_pc (p : ppc) (owed : list packet) : Prop :=
  match p with
  | PNone | PRecv true | PConnack _ _ | PConnackCancel _ _ | PAll _ | PResend _ _ | PConnDone _ _ => owed = []
  | PPubAck id => forallb (packet_eqb (Puback id)) owed = true
  | PPubRec id => forallb (packet_eqb (Pubrec id)) owed = true
  | PPubSave p => forall id, get_id p = Some id -> forallb (packet_eqb (Pubrec id)) owed = true
  | PPubCb (Publish _ m id) =>
    owed = (if m_qos m =? 1 then [Puback id] else if m_qos m =? 2 then [Pubrec id] else [])
  | PInDie | PExited | PPubCb _ => True
  | _ => forallb is_pubcomp owed = true
  end.

Definition after_of (d : dpc) : option ppc :=
  match d with DCu _ _ (DAProc a) | DCb (DAProc a) => Some a | _ => None end.

Definition after_pc (a : ppc) (owed : list packet) : Prop :=
  match a with
  | PExited => True
  | PRecv false | PConnackCancel _ _ => owed = []
  | _ => False
  end.

Definition InvOwed (s : st) : Prop :=
  owed_pc (k_ppc (k s)) (g_owed (g s)) /\
  (forall a, after_of (k_dpc (k s)) = Some a -> after_pc a (g_owed (g s))).

Lemma InvOwed_init : InvOwed init.
Proof. split; cbn; [reflexivity|discriminate]. Qed.

Lemma filter_all_eq p l : forallb (packet_eqb p) l = true ->
  filter (fun q => negb (packet_eqb p q)) l = [].
Proof.
  induction l as [|q l IH]; cbn; [reflexivity|]. intros H. apply andb_true_iff in H as [H1 H2].
  rewrite H1. cbn. auto.
Qed.

Lemma filter_keeps_forallb {A} (f g : A -> bool) l : forallb f l = true -> forallb f (filter g l) = true.
Proof.
  induction l as [|q l IH]; cbn; [reflexivity|]. intros H. apply andb_true_iff in H as [H1 H2].
  destruct (g q); cbn; [rewrite H1|]; auto.
Qed.

Lemma after_pc_owed a o : after_pc a o -> owed_pc a o.
Proof. destruct a; try destruct first; cbn; auto; try contradiction. intros ->. reflexivity. Qed.

Lemma after_owned d a : after_of d = Some a -> ClientInvCtl.proc_owned d = true.
Proof. destruct d as [|cu cc [x|]|[x|]|]; cbn; intros H; try discriminate; reflexivity. Qed.

(* die is only ever called by the processor with one of three places to return to *)
Definition ret_point (a : ppc) : Prop :=
  match a with PExited | PRecv false | PConnackCancel _ _ => True | _ => False end.
Definition dpc_ret (d : dpc) : Prop :=
  match d with DCu _ _ (DAProc a) | DCb (DAProc a) => ret_point a | _ => True end.
Definition InvAfter (s : st) : Prop := dpc_ret (k_dpc (k s)).

Lemma InvOwed_after s : InvOwed s -> InvAfter s.
Proof.
  intros [_ O2]. unfold InvAfter. destruct (k_dpc (k s)) as [|? ? [a|]|[a|]|]; try exact I.
  all: specialize (O2 a eq_refl); destruct a; try destruct first; first [exact I | contradiction].
Qed.

Ltac owed_fin I2 C3 :=
  repeat match goal with
         | E : (?a =? ?b) = true |- _ => first [is_var a; is_var b; apply N.eqb_eq in E; subst | rewrite ?E in *; clear E]
         | E : (_ =? _) = false |- _ => rewrite ?E in *; clear E
         | H : g_owed _ = _ |- _ => rewrite H in *; clear H
         end;
  try match goal with |- (forall id, get_id _ = Some id -> _) /\ _ =>
    split; [let i := fresh "i" in let Hi := fresh "Hi" in intros i Hi; cbn [get_id] in Hi; injection Hi as <- | ] end;
  cbn [forallb is_pubcomp andb];
  rewrite ?packet_eqb_refl;
  first
  [ split;
    [ first [ assumption | reflexivity | exact I
            | apply filter_keeps_forallb; assumption
            | match goal with H : forallb (packet_eqb ?p) ?l = true |- _ => rewrite (filter_all_eq p l H); reflexivity end
            | match goal with H : ?l = [] |- _ => rewrite H; reflexivity end ]
    | first [ assumption
            | discriminate
            | let a := fresh "a" in let Ha := fresh "Ha" in
              intros a Ha; first [ injection Ha as <-; cbn [after_pc]; first [exact I | assumption | reflexivity
                                     | match goal with H : ?l = [] |- _ => rewrite H; reflexivity end ]
                                 | apply after_owned in Ha; apply C3 in Ha; discriminate Ha
                                 | apply I2 in Ha; exact Ha ] ] ]
  | idtac ].

Lemma InvOwed_step s e s' : ClientInvCtl.InvCtl s -> InvOwed s -> step s e = Some s' -> InvOwed s'.
Proof.
  intros (_ & _ & C3 & _) (I1 & I2) H.
  destruct e.
  all: step_cases H.
  all: unfold InvOwed; open_ctl; know_pts.
  all: cbn [owed_pc after_of after_pc] in *.
  all: owed_fin I2 C3.
  all: try (destruct first; [rewrite I1|]; owed_fin I2 C3).
  all: try (split; [apply after_pc_owed; apply I2; reflexivity|discriminate]).
  all: try reflexivity.
  (* a die body exists while the processor runs: it is the pinger's *)
  all: try (intros a0 Ha0; apply after_owned in Ha0; apply C3 in Ha0; discriminate Ha0).
  all: try (split; [exact I|]; intros a0 Ha0; destruct a; [discriminate (C3 eq_refl)|discriminate Ha0]).
  all: try (split; [apply I1; assumption|assumption]).
Qed.

Lemma InvOwed_reach es s : run step init es = Some s -> InvOwed s.
Proof. exact (reach_inv_rel _ _ ClientInvCtl.InvCtl_reach InvOwed_init InvOwed_step es s). Qed.

Lemma InvAfter_reach es s : run step init es = Some s -> InvAfter s.
Proof. intros H. exact (InvOwed_after _ (InvOwed_reach _ _ H)). Qed.

(* InvB here, InvC InvD InvE in the files that follow: all invariants established so far, together *)
Definition InvB (s : st) : Prop := ClientInvCtl.InvCtl s /\ InvOwed s.

Lemma InvB_reach es s : run step init es = Some s -> InvB s.
Proof. intros H. exact (conj (ClientInvCtl.InvCtl_reach _ _ H) (InvOwed_reach _ _ H)). Qed.
