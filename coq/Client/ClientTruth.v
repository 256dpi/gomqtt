(* ClientTruth.v — C09_future_truthful, step form: the only steps that turn a future into a
   successfully completed one. *)
From Coq Require Import List NArith Bool Lia.
From GM Require Import Base.Lts Codec.Packet Session.Ids Session.Store
  Client.Future Client.Client Client.ClientSpec
  Client.ClientTactics Client.AMap Codec.PacketEqb Client.ClientInvCtl Client.ClientInvOwed Client.ClientInvWf Client.ClientInvRx
  Client.ClientStep Client.ClientHist.
Import ListNotations.
Open Scope N_scope.

Definition completed (s : st) (c : N) : Prop :=
  exists f, fut_get s c = Some f /\ f_status (cf_fut f) = Completed.

(* a future becomes Completed only
   - while the processor handles an acknowledgement (the last packet received) that carries the
     packet id under which the future is stored in the future store, or
   - (connect future) in the processor's step that ends processConnack for a CONNACK with return code 0
     (still the last packet received): after the listing and the last re-send, or when one of them failed, or
   - (QoS 0 publish) in the API call itself after conn.Send returned nil *)
Definition C09_future_truthful_partial_statement : Prop :=
  forall es s e s' c, run step init es = Some s -> step s e = Some s' ->
  completed s' c -> ~ completed s c ->
  (e = EHid HProc /\ exists p rest id,
      g_rx (g s) = p :: rest /\ k_ppc (k s) = PAckFut p /\ is_ackp p = true /\ get_id p = Some id /\
      store_get_f s id = Some c) \/
  (e = EHid HProc /\ exists sp d rest,
      g_rx (g s) = Connack sp 0 :: rest /\ k_ppc (k s) = PConnDone sp d /\
      t_connfut (t s) = Some c) \/
  (e = EHid HApi /\ k_api (k s) = Some (c, AReqFin)).

(* how the helpers change the table of futures *)
Lemma completed_ev nr nt cr s s' c : evtab nr nt cr s s' -> completed s' c -> completed s c.
Proof.
  unfold completed. intros EV (f' & Hf' & Hs). specialize (EV c). rewrite Hf' in EV. destruct (fut_get s c) as [f|] eqn:Ef.
  - exists f. split; [reflexivity|apply EV, Hs].
  - destruct EV as (_ & Hn & _). contradiction.
Qed.

Lemma completed_fut_new s c' id kd c : completed (fut_new s c' id kd) c -> completed s c.
Proof.
  unfold completed, fut_new, fut_get. cbn [t t_futs set_t t_set_futs]. intros (f & Hg & Hs).
  rewrite aget_put in Hg. destruct (c =? c'); [injection Hg as <-; discriminate Hs|exists f; auto].
Qed.

Lemma completed_fut_complete s c' v c : completed (fut_complete s c' v) c -> completed s c \/ c = c'.
Proof.
  unfold completed, fut_complete, fut_resolve, fut_get. intros (f & Hg & Hs).
  destruct (amap_get (t_futs (t s)) c') as [f'|] eqn:E; [|left; exists f; auto].
  cbn [t t_futs set_t t_set_futs] in Hg. rewrite aget_put in Hg.
  destruct (N.eqb_spec c c') as [->|]; [right; reflexivity|left; exists f; auto].
Qed.

(* of the operations on the table only Complete makes a future Completed, and only its own *)
Lemma completed_do x o c : completed (tab_do x o) c -> completed x c \/ exists v, o = OComplete c v.
Proof.
  pose proof (completed_ev 0 0 None x (tab_do x o) c) as Q.
  destruct o; cbn [tab_do] in *; intros H.
  - left. apply Q; [apply evtab_same; reflexivity|exact H].
  - left. exact (completed_fut_new _ _ _ _ _ H).
  - destruct (completed_fut_complete _ _ _ _ H) as [H'| ->]; [left; exact H'|right; exists v; reflexivity].
  - left. apply Q; [apply evtab_cancel|exact H].
  - left. apply Q; [apply evtab_put|exact H].
  - left. apply Q; [apply evtab_same; reflexivity|exact H].
  - left. apply Q; [apply evtab_clear|exact H].
  - left. apply Q; [apply evtab_same; reflexivity|exact H].
Qed.

Lemma completed_run ops : forall x c,
  completed (fold_left tab_do ops x) c -> completed x c \/ exists v, In (OComplete c v) ops.
Proof.
  induction ops as [|o ops IH]; intros x c H; cbn [fold_left] in H; [left; exact H|].
  destruct (IH _ _ H) as [H'|(v & Hin)]; [|right; exists v; right; exact Hin].
  destruct (completed_do _ _ _ H') as [H''|(v & ->)]; [left; exact H''|right; exists v; left; reflexivity].
Qed.

Theorem future_truthful_partial : C09_future_truthful_partial_statement.
Proof.
  intros es s e s' c Hr H Hc Hn.
  pose proof (InvRx_reach _ _ Hr) as R. unfold InvRx in R.
  apply (completed_ev 0 0 None _ _ _ (evtab_same 0 0 _ _ (f_equal t_futs (step_tab _ _ _ H)))) in Hc.
  apply completed_run in Hc as [Hc|(v & Hin)]; [contradiction|].
  destruct (complete_in_ops _ _ _ _ Hin) as [(-> & p & id & Ep & Ei & Es)|[(-> & sp & d & Ep & Ec)|(-> & Ea)]].
  - left. split; [reflexivity|]. rewrite Ep in R. destruct R as [[rest Hrx] Hack].
    exists p, rest, id. repeat split; assumption.
  - right; left. split; [reflexivity|]. rewrite Ep in R. destruct R as [rest Hrx].
    exists sp, d, rest. repeat split; assumption.
  - right; right. split; [reflexivity|exact Ea].
Qed.

