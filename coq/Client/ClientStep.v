(* ClientStep.v — one step of the CL monitor seen from outside: what it does to the logs and to the
   session, as a function of the event; what it does to the table of futures, as a list of operations on
   it; and what it does to the processor's control point, as a relation between control points alone.
   The trace scanners are proved against the first and the last view, C09_future_total and the step form
   of C09_future_truthful against the second. *)
From Coq Require Import List NArith Bool.
From GM Require Import Base.Lts Codec.Packet Session.Ids Session.Store
  Client.Future Client.Client Client.ClientSpec Client.TraceScan Client.ClientLedger Client.ClientTactics Codec.PacketEqb
  Client.ClientInvCtl Client.ClientInvOwed.
Import ListNotations.
Open Scope N_scope.

Ltac eqb_subst :=
  repeat match goal with
  | E : (_ =? _) = true |- _ => apply N.eqb_eq in E; subst
  | E : packet_eqb _ _ = true |- _ => apply packet_eqb_eq in E; subst
  | E : message_eqb _ _ = true |- _ => apply message_eqb_eq in E; subst
  | E : option_eqb N.eqb _ _ = true |- _ => apply (option_eqb_eq N.eqb (fun x y => proj1 (N.eqb_eq x y))) in E
  | E : negb (_ =? _) = true |- _ => apply negb_true_iff, N.eqb_neq in E
  | E : negb (_ =? _) = false |- _ => apply negb_false_iff, N.eqb_eq in E; subst
  | E : negb ?a = false |- _ => destruct a; [clear E|discriminate E]
  end.

Lemma reach_step s e s' : reach s -> step s e = Some s' -> reach s'.
Proof. intros (es & Hr) Hs. exists (es ++ [e]). rewrite run_app, Hr. cbn [run]. rewrite Hs. reflexivity. Qed.

Lemma reach_init : reach init.
Proof. exists []. reflexivity. Qed.

Lemma scan_run {X} (f : X -> event -> option X) (R : X -> st -> Prop) :
  (forall x s e s', reach s -> R x s -> step s e = Some s' -> exists x', f x e = Some x' /\ R x' s') ->
  forall x, R x init -> forall es s, run step init es = Some s -> exists x', run f x es = Some x' /\ R x' s.
Proof. intros Hs x Hx es s. exact (sim_run step reach R reach_step f Hs es x init s reach_init Hx). Qed.

Lemma scan_fold {X} (f : X -> event -> X) (R : X -> st -> Prop) :
  (forall x s e s', reach s -> R x s -> step s e = Some s' -> R (f x e) s') ->
  forall x, R x init -> forall es s, run step init es = Some s -> R (fold_left f es x) s.
Proof. intros Hs x Hx es s. exact (sim_fold step reach R reach_step f Hs es x init s reach_init Hx). Qed.

Definition ghost_step (s : st) (e : event) (g' : ghost) (ss' : session) : Prop :=
  g_rx g' = match e with ERx p => p :: g_rx (g s) | _ => g_rx (g s) end /\
  g_tx g' = match e with ETx p a r => (p, a, r) :: g_tx (g s) | _ => g_tx (g s) end /\
  g_saved g' = match e with ESave d p Ok => (d, p) :: g_saved (g s) | _ => g_saved (g s) end /\
  CScan (g_cbfail g') (g_dead g') = close_step (CScan (g_cbfail (g s)) (g_dead (g s))) e /\
  g_hs g' = match e with
            | ESave Incoming p Ok => match get_id p with Some id => hs_open (g_hs (g s)) id | None => g_hs (g s) end
            | EDelete Incoming id Ok => amap_del (g_hs (g s)) id
            | EReset _ Ok => []
            | ECb _ Ok => match k_ppc (k s) with PRelCb _ _ id => hs_incr (g_hs (g s)) id | _ => g_hs (g s) end
            | _ => g_hs (g s)
            end /\
  s_in ss' = match e with
             | ESave Incoming p Ok => store_save (s_in (sess s)) p
             | EDelete Incoming id Ok => store_delete (s_in (sess s)) id
             | EReset _ Ok => []
             | _ => s_in (sess s)
             end /\
  s_out ss' = ledger_step (s_out (sess s)) e.

Lemma step_ghost s e s' : step s e = Some s' -> ghost_step s e (g s') (sess s').
Proof.
  intros H.
  destruct e; step_cases H; eqb_subst.
  all: try match goal with r : res |- _ => destruct r end.
  all: rewrite ?g_proc_rx, ?sess_proc_rx, ?g_die_proc, ?sess_die_proc, ?g_die_ping, ?sess_die_ping,
         ?g_die_cu_next, ?sess_die_cu_next, ?g_api_cu_next, ?sess_api_cu_next, ?g_die_done, ?sess_die_done,
         ?g_after_pub_cb, ?sess_after_pub_cb, ?g_log_tx, ?sess_log_tx; open_cu.
  all: norm; dgoal; norm.
  all: unfold ghost_step; fields; cbn [close_step cs_failed cs_over ledger_step].
  all: repeat match goal with E : k_ppc _ = _ |- _ => rewrite E | E : get_id _ = _ |- _ => rewrite E end.
  all: try solve [repeat split; reflexivity].
  (* a retransmission: DUP is set on the stored PUBLISH, nothing else changes *)
  all: match goal with E : _ = set_dup ?q |- _ =>
         destruct q; cbn [set_dup] in E; try discriminate E; try (injection E; intros; subst); repeat split; reflexivity end.
Qed.

(* ---- the table of futures after a step.  Only the operations below write it, and a step performs at most
   four of them, on the table it finds: which ones is a function of the event and the control points. *)

Inductive tab_op :=
| OFresh (prot : bool)            (* New: an empty future store over the old futures, no connect future *)
| ONew (c id : N) (kd : fkind)
| OComplete (c : N) (v : value)
| OCancel (c : N) (v : value)
| OPut (id c : N)
| ODel (id : N)
| OClear
| OConnfut (c : N).

Definition tab_do (x : st) (o : tab_op) : st :=
  match o with
  | OFresh prot => set_t x (FTab prot [] (t_futs (t x)) None)
  | ONew c id kd => fut_new x c id kd
  | OComplete c v => fut_complete x c v
  | OCancel c v => fut_cancel x c v
  | OPut id c => store_put_f x id c
  | ODel id => store_del_f x id
  | OClear => store_clear_f x
  | OConnfut c => set_t x (t_set_connfut (t x) (Some c))
  end.

Definition on_connfut (s : st) (o : N -> tab_op) : list tab_op :=
  match t_connfut (t s) with Some c => [o c] | None => [] end.

Definition cu_ops (cu : cupc) (s : st) : list tab_op :=
  match cu with
  | CU1 => if cst_n (k_cs (k s)) <? 2 then on_connfut s (fun c => OCancel c VNil) else []
  | CU5 => [OClear]
  | _ => []
  end.

Definition tab_ops (s : st) (e : event) : list tab_op :=
  match e with
  | ENew prot => [OFresh prot]
  | EDial Ok =>
    match k_api (k s) with
    | Some (c, AConnDial) => if cf_clean (k_cfg (k s)) then [] else [ONew c 0 KConnect; OConnfut c]
    | _ => []
    end
  | EReset WApi Ok =>
    match k_api (k s) with
    | Some (c, AConnReset) => [ONew c 0 KConnect; OConnfut c]
    | _ => []
    end
  | EHid HApi =>
    match k_api (k s) with
    | Some (c, AReqPut r id) =>
      ONew c id (req_kind r) :: OPut id c ::
      if negb (is_connected (k_cs (k s))) then [ODel id; OCancel c VNil] else []
    | Some (c, AReqFin) => [OComplete c VNil; ODel 0]
    | Some (_, ACu cu _ _ _ _) => cu_ops cu s
    | _ => []
    end
  | EHid HDie => match k_dpc (k s) with DCu cu _ _ => cu_ops cu s | _ => [] end
  | EHid HProc =>
    match k_ppc (k s) with
    | PConnDone sp _ => on_connfut s (fun c => OComplete c (VConnack sp 0))
    | PConnackCancel sp rc => on_connfut s (fun c => OCancel c (VConnack sp rc))
    | PAckFut p =>
      match get_id p with
      | Some id =>
        match store_get_f s id with
        | Some c =>
          match p with
          | Suback _ codes =>
            [ODel id; if cf_validate (k_cfg (k s)) && has_failure codes then OCancel c VNil else OComplete c (VSuback codes)]
          | _ => [OComplete c VNil; ODel id]
          end
        | None => []
        end
      | None => []
      end
    | _ => []
    end
  | _ => []
  end.

Lemma t_log_tx s p a r : t (log_tx s p a r) = t s. Proof. destruct r; reflexivity. Qed.
Lemma t_die_done s a : t (die_done s a) = t s. Proof. destruct a; reflexivity. Qed.
Lemma t_die_proc s cc a : t (die_proc s cc a) = t s. Proof. unfold die_proc; destruct (k_dpc (k s)); reflexivity. Qed.
Lemma t_die_ping s cc : t (die_ping s cc) = t s. Proof. unfold die_ping; destruct (k_dpc (k s)); reflexivity. Qed.
Lemma t_die_after_cu s a : t (die_after_cu s a) = t s.
Proof. unfold die_after_cu; destruct (cf_callback _); [reflexivity|apply t_die_done]. Qed.
Lemma t_die_cu_next s cu cc a : t (die_cu_next s cu cc a) = t s.
Proof. unfold die_cu_next; destruct (cu_after _ _ _); [reflexivity|apply t_die_after_cu]. Qed.
Lemma t_api_cu_next s c cu cc err pc endw : t (api_cu_next s c cu cc err pc endw) = t s.
Proof. unfold api_cu_next; destruct (cu_after _ _ _); [|destruct endw]; reflexivity. Qed.
Lemma t_after_pub_cb s p : t (after_pub_cb s p) = t s.
Proof. unfold after_pub_cb. destruct p; try reflexivity. destruct (_ =? 1); [|destruct (_ =? 2)]; reflexivity. Qed.
Lemma t_proc_rx s first p : t (proc_rx s first p) = t s.
Proof.
  unfold proc_rx. destruct first, p; rewrite ?t_die_proc; try reflexivity.
  destruct (_ && _); rewrite ?t_after_pub_cb; reflexivity.
Qed.

(* Complete and Cancel read nothing but the table *)
Lemma t_fut_resolve_k stt s kk c v : t (fut_resolve stt (set_k s kk) c v) = t (fut_resolve stt s c v).
Proof. unfold fut_resolve, fut_get. cbn [t set_k]. destruct (amap_get _ c); reflexivity. Qed.

Lemma cu_hidden_tab cu s s0 : cu_hidden cu s = Some s0 -> t s0 = t (fold_left tab_do (cu_ops cu s) s).
Proof.
  destruct cu; cbn [cu_hidden cu_ops]; intros H; try discriminate H; injection H as <-; [|reflexivity..].
  unfold on_connfut. destruct (_ <? 2); [destruct (t_connfut (t s))|]; reflexivity.
Qed.

Lemma step_tab s e s' : step s e = Some s' -> t s' = t (fold_left tab_do (tab_ops s e) s).
Proof.
  intros H.
  destruct e; step_cases H.
  all: fields; rewrite ?t_proc_rx, ?t_die_proc, ?t_die_ping, ?t_die_cu_next, ?t_api_cu_next, ?t_die_done, ?t_after_pub_cb, ?t_log_tx.
  all: try match goal with E : cu_hidden _ _ = Some _ |- _ => rewrite (cu_hidden_tab _ _ _ E) end.
  all: unfold tab_ops, on_connfut.
  all: repeat match goal with E : ?x = _ |- context [match ?x with _ => _ end] => rewrite E end.
  all: try reflexivity.
  (* the request's second look at the state word is at the same word *)
  all: try match goal with E : negb (is_connected _) = _ |- _ => autorewrite with proj tab in E; rewrite E; reflexivity end.
  (* the compare-and-swap that ends processConnack leaves the table alone *)
  all: try match goal with |- context [cst_n ?x =? 2] => destruct (cst_n x =? 2); fields end.
  all: dgoal; first [reflexivity | apply t_fut_resolve_k].
Qed.

(* the steps that Complete a future *)
Lemma complete_in_ops s e c v : In (OComplete c v) (tab_ops s e) ->
  (e = EHid HProc /\ exists p id, k_ppc (k s) = PAckFut p /\ get_id p = Some id /\ store_get_f s id = Some c) \/
  (e = EHid HProc /\ exists sp d, k_ppc (k s) = PConnDone sp d /\ t_connfut (t s) = Some c) \/
  (e = EHid HApi /\ k_api (k s) = Some (c, AReqFin)).
Proof.
  unfold tab_ops, cu_ops, on_connfut. intros H.
  repeat (cbn [In] in H; match type of H with context [match ?x with _ => _ end] => destruct x eqn:? end).
  all: cbn [In] in H; repeat match type of H with _ \/ _ => destruct H as [H|H] end.
  all: try (discriminate H || contradiction H); injection H as <- <-; subst.
  all: first [ left; split; [reflexivity|]; do 2 eexists; (split; [reflexivity|split; eassumption])
             | right; left; split; [reflexivity|]; do 2 eexists; split; first [eassumption|reflexivity]
             | right; right; split; first [assumption|reflexivity] ].
Qed.

(* die(err, close) called by the processor: it runs the die body itself (b), or finds it run and goes on *)
Definition die_pc (b : bool) (after : ppc) : ppc := if b then PInDie else after.

Definition ppc_after_pub (p : packet) : ppc :=
  match p with
  | Publish _ m id => if m_qos m =? 1 then PPubAck id else if m_qos m =? 2 then PPubSave p else PRecv false
  | _ => PRecv false
  end.

Global Arguments ppc_after_pub : simpl never.

(* after Receive returned p (not the first packet); cb: the callback is due right away *)
Definition ppc_rx (cb : bool) (p : packet) : ppc :=
  match p with
  | Suback _ _ | Unsuback _ | Puback _ | Pubcomp _ => PAckDel p
  | Publish _ _ _ => if cb then PPubCb p else ppc_after_pub p
  | Pubrec id => PRecSave id
  | Pubrel id => PRelLookup id
  | _ => PRecv false
  end.

Definition resend_pc (sp : bool) (l : list packet) : ppc := match l with [] => PConnDone sp None | _ => PResend sp l end.

Definition cont_pc (r : res) (next : ppc) (b : bool) : ppc := match r with Ok => next | Fail => die_pc b PExited end.

(* the hidden steps: they start and end at control points no scanner expects anything of *)
Definition hid_next (p p' : ppc) : Prop :=
  match p with
  | PErrChk => exists b, p' = die_pc b PExited
  | PConnack sp rc => p' = PRecv false \/ (rc <> 0 /\ exists b, p' = die_pc b (PConnackCancel sp rc)) \/ (rc = 0 /\ p' = PAll sp)
  | PConnDone _ _ => exists b, p' = die_pc b (PRecv false)
  | PConnackCancel _ _ => p' = PRecv false
  | PAckFut _ => p' = PRecv false \/ exists b, p' = die_pc b PExited
  | _ => False
  end.

(* control points at which the processor is between two packets, or gone *)
Definition at_rest (p : ppc) : Prop :=
  match p with
  | PRecv false | PInDie | PExited | PErrChk | PConnack _ _ | PConnackCancel _ _ | PAll _ | PConnDone _ _ | PAckFut _ => True
  | _ => False
  end.

Lemma hid_rest p p' : hid_next p p' -> at_rest p /\ at_rest p'.
Proof.
  destruct p; cbn; try contradiction; intros H; (split; [exact I|]).
  all: repeat match goal with
       | H : _ \/ _ |- _ => destruct H as [H|H]
       | H : _ /\ _ |- _ => destruct H as [_ H]
       | H : exists b : bool, _ |- _ => destruct H as [[] H]
       end; subst; exact I.
Qed.

Inductive pstep : ppc -> event -> ppc -> Prop :=
| PS_connack sp rc : pstep (PRecv true) (ERx (Connack sp rc)) (PConnack sp rc)
| PS_first q b : match q with Connack _ _ => False | _ => True end -> pstep (PRecv true) (ERx q) (die_pc b PExited)
| PS_rx cb q : pstep (PRecv false) (ERx q) (ppc_rx cb q)
| PS_rxerr first : pstep (PRecv first) ERxErr PErrChk
| PS_resend sp q rest p r : p = set_dup q -> tx_proc p = true ->
    pstep (PResend sp (q :: rest)) (ETx p true r) (match r with Ok => resend_pc sp rest | Fail => PConnDone sp (Some false) end)
| PS_puback id r b : pstep (PPubAck id) (ETx (Puback id) true r) (cont_pc r (PRecv false) b)
| PS_pubrec id r b : pstep (PPubRec id) (ETx (Pubrec id) true r) (cont_pc r (PRecv false) b)
| PS_pubrel id r b : pstep (PRecSend id) (ETx (Pubrel id) true r) (cont_pc r (PRecv false) b)
| PS_pubcomp pid id r b : pstep (PRelComp pid id) (ETx (Pubcomp pid) true r) (cont_pc r (PRelDel id) b)
| PS_save_rel id r b : pstep (PRecSave id) (ESave Outgoing (Pubrel id) r) (cont_pc r (PRecSend id) b)
| PS_save_in q id r b : match r with Ok => get_id q = Some id | Fail => True end -> pstep (PPubSave q) (ESave Incoming q r) (cont_pc r (PPubRec id) b)
| PS_lookup id x (cb b : bool) :
    pstep (PRelLookup id) (ELookup Incoming id x)
          (match x with
           | None => die_pc b PExited
           | Some (Some (Publish _ m pid)) => if cb then PRelCb m pid id else PRelComp pid id
           | Some _ => PRecv false
           end)
| PS_del_out q id r b : get_id q = Some id -> pstep (PAckDel q) (EDelete Outgoing id r) (cont_pc r (PAckFut q) b)
| PS_del_in id r b : pstep (PRelDel id) (EDelete Incoming id r) (cont_pc r (PRecv false) b)
| PS_all sp x : pstep (PAll sp) (EAll Outgoing x) (match x with None => PConnDone sp (Some true) | Some l => resend_pc sp l end)
| PS_cb_pub d m id r b : pstep (PPubCb (Publish d m id)) (ECb m r) (cont_pc r (ppc_after_pub (Publish d m id)) b)
| PS_cb_rel m pid id r b : pstep (PRelCb m pid id) (ECb m r) (cont_pc r (PRelComp pid id) b)
| PS_hid p p' : hid_next p p' -> pstep p (EHid HProc) p'.

(* what an event of another thread can do to the processor's control point: nothing; or the die body, run on
   the processor's behalf, is done and sends it on; or Connect has started it *)
Definition other_next (p p' : ppc) : Prop :=
  p' = p \/ (p = PInDie /\ ret_point p') \/ (p = PNone /\ p' = PRecv true).

Lemma done_rest p : ret_point p -> at_rest p.
Proof. destruct p; try destruct first; cbn; intros H; first [exact I|destruct H]. Qed.

Inductive pview : ppc -> event -> ppc -> Prop :=
| PV_new b p : pview p (ENew b) PNone
| PV_proc p e p' : pstep p e p' -> pview p e p'
| PV_other p e p' : proc_event e = false -> (forall b, e <> ENew b) -> (forall q a r, e = ETx q a r -> tx_proc q = false) ->
    other_next p p' -> pview p e p'.

Lemma ppc_die_proc s cc a :
  k_ppc (k (die_proc s cc a)) = die_pc (match k_dpc (k s) with DNone => true | _ => false end) a.
Proof. rewrite k_die_proc. destruct (k_dpc (k s)); reflexivity. Qed.

Lemma ppc_after_pub_cb s p : k_ppc (k (after_pub_cb s p)) = ppc_after_pub p.
Proof. rewrite k_after_pub_cb. reflexivity. Qed.

Lemma proc_rx_pstep s first p : pstep (PRecv first) (ERx p) (k_ppc (k (proc_rx s first p))).
Proof.
  rewrite k_proc_rx. destruct first.
  - destruct p; try (rewrite ppc_die_proc; apply PS_first; exact I). apply PS_connack.
  - rewrite ppc_after_pub_cb. cbn [k_ppc k_set_ppc]. destruct p; try apply (PS_rx false).
    exact (PS_rx _ (Publish dup m id)).
Qed.

Lemma ppc_api_cu_next s c cu cc err pc endw : k_ppc (k (api_cu_next s c cu cc err pc endw)) = k_ppc (k s).
Proof. rewrite k_api_cu_next. destruct (cu_after _ _ _); [|destruct endw]; reflexivity. Qed.
Lemma ppc_die_ping s cc : k_ppc (k (die_ping s cc)) = k_ppc (k s).
Proof. rewrite k_die_ping. reflexivity. Qed.
Lemma ppc_log_tx s p a r : k_ppc (k (log_tx s p a r)) = k_ppc (k s).
Proof. rewrite k_log_tx. reflexivity. Qed.

Lemma after_done s p : InvCtl s -> InvAfter s -> after_of (k_dpc (k s)) = Some p -> k_ppc (k s) = PInDie /\ ret_point p.
Proof.
  intros (_ & _ & C3 & _) HA Ha. split; [exact (C3 (after_owned _ _ Ha))|].
  unfold InvAfter in HA. destruct (k_dpc (k s)) as [|? ? [a|]|[a|]|]; try discriminate Ha; injection Ha as <-; exact HA.
Qed.

Lemma die_done_other s s0 a : InvCtl s -> InvAfter s ->
  (k_dpc (k s) = DCb a \/ exists cu cc, k_dpc (k s) = DCu cu cc a) -> k_ppc (k s0) = k_ppc (k s) ->
  other_next (k_ppc (k s)) (k_ppc (k (die_done s0 a))).
Proof.
  intros HC HO E F. rewrite k_die_done. cbn. destruct a as [p|]; [|left; exact F].
  right; left. apply (after_done s p HC HO). destruct E as [->|(cu & cc & ->)]; reflexivity.
Qed.

Lemma die_cu_next_other s s0 cu cu0 cc a : InvCtl s -> InvAfter s ->
  k_dpc (k s) = DCu cu0 cc a -> k_ppc (k s0) = k_ppc (k s) ->
  other_next (k_ppc (k s)) (k_ppc (k (die_cu_next s0 cu cc a))).
Proof.
  intros HC HO E F. rewrite k_die_cu_next. destruct (cu_after _ _ _); [left; exact F|].
  rewrite k_die_after_cu. destruct (cf_callback _); [left; exact F|]. apply die_done_other; eauto.
Qed.

Lemma cu_hidden_ppc cu s s0 : cu_hidden cu s = Some s0 -> k_ppc (k s0) = k_ppc (k s).
Proof. intros H. rewrite (cu_hidden_k _ _ _ H). reflexivity. Qed.

Lemma die_pc_after a : a = die_pc false a.
Proof. reflexivity. Qed.

Lemma pstep_eq p e p1 p2 : pstep p e p1 -> p1 = p2 -> pstep p e p2.
Proof. intros H <-. exact H. Qed.

Lemma step_proc s e s' : InvCtl s -> InvAfter s -> step s e = Some s' -> pview (k_ppc (k s)) e (k_ppc (k s')).
Proof.
  intros HC HO H.
  destruct e; step_cases H; eqb_subst.
  all: try match goal with r : res |- _ => destruct r end.
  all: rewrite ?ppc_api_cu_next, ?ppc_die_ping, ?ppc_after_pub_cb, ?ppc_die_proc; norm; rewrite ?ppc_log_tx.
  (* the processor: by the constructor for its control point *)
  all: try (apply PV_proc; first [apply proc_rx_pstep | eapply pstep_eq; [econstructor|cbn; reflexivity]; cbn; eauto using die_pc_after; fail]).
  (* the other threads *)
  all: try (apply PV_other; [reflexivity|discriminate|intros ? ? ? X; first [discriminate X|injection X as <- _ _; reflexivity]|]).
  all: try (left; first [reflexivity | assumption | eapply cu_hidden_ppc; eassumption]).
  (* the die body *)
  all: try (first [eapply die_cu_next_other | eapply die_done_other]; eauto using cu_hidden_ppc; reflexivity).
  - apply PV_new.
  - right; right. split; reflexivity.
  - exact (PV_proc _ _ _ (PS_lookup _ (Some (Some (Publish _ _ _))) true true)).
  - exact (PV_proc _ _ _ (PS_lookup _ (Some (Some (Publish _ _ _))) false true)).
  (* still open: constructor arguments the matched step does not determine (the flag of cont_pc when the
     result is Ok, of die_pc, an identifier): any value does *)
  Unshelve. all: first [exact true | exact 0].
Qed.

Lemma reach_proc s e s' : reach s -> step s e = Some s' -> pview (k_ppc (k s)) e (k_ppc (k s')).
Proof. intros (es & Hr) H. exact (step_proc s e s' (InvCtl_reach _ _ Hr) (InvAfter_reach _ _ Hr) H). Qed.

Lemma proc_move s e s' : reach s -> proc_event e = true -> step s e = Some s' -> pstep (k_ppc (k s)) e (k_ppc (k s')).
Proof.
  intros Hr He H. destruct (reach_proc s e s' Hr H) as [b p|p e p' M|p e p' Hn]; [discriminate He|exact M|].
  rewrite Hn in He. discriminate He.
Qed.

(* the processor's moves from the control point it is at: proc_move, inverted *)
Ltac moves Hr Hpc Hproc H :=
  let M := fresh "M" in
  pose proof (proc_move _ _ _ (ex_intro _ _ Hr) Hproc H) as M; rewrite Hpc in M; revert M;
  match type of H with _ = Some ?s' => generalize (k_ppc (k s')) end;
  intros ? M; inversion M; subst;
  try match goal with X : hid_next _ _ |- _ => destruct X end.

Lemma proc_obs_event e : proc_event e = false -> proc_obs e = false.
Proof. destruct e as [| | | | | |[]| | |[] []| | | | | | | |[]]; cbn; congruence. Qed.
