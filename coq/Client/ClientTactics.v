(* ClientTactics.v — what the proofs about one step of the CL monitor share: the components of the state
   after each helper of Client.v, the case analysis of `step`, and induction along accepted traces. *)
From Coq Require Import List NArith Bool Lia.
From GM Require Import Base.Lts Codec.Packet Session.Ids Session.Store Client.Future Client.Client Client.AMap.
Import ListNotations.
Open Scope N_scope.

(* what Complete, Cancel and the future store's Put and Clear leave alone.  These helpers do not reduce by
   computation: their projections are read off this. *)
Definition tab_frame (s s' : st) : Prop :=
  sess s' = sess s /\ k s' = k s /\ g s' = g s /\ t_protected (t s') = t_protected (t s) /\
  t_connfut (t s') = t_connfut (t s) /\ akeys (t_futs (t s')) = akeys (t_futs (t s)).

Lemma tab_frame_refl s : tab_frame s s.
Proof. repeat split. Qed.

Lemma tab_frame_trans s1 s2 s3 : tab_frame s1 s2 -> tab_frame s2 s3 -> tab_frame s1 s3.
Proof. intros (A1 & A2 & A3 & A4 & A5 & A6) (B1 & B2 & B3 & B4 & B5 & B6). repeat split; congruence. Qed.

Lemma tab_frame_store s s' x : tab_frame s s' -> tab_frame s (set_t s' (t_set_store (t s') x)).
Proof. intros H. exact H. Qed.

Lemma fut_resolve_frame stt s c v : tab_frame s (fut_resolve stt s c v).
Proof.
  unfold fut_resolve, fut_get. destruct (amap_get (t_futs (t s)) c) eqn:E; [|apply tab_frame_refl].
  repeat split. cbn [t t_futs set_t t_set_futs]. rewrite akeys_put, E. reflexivity.
Qed.

Lemma t_store_fut_resolve stt s c v : t_store (t (fut_resolve stt s c v)) = t_store (t s).
Proof. unfold fut_resolve. destruct (fut_get s c); reflexivity. Qed.

Lemma fold_cancel_frame l : forall s, tab_frame s (fold_left (fun acc (ic : N * N) => fut_cancel acc (snd ic) VNil) l s).
Proof.
  induction l as [|x l IH]; intros s; cbn [fold_left]; [apply tab_frame_refl|].
  exact (tab_frame_trans _ _ _ (fut_resolve_frame _ _ _ _) (IH _)).
Qed.

Lemma store_clear_frame s : tab_frame s (store_clear_f s).
Proof.
  unfold store_clear_f. destruct (t_protected (t s)); [apply tab_frame_refl|].
  apply tab_frame_store, fold_cancel_frame.
Qed.

Lemma store_put_frame s id c : tab_frame s (store_put_f s id c).
Proof.
  unfold store_put_f. apply tab_frame_store.
  destruct (amap_get (t_store (t s)) id) as [c'|]; [destruct (c' =? c)|];
    first [apply tab_frame_refl|apply fut_resolve_frame].
Qed.

Lemma k_fut_resolve stt s c v : k (fut_resolve stt s c v) = k s. Proof. apply fut_resolve_frame. Qed.
Lemma g_fut_resolve stt s c v : g (fut_resolve stt s c v) = g s. Proof. apply fut_resolve_frame. Qed.
Lemma sess_fut_resolve stt s c v : sess (fut_resolve stt s c v) = sess s. Proof. apply fut_resolve_frame. Qed.
Lemma k_store_clear_f s : k (store_clear_f s) = k s. Proof. apply store_clear_frame. Qed.
Lemma g_store_clear_f s : g (store_clear_f s) = g s. Proof. apply store_clear_frame. Qed.
Lemma sess_store_clear_f s : sess (store_clear_f s) = sess s. Proof. apply store_clear_frame. Qed.
Lemma k_store_put_f s id c : k (store_put_f s id c) = k s. Proof. apply store_put_frame. Qed.
Lemma g_store_put_f s id c : g (store_put_f s id c) = g s. Proof. apply store_put_frame. Qed.
Lemma sess_store_put_f s id c : sess (store_put_f s id c) = sess s. Proof. apply store_put_frame. Qed.
Lemma k_fut_complete s c v : k (fut_complete s c v) = k s. Proof. apply k_fut_resolve. Qed.
Lemma g_fut_complete s c v : g (fut_complete s c v) = g s. Proof. apply g_fut_resolve. Qed.
Lemma sess_fut_complete s c v : sess (fut_complete s c v) = sess s. Proof. apply sess_fut_resolve. Qed.
Lemma k_fut_cancel s c v : k (fut_cancel s c v) = k s. Proof. apply k_fut_resolve. Qed.
Lemma g_fut_cancel s c v : g (fut_cancel s c v) = g s. Proof. apply g_fut_resolve. Qed.
Lemma sess_fut_cancel s c v : sess (fut_cancel s c v) = sess s. Proof. apply sess_fut_resolve. Qed.

Global Hint Rewrite k_fut_resolve g_fut_resolve sess_fut_resolve k_store_clear_f g_store_clear_f sess_store_clear_f
  k_store_put_f g_store_put_f sess_store_put_f
  k_fut_complete g_fut_complete sess_fut_complete k_fut_cancel g_fut_cancel sess_fut_cancel : proj.

Global Arguments fut_resolve : simpl never.
Global Arguments fut_complete : simpl never.
Global Arguments fut_cancel : simpl never.
Global Arguments store_clear_f : simpl never.
Global Arguments store_put_f : simpl never.

(* ---- the control helpers, component by component.  Each right-hand side is the old component
   under the setters of Client.v, so that a field of the new state reduces (cbn) to an
   expression over the fields of the old one, with a `match` only where the helper branches. *)

Lemma sess_log_tx s p a r : sess (log_tx s p a r) = sess s. Proof. destruct r; reflexivity. Qed.
Lemma k_log_tx s p a r : k (log_tx s p a r) = k s. Proof. destruct r; reflexivity. Qed.
Lemma g_log_tx s p a r :
  g (log_tx s p a r) =
  g_set_dead (g_set_tx (g s) ((p, a, r) :: g_tx (g s))) (match r with Ok => g_dead (g s) | Fail => true end).
Proof. destruct r; reflexivity. Qed.

Lemma sess_fut_new s c id kd : sess (fut_new s c id kd) = sess s. Proof. reflexivity. Qed.
Lemma k_fut_new s c id kd : k (fut_new s c id kd) = k s. Proof. reflexivity. Qed.
Lemma g_fut_new s c id kd : g (fut_new s c id kd) = g s. Proof. reflexivity. Qed.
Lemma sess_store_del_f s id : sess (store_del_f s id) = sess s. Proof. reflexivity. Qed.
Lemma k_store_del_f s id : k (store_del_f s id) = k s. Proof. reflexivity. Qed.
Lemma g_store_del_f s id : g (store_del_f s id) = g s. Proof. reflexivity. Qed.
Lemma t_protected_fut_new s c id kd : t_protected (t (fut_new s c id kd)) = t_protected (t s). Proof. reflexivity. Qed.
Lemma t_store_fut_new s c id kd : t_store (t (fut_new s c id kd)) = t_store (t s). Proof. reflexivity. Qed.
Lemma t_connfut_fut_new s c id kd : t_connfut (t (fut_new s c id kd)) = t_connfut (t s). Proof. reflexivity. Qed.
Lemma t_futs_fut_new s c id kd :
  t_futs (t (fut_new s c id kd)) =
  amap_put (t_futs (t s)) c (CFut future_new id kd (length (g_rx (g s))) (length (g_tx (g s)))).
Proof. reflexivity. Qed.
Lemma t_protected_store_del_f s id : t_protected (t (store_del_f s id)) = t_protected (t s). Proof. reflexivity. Qed.
Lemma t_store_store_del_f s id : t_store (t (store_del_f s id)) = amap_del (t_store (t s)) id. Proof. reflexivity. Qed.
Lemma t_connfut_store_del_f s id : t_connfut (t (store_del_f s id)) = t_connfut (t s). Proof. reflexivity. Qed.
Lemma t_futs_store_del_f s id : t_futs (t (store_del_f s id)) = t_futs (t s). Proof. reflexivity. Qed.
Global Hint Rewrite sess_fut_new k_fut_new g_fut_new sess_store_del_f k_store_del_f g_store_del_f
  t_protected_fut_new t_store_fut_new t_connfut_fut_new t_futs_fut_new
  t_protected_store_del_f t_store_store_del_f t_connfut_store_del_f t_futs_store_del_f : tab.

Lemma sess_die_done s a : sess (die_done s a) = sess s. Proof. destruct a; reflexivity. Qed.
Lemma g_die_done s a : g (die_done s a) = g s. Proof. destruct a; reflexivity. Qed.
Lemma k_die_done s a :
  k (die_done s a) =
  k_set_kpc (k_set_ppc (k_set_dpc (k s) DDone)
    (match a with DAProc p => p | DAPing => k_ppc (k s) end))
    (match a with DAProc _ => k_kpc (k s) | DAPing => KExited end).
Proof. destruct a; reflexivity. Qed.

Lemma sess_die_proc s cc a : sess (die_proc s cc a) = sess s. Proof. unfold die_proc; destruct (k_dpc (k s)); reflexivity. Qed.
Lemma g_die_proc s cc a : g (die_proc s cc a) = g s. Proof. unfold die_proc; destruct (k_dpc (k s)); reflexivity. Qed.
Lemma k_die_proc s cc a :
  k (die_proc s cc a) =
  k_set_ppc (k_set_dpc (k s) (match k_dpc (k s) with DNone => DCu CU1 cc (DAProc a) | d => d end))
    (match k_dpc (k s) with DNone => PInDie | _ => a end).
Proof. destruct s as [? [? ? ? ? ? ? [] ? ?] ? ?]; reflexivity. Qed.

Lemma sess_die_ping s cc : sess (die_ping s cc) = sess s. Proof. unfold die_ping; destruct (k_dpc (k s)); reflexivity. Qed.
Lemma g_die_ping s cc : g (die_ping s cc) = g s. Proof. unfold die_ping; destruct (k_dpc (k s)); reflexivity. Qed.
Lemma k_die_ping s cc :
  k (die_ping s cc) =
  k_set_kpc (k_set_dpc (k s) (match k_dpc (k s) with DNone => DCu CU1 cc DAPing | d => d end))
    (match k_dpc (k s) with DNone => KInDie | _ => KExited end).
Proof. destruct s as [? [? ? ? ? ? ? [] ? ?] ? ?]; reflexivity. Qed.

Lemma sess_die_after_cu s a : sess (die_after_cu s a) = sess s.
Proof. unfold die_after_cu; destruct (cf_callback _); [reflexivity|apply sess_die_done]. Qed.
Lemma g_die_after_cu s a : g (die_after_cu s a) = g s.
Proof. unfold die_after_cu; destruct (cf_callback _); [reflexivity|apply g_die_done]. Qed.
Lemma k_die_after_cu s a :
  k (die_after_cu s a) =
  if cf_callback (k_cfg (k s)) then k_set_dpc (k s) (DCb a) else k (die_done s a).
Proof. unfold die_after_cu; destruct (cf_callback _); reflexivity. Qed.

Lemma sess_die_cu_next s cu cc a : sess (die_cu_next s cu cc a) = sess s.
Proof. unfold die_cu_next; destruct (cu_after _ _ _); [reflexivity|apply sess_die_after_cu]. Qed.
Lemma g_die_cu_next s cu cc a : g (die_cu_next s cu cc a) = g s.
Proof. unfold die_cu_next; destruct (cu_after _ _ _); [reflexivity|apply g_die_after_cu]. Qed.
Lemma k_die_cu_next s cu cc a :
  k (die_cu_next s cu cc a) =
  match cu_after cu cc (cf_clean (k_cfg (k s))) with
  | Some cu' => k_set_dpc (k s) (DCu cu' cc a)
  | None => k (die_after_cu s a)
  end.
Proof. unfold die_cu_next; destruct (cu_after _ _ _); reflexivity. Qed.

Lemma sess_api_cu_next s c cu cc err pc endw : sess (api_cu_next s c cu cc err pc endw) = sess s.
Proof. unfold api_cu_next; destruct (cu_after _ _ _); [|destruct endw]; reflexivity. Qed.
Lemma g_api_cu_next s c cu cc err pc endw : g (api_cu_next s c cu cc err pc endw) = g s.
Proof. unfold api_cu_next; destruct (cu_after _ _ _); [|destruct endw]; reflexivity. Qed.
Lemma k_api_cu_next s c cu cc err pc endw :
  k (api_cu_next s c cu cc err pc endw) =
  match cu_after cu cc (cf_clean (k_cfg (k s))) with
  | Some cu' => k_set_api (k s) (Some (c, ACu cu' cc err pc endw))
  | None => if endw then k_set_api (k s) (Some (c, AEndWait err))
            else k (finish_call s c (if err then RetErr else RetNil))
  end.
Proof. unfold api_cu_next; destruct (cu_after _ _ _); [|destruct endw]; reflexivity. Qed.

Lemma sess_after_pub_cb s p : sess (after_pub_cb s p) = sess s.
Proof. destruct p; try reflexivity. cbn. destruct (_ =? 1); [|destruct (_ =? 2)]; reflexivity. Qed.
Lemma g_after_pub_cb s p : g (after_pub_cb s p) = g s.
Proof. destruct p; try reflexivity. cbn. destruct (_ =? 1); [|destruct (_ =? 2)]; reflexivity. Qed.
Lemma k_after_pub_cb s p :
  k (after_pub_cb s p) =
  k_set_ppc (k s)
    match p with
    | Publish _ m id => if m_qos m =? 1 then PPubAck id else if m_qos m =? 2 then PPubSave p else PRecv false
    | _ => PRecv false
    end.
Proof. destruct p; try reflexivity. cbn. destruct (_ =? 1); [|destruct (_ =? 2)]; reflexivity. Qed.

Lemma sess_proc_rx s first p : sess (proc_rx s first p) = sess s.
Proof.
  unfold proc_rx. destruct first, p; rewrite ?sess_die_proc; try reflexivity.
  destruct (_ && _); rewrite ?sess_after_pub_cb; reflexivity.
Qed.
Lemma g_proc_rx s first p :
  g (proc_rx s first p) =
  g_set_owed (g_set_rx (g s) (p :: g_rx (g s)))
    (if first then g_owed (g s) else
     match p with
     | Publish _ m id => if m_qos m =? 1 then [Puback id] else if m_qos m =? 2 then [Pubrec id] else []
     | Pubrel id => [Pubcomp id]
     | _ => g_owed (g s)
     end).
Proof.
  unfold proc_rx. destruct first, p; rewrite ?g_die_proc; try reflexivity.
  destruct (_ && _); rewrite ?g_after_pub_cb; reflexivity.
Qed.
Lemma k_proc_rx s first p :
  k (proc_rx s first p) =
  if first then
    match p with
    | Connack sp rc => k_set_ppc (k s) (PConnack sp rc)
    | _ => k (die_proc s true PExited)
    end
  else
    k_set_ppc (k s)
      match p with
      | Suback _ _ | Unsuback _ | Puback _ | Pubcomp _ => PAckDel p
      | Publish _ m id =>
        if ((m_qos m <=? 1) || cf_early (k_cfg (k s))) && cf_callback (k_cfg (k s))
        then PPubCb p else k_ppc (k (after_pub_cb s p))
      | Pubrec id => PRecSave id
      | Pubrel id => PRelLookup id
      | _ => PRecv false
      end.
Proof.
  unfold proc_rx. destruct first, p; rewrite ?k_die_proc; try reflexivity.
  destruct (_ && _); rewrite ?k_after_pub_cb; reflexivity.
Qed.

Lemma cu_hidden_frame cu s s0 : cu_hidden cu s = Some s0 ->
  sess s0 = sess s /\ g s0 = g s /\
  k s0 = k_set_cs (k s) (match cu with CU2 => StDisconnected | _ => k_cs (k s) end).
Proof.
  destruct cu; cbn [cu_hidden]; intros H; try discriminate; injection H as <-.
  - destruct (cst_n (k_cs (k s)) <? 2); [destruct (t_connfut (t s))|]; autorewrite with proj; destruct (k s); repeat split.
  - repeat split.
  - autorewrite with proj. destruct (k s); repeat split.
Qed.
Lemma cu_hidden_sess cu s s0 : cu_hidden cu s = Some s0 -> sess s0 = sess s.
Proof. intros H. apply (cu_hidden_frame _ _ _ H). Qed.
Lemma cu_hidden_g cu s s0 : cu_hidden cu s = Some s0 -> g s0 = g s.
Proof. intros H. apply (cu_hidden_frame _ _ _ H). Qed.
Lemma cu_hidden_k cu s s0 : cu_hidden cu s = Some s0 ->
  k s0 = k_set_cs (k s) (match cu with CU2 => StDisconnected | _ => k_cs (k s) end).
Proof. intros H. apply (cu_hidden_frame _ _ _ H). Qed.

Global Arguments die_done : simpl never.
Global Arguments die_proc : simpl never.
Global Arguments die_ping : simpl never.
Global Arguments die_after_cu : simpl never.
Global Arguments die_cu_next : simpl never.
Global Arguments api_cu_next : simpl never.
Global Arguments proc_rx : simpl never.
Global Arguments after_pub_cb : simpl never.

(* destruct the head match of H until it reads Some _ = Some _ *)
Ltac dhead H :=
  lazymatch type of H with
  | Some _ = Some _ => idtac
  | None = Some _ => discriminate H
  | (match ?x with _ => _ end) = Some _ =>
    let E := fresh "E" in destruct x eqn:E; cbv beta iota zeta in H; dhead H
  | _ => idtac
  end.

Ltac unfold_step H :=
  cbv beta iota zeta delta [step step_tx acquire api_hidden proc_hidden die_hidden] in H.

(* all the ways in which step s e = Some s' can hold; leaves s' as an explicit term *)
Ltac step_cases H :=
  unfold_step H; dhead H;
  try (injection H as H; subst).

Ltac dgoal :=
  repeat match goal with |- context [match ?x with _ => _ end] => destruct x eqn:? end.

(* ---- invariance proofs.  An invariant is first restated (`change`) as a predicate over the few
   fields of the state it reads, so that the successor state occurs once per field; then the
   fields are computed in the goal only.  Rewriting all hypotheses, or unfolding the invariant
   over the successor term, is what makes these proofs slow to check. *)

(* compute the fields of a state built by the setters and the small ghost helpers; the helpers on
   futures stay folded and are rewritten by their projection lemmas (norm) *)
Ltac fields :=
  cbn [k g t sess set_k set_t set_g set_sess set_cs set_api set_ppc set_dpc set_kpc
     k_cs k_cfg k_api k_pending k_returning k_ppc k_dpc k_kpc k_started
     k_set_cs k_set_cfg k_set_api k_set_pending k_set_returning k_set_ppc k_set_dpc k_set_kpc k_set_started
     g_rx g_tx g_saved g_hs g_owed g_cbfail g_dead g_compfail g_delfail g_nextids
     g_set_rx g_set_tx g_set_saved g_set_hs g_set_owed g_set_cbfail g_set_dead g_set_compfail g_set_delfail g_set_nextids
     t_protected t_store t_futs t_connfut t_set_store t_set_futs t_set_connfut
     mark_dead set_owed finish_call drop_owed sess_reset
     s_counter s_in s_out sess_with].
Ltac norm :=
  fields;
  repeat (match goal with
          | |- context [fut_resolve _ _ _ _] => idtac | |- context [fut_complete _ _ _] => idtac
          | |- context [fut_cancel _ _ _] => idtac | |- context [store_clear_f _] => idtac
          | |- context [store_put_f _ _ _] => idtac
          | |- context [fut_new _ _ _ _] => idtac | |- context [store_del_f _ _] => idtac
          end; progress autorewrite with proj tab; fields).

Ltac open_cu :=
  try match goal with E : cu_hidden _ _ = Some _ |- _ =>
    rewrite ?(cu_hidden_k _ _ _ E), ?(cu_hidden_g _ _ _ E), ?(cu_hidden_sess _ _ _ E) end.

Lemma cu_after_none cu cc cl : cu_after cu cc cl = None -> cu = CU5.
Proof. destruct cu, cc, cl; cbn; intros H; first [reflexivity|discriminate H]. Qed.

(* unfold the control helpers in the goal and split on what they branch on; cu_after stays folded *)
Ltac open_ctl :=
  unfold proc_rx, after_pub_cb, log_tx; cbv beta zeta; fields; dgoal;
  unfold die_proc, die_ping, die_cu_next, api_cu_next, die_after_cu; open_cu; norm; dgoal;
  unfold die_done; norm; dgoal; fields; open_cu; fields; dgoal; norm;
  (* only the last cleanup stage has no successor *)
  try match goal with E : cu_after _ _ _ = None |- _ =>
    apply cu_after_none in E; first [discriminate E | subst] end.

(* the control points the inversion has fixed, where the goal still names them by field *)
Ltac know_pts :=
  repeat match goal with D : ?f (k ?s) = _ |- context [?f (k ?s)] => rewrite D end.

(* every accepted trace ends in a state satisfying an inductive invariant *)
Lemma reach_inv (Inv : st -> Prop) :
  Inv init -> (forall s e s', Inv s -> step s e = Some s' -> Inv s') ->
  forall es s, run step init es = Some s -> Inv s.
Proof. intros H0 Hs es s Hr. exact (invariant_all_traces st event step Inv init H0 Hs es s Hr). Qed.

Lemma reach_inv_rel (P Q : st -> Prop) :
  (forall es s, run step init es = Some s -> P s) ->
  Q init -> (forall s e s', P s -> Q s -> step s e = Some s' -> Q s') ->
  forall es s, run step init es = Some s -> Q s.
Proof.
  intros HP H0 Hs es. induction es as [|e es IH] using rev_ind; intros s Hr.
  - injection Hr as <-. exact H0.
  - apply run_prefix in Hr as (s1 & H1 & H2). cbn [run] in H2.
    destruct (step s1 e) as [s2|] eqn:E; [|discriminate H2]. injection H2 as <-.
    exact (Hs _ _ _ (HP _ _ H1) (IH _ H1) E).
Qed.
