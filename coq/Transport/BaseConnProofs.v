(* BaseConnProofs.v — invariants of CN over all event sequences and all carrier
   failure scripts: the theorems Props/C19.v lists (C19_whole, C19_close_flushes, C19_close_loses_nothing, C19_after_close_*, ...). *)
From Coq Require Import List NArith Bool Lia ZArith ZifyN ZifyNat ZifyBool.
From Coq.Strings Require Import Byte.
From GM Require Import Codec.Packet Stream.Stream Stream.StreamSpec Stream.StreamProofs
  Stream.EncStream Stream.EncStreamProofs Transport.BaseConn.
Import ListNotations.
Open Scope N_scope.

Lemma log_bytes_cons x l : log_bytes (x :: l) = log_bytes l ++ snd x.
Proof. unfold log_bytes. cbn [rev]. rewrite map_app, concat_app. cbn [map concat]. now rewrite app_nil_r. Qed.

(* encodings are never empty *)
Definition good_ev (ev : cev) : Prop :=
  match ev with CSend _ (Some []) _ => False | _ => True end.

Definition inv (s : cstate) : Prop :=
  let e := c_enc s in
  (e_berr e = None -> c_sent s = c_acc s /\ cn_wire s ++ e_buf e = log_bytes (c_acc s)) /\
  (exists rest, cn_wire s ++ rest = log_bytes (c_sent s)) /\
  (c_sent s = c_acc s \/ exists x, c_sent s = x :: c_acc s) /\
  (c_closed s = true -> e_fail e <> None /\ d_src (c_dec s) = [] /\ d_end (c_dec s) = SErr code_closed) /\
  (e_buf e <> [] -> e_armed e = true \/ e_berr e <> None).

Lemma inv_init d0 wl cs e lim dl dlc cf : inv (cinit d0 wl cs e lim dl dlc cf).
Proof.
  unfold inv, cinit, cn_wire, log_bytes, wire_bytes. cbn.
  split; [intros _; split; reflexivity|]. split; [exists []; reflexivity|]. split; [left; reflexivity|].
  split; [discriminate|]. intros X; contradiction.
Qed.

(* replacing the writer state by one that is related to the old one in the way every
   writer operation that logs nothing is *)
Lemma inv_enc_update s e' :
  inv s ->
  (e_berr e' = None -> e_berr (c_enc s) = None /\
     wire_bytes e' ++ e_buf e' = wire_bytes (c_enc s) ++ e_buf (c_enc s)) ->
  (e_berr (c_enc s) = None -> exists rest, wire_bytes e' ++ rest = wire_bytes (c_enc s) ++ e_buf (c_enc s)) ->
  (e_berr (c_enc s) <> None -> wire_bytes e' = wire_bytes (c_enc s)) ->
  (e_fail (c_enc s) <> None -> e_fail e' <> None) ->
  (e_buf e' <> [] -> e_armed e' = true \/ e_berr e' <> None) ->
  inv (set_enc s e').
Proof.
  intros (I1 & I2 & I3 & I4 & I5) H1 H2 H3 H4 H5.
  unfold inv, cn_wire in *. cbn [set_enc c_enc c_dec c_closed c_sent c_acc].
  split; [|split; [|split; [|split]]].
  - intros B'. destruct (H1 B') as [B E]. destruct (I1 B) as [S W]. split; [exact S|]. rewrite E. exact W.
  - destruct (e_berr (c_enc s)) as [c|] eqn:B.
    + rewrite H3 by discriminate. exact I2.
    + destruct (H2 eq_refl) as [rest E]. destruct (I1 eq_refl) as [S W]. exists rest. rewrite E, S. exact W.
  - exact I3.
  - intros C. destruct (I4 C) as (F & D1 & D2). auto.
  - exact H5.
Qed.

Lemma inv_enc_same s e' :
  inv s ->
  wire_bytes e' = wire_bytes (c_enc s) -> e_buf e' = e_buf (c_enc s) -> e_berr e' = e_berr (c_enc s) ->
  e_armed e' = e_armed (c_enc s) -> (e_fail (c_enc s) <> None -> e_fail e' <> None) ->
  inv (set_enc s e').
Proof.
  intros I W B E A F. apply inv_enc_update; auto.
  - intros X. rewrite E in X. split; [exact X|]. rewrite W, B. reflexivity.
  - intros _. exists (e_buf (c_enc s)). rewrite W. reflexivity.
  - rewrite B, A, E. destruct I as (_ & _ & _ & _ & I5). exact I5.
Qed.


(* Every event first does its own work -- a writer operation, a log entry, a read -- and then
   possibly calls carrier.SetReadDeadline and carrier.Close; `fin` is that tail. *)
Definition fin (cl dl : bool) (x : cstate) : cstate :=
  let y := if dl then fst (carrier_deadline x) else x in
  if cl then fst (carrier_close y) else y.

Lemma carrier_deadline_frame x : exists k,
  fst (carrier_deadline x) = CS (c_enc x) (c_dec x) (c_closed x) (c_lim x) k (c_dlc x) (c_clfail x) (c_sent x) (c_acc x).
Proof.
  destruct x as [e d c l k dc cf se ac]. unfold carrier_deadline. cbn.
  destruct (c && dc); [eexists; reflexivity|]. destruct k as [[|k]|]; eexists; reflexivity.
Qed.

Lemma fin_frame cl dl x : let y := fin cl dl x in
  c_closed y = cl || c_closed x /\ c_sent y = c_sent x /\ c_acc y = c_acc x /\
  same_writer (c_enc x) (c_enc y) /\ e_wire (c_enc y) = e_wire (c_enc x) /\
  d_buf (c_dec y) = d_buf (c_dec x) /\
  (cl = false -> c_enc y = c_enc x /\ c_dec y = c_dec x /\ c_clfail y = c_clfail x).
Proof.
  unfold fin, same_writer. destruct dl; [destruct (carrier_deadline_frame x) as [k ->]|];
    (destruct cl; [unfold carrier_close; cbn [c_closed]; destruct (c_closed x) eqn:C|]); cbn;
    repeat split; auto; discriminate.
Qed.

Lemma fin_inv cl dl x : inv x -> inv (fin cl dl x).
Proof.
  intros I. unfold fin.
  assert (I' : inv (if dl then fst (carrier_deadline x) else x)).
  { destruct dl; [|exact I]. destruct (carrier_deadline_frame x) as [k ->]. exact I. }
  destruct cl; [|exact I']. revert I'. generalize (if dl then fst (carrier_deadline x) else x). clear. intros s I.
  unfold carrier_close. destruct (c_closed s) eqn:C; cbn [fst]; [exact I|].
  destruct I as (I1 & I2 & I3 & I4 & I5). unfold inv, cn_wire in *.
  cbn [c_enc c_dec c_closed c_sent c_acc set_fail e_buf e_berr e_armed e_fail e_wire d_src d_end].
  change (wire_bytes (set_fail (c_enc s) (Some code_closed))) with (wire_bytes (c_enc s)).
  repeat split; auto; try (apply I1; assumption). discriminate.
Qed.

Section CNP.
  Variable detect : list byte -> detection.
  Variable decode : N -> list byte -> option packet.

  Notation step := (cn_step detect decode).
  Notation run := (cn_run detect decode).


  (* the bytes of a Send reach a live buffered writer: no stored flush error to report first,
     no sticky bufio error that makes Write return at once *)
  Definition reached (e : estate) : bool := negb (is_some (e_aerr e)) && negb (is_some (e_berr e)).

  (* the writer operation of an event, and the error it returns *)
  Definition wop (e : estate) (ev : cev) : estate * wres :=
    match ev with
    | CSend _ (Some bs) async => mw_write e bs (negb async)
    | CClose => mw_write e [] true
    | CTimer => (mw_timer e, None)
    | CDelay z => (set_delay0 e z, None)
    | CFailWrites => (match e_fail e with Some _ => e | None => set_fail e (Some code_carrier) end, None)
    | _ => (e, None)
    end.

  (* the state after the event's own work *)
  Definition mid (s : cstate) (ev : cev) : cstate :=
    CS (fst (wop (c_enc s) ev))
       (match ev with CReceive => r_state (dec_read detect decode (c_lim s) (c_dec s)) | _ => c_dec s end)
       (c_closed s) (c_lim s) (c_dlleft s) (c_dlc s) (c_clfail s)
       (match ev with
        | CSend who (Some bs) _ => if reached (c_enc s) then (who, bs) :: c_sent s else c_sent s
        | _ => c_sent s
        end)
       (match ev, snd (wop (c_enc s) ev) with
        | CSend who (Some bs) _, None => (who, bs) :: c_acc s
        | _, _ => c_acc s
        end).

  (* what the event returns, and whether carrier.Close (cl) / carrier.SetReadDeadline (dl) follow *)
  Definition step_res (s : cstate) (ev : cev) (cl dl : bool) (r : cres) : Prop :=
    let w := snd (wop (c_enc s) ev) in
    match ev with
    | CSend _ (Some _) _ =>
        dl = false /\ match w with None => cl = false /\ r = CROk | Some c => cl = true /\ r = CRErr c end
    | CSend _ None _ => cl = true /\ dl = false /\ r = CREnc
    | CReceive =>
        match r_res (dec_read detect decode (c_lim s) (c_dec s)) with
        | RFail e => cl = true /\ dl = false /\ r = CRRecvErr e
        | RPacket fr p => dl = true /\ (cl = false /\ r = CRPacket fr p \/ cl = true /\ exists c, r = CRErr c)
        end
    | CClose =>
        cl = true /\ dl = false /\
        r = match w with
            | Some c => CRErr c
            | None => if c_closed s then CRErr code_closed else if c_clfail s then CRErr code_carrier else CROk
            end
    | CSetTimeout => cl = false /\ dl = true /\ r = CRNone
    | _ => cl = false /\ dl = false /\ r = CRNone
    end.

  Lemma step_mid s ev s' r :
    step s ev = (s', r) -> exists cl dl, s' = fin cl dl (mid s ev) /\ step_res s ev cl dl r.
  Proof.
    destruct s as [e d c l k dc cf se ac]. unfold mid, step_res, fin.
    destruct ev as [who [bs|] async| | | | |z|];
      cbn [cn_step wop c_enc c_dec c_closed c_lim c_dlleft c_dlc c_clfail c_sent c_acc set_enc set_dec fst snd]; intros H.
    - destruct (mw_write e bs (negb async)) as [e' [c0|]]; injection H as <- <-;
        [exists true, false | exists false, false]; cbn [fst snd]; auto.
    - injection H as <- <-. exists true, false. auto.
    - destruct (r_res (dec_read detect decode l d)) as [fr p|er].
      + destruct (carrier_deadline _) as [s2 [c0|]] eqn:DL; apply (f_equal fst) in DL; cbn [fst] in DL; subst s2;
          injection H as <- <-; [exists true, true | exists false, true]; eauto 7.
      + injection H as <- <-. exists true, false. auto.
    - destruct (mw_write e [] true) as [e' r1]. cbn [fst snd].
      unfold carrier_close in *. cbn [c_closed c_clfail] in *.
      exists true, false. destruct c; [|destruct cf]; injection H as <- <-; destruct r1; auto.
    - injection H as <- <-. exists false, false. auto.
    - injection H as <- <-. exists false, true. auto.
    - injection H as <- <-. exists false, false. auto.
    - injection H as <- <-. exists false, false. destruct (e_fail e); auto.
  Qed.

  (* ---------------------------------------------------------------- the invariant *)

  (* a Send (ent = its log entry) or the flush of Close (ent = []): a write of the bytes p of ent *)
  Lemma inv_write s p fl e' w (ent : list (N * list byte)) :
    inv s -> mw_write (c_enc s) p fl = (e', w) -> p <> [] \/ fl = true ->
    (forall l, log_bytes (ent ++ l) = log_bytes l ++ p) ->
    (forall l, ent ++ l = l \/ exists x, ent ++ l = x :: l) ->
    inv (CS e' (c_dec s) (c_closed s) (c_lim s) (c_dlleft s) (c_dlc s) (c_clfail s)
            (if reached (c_enc s) then ent ++ c_sent s else c_sent s)
            (match w with None => ent ++ c_acc s | Some _ => c_acc s end)).
  Proof.
    intros I MW Hp HL H3. pose proof (mw_write_spec _ _ _ _ _ MW) as (D & SF & M). unfold reached.
    destruct (e_aerr (c_enc s)) as [ca|] eqn:A.
    { (* a stored flush error is reported instead *)
      destruct M as [-> ->]. apply (inv_enc_same s (set_aerr (c_enc s) None)); auto. }
    destruct M as (A' & M). destruct (e_berr (c_enc s)) as [cb|] eqn:B; cbn [is_some negb andb].
    { (* dead buffered writer *)
      destruct M as (M0 & _). destruct M0 as [-> ->]; [tauto|]. destruct s; exact I. }
    destruct I as (I1 & I2 & I3 & I4 & I5). destruct (I1 B) as [SA WB].
    unfold inv, cn_wire in *. cbn [c_enc c_dec c_closed c_sent c_acc]. rewrite SA.
    destruct w as [c|].
    - (* a live writer failed *)
      destruct M as (M1 & M2 & M3 & rest & _ & M4).
      split; [rewrite M1; discriminate|]. split; [exists rest; rewrite M4, app_assoc, WB, HL; reflexivity|].
      split; [apply H3|]. split; [intros C; destruct (I4 C) as (F & D1 & D2); auto|].
      intros _. right. rewrite M1. discriminate.
    - (* accepted *)
      destruct M as (M1 & M2 & M3 & M4 & M5 & M6).
      split; [intros _; split; [reflexivity | rewrite M1, app_assoc, WB, HL; reflexivity]|].
      split; [exists (e_buf e'); rewrite M1, app_assoc, WB, HL; reflexivity|]. split; [left; reflexivity|]. split.
      + intros C. destruct (I4 C) as (F & D1 & D2). split; [|auto].
        destruct (e_fail (c_enc s)) as [cf|] eqn:F0; [|contradiction].
        rewrite (SF cf F0). discriminate.
      + intros Hb. left. rewrite M3. destruct (e_buf e'); [contradiction|reflexivity].
  Qed.

  Lemma inv_mid s ev : inv s -> good_ev ev -> inv (mid s ev).
  Proof.
    intros I G. unfold mid. destruct ev as [who [bs|] async| | | | |z|]; cbn [wop fst snd];
      try (destruct s; exact I). (* no writer operation, or one that changes nothing the invariant mentions *)
    - (* Send *)
      destruct (mw_write (c_enc s) bs (negb async)) as [e' w] eqn:MW.
      apply (inv_write s bs (negb async) e' w [(who, bs)] I MW).
      + left. destruct bs; [contradiction | discriminate].
      + intros l. apply log_bytes_cons.
      + intros l. right. exists (who, bs). reflexivity.
    - (* Receive: a closed connection stays drained *)
      destruct I as (I1 & I2 & I3 & I4 & I5). unfold inv, cn_wire in *. cbn [c_enc c_dec c_closed c_sent c_acc].
      repeat split; auto; try (apply I1; assumption); destruct (I4 H) as (F & D1 & D2); auto;
        destruct (dec_read_drained detect decode (c_lim s) (c_dec s) D1) as (X1 & X2 & _); [exact X1 | rewrite X2; exact D2].
    - (* Close *)
      destruct (mw_write (c_enc s) [] true) as [e' w] eqn:MW.
      pose proof (inv_write s [] true e' w [] I MW (or_intror eq_refl)
                    (fun l => eq_sym (app_nil_r _)) (fun l => or_introl eq_refl)) as I'.
      cbn [app] in I'. destruct (reached (c_enc s)), w; exact I'.
    - (* Timer *)
      pose proof (mw_timer_spec (c_enc s)) as (D & AR & SF & T).
      apply (inv_enc_update s (mw_timer (c_enc s))); auto.
      + intros B'. destruct (e_berr (c_enc s)) as [cb|] eqn:B.
        * destruct T as (_ & _ & T3 & _). rewrite T3 in B'. discriminate.
        * split; [reflexivity|]. destruct T as [(T1 & T2 & _)|(_ & _ & T3 & _)]; [|contradiction].
          rewrite T1, T2, app_nil_r. reflexivity.
      + intros B. rewrite B in T. destruct T as [(T1 & T2 & _)|(T1 & T2 & _)].
        * exists []. rewrite T1, app_nil_r. reflexivity.
        * exists (e_buf (c_enc s)). rewrite T1. reflexivity.
      + intros B. destruct (e_berr (c_enc s)) as [cb|]; [|contradiction]. destruct T as (T1 & _). exact T1.
      + intros F0. destruct (e_fail (c_enc s)) as [cf|] eqn:F1; [|contradiction].
        rewrite (SF cf F1). discriminate.
      + intros Hb. right. destruct (e_berr (c_enc s)) as [cb|] eqn:B.
        * destruct T as (_ & _ & T3 & _). rewrite T3. discriminate.
        * destruct T as [(_ & T2 & _)|(_ & _ & T3 & _)]; [contradiction|exact T3].
    - (* the carrier starts refusing writes *)
      destruct (e_fail (c_enc s)) eqn:F; [destruct s; exact I|].
      apply (inv_enc_same s (set_fail (c_enc s) (Some code_carrier))); auto.
  Qed.

  Lemma step_inv s ev s' r : inv s -> good_ev ev -> step s ev = (s', r) -> inv s'.
  Proof.
    intros I G H. destruct (step_mid _ _ _ _ H) as (cl & dl & -> & _). apply fin_inv. apply inv_mid; assumption.
  Qed.

  Lemma run_invariant (P : cstate -> Prop) (Q : cev -> Prop) (R : cev -> cres -> Prop) :
    (forall s ev s' r, P s -> Q ev -> step s ev = (s', r) -> P s' /\ R ev r) ->
    forall evs s s' rs, P s -> Forall Q evs -> run s evs = (s', rs) -> P s' /\ Forall2 R evs rs.
  Proof.
    intros Step. induction evs as [|ev evs IH]; intros s s' rs HP HQ H; cbn [cn_run] in H.
    - injection H as <- <-. split; [exact HP | constructor].
    - destruct (step s ev) as [s1 r] eqn:ST. destruct (run s1 evs) as [s2 rs'] eqn:RN.
      injection H as <- <-. inversion HQ as [|? ? Q1 Q2]; subst.
      destruct (Step _ _ _ _ HP Q1 ST) as [P1 R1]. destruct (IH _ _ _ P1 Q2 RN) as [P2 R2].
      split; [exact P2 | constructor; assumption].
  Qed.

  Theorem run_inv evs : forall s s' rs,
    inv s -> Forall good_ev evs -> run s evs = (s', rs) -> inv s'.
  Proof.
    intros s s' rs I G H. refine (proj1 (run_invariant inv good_ev (fun _ _ => True) _ evs s s' rs I G H)).
    intros s0 ev s1 r I0 G0 ST. split; [exact (step_inv _ _ _ _ I0 G0 ST) | exact Logic.I].
  Qed.


  Fixpoint accepted (evs : list cev) (rs : list cres) : list (N * list byte) :=
    match evs, rs with
    | CSend who (Some bs) _ :: evs', CROk :: rs' => (who, bs) :: accepted evs' rs'
    | _ :: evs', _ :: rs' => accepted evs' rs'
    | _, _ => []
    end.

  Lemma step_acc s ev s' r : step s ev = (s', r) ->
    c_acc s' = match ev, r with
               | CSend who (Some bs) _, CROk => (who, bs) :: c_acc s
               | _, _ => c_acc s
               end.
  Proof.
    intros H. destruct (step_mid _ _ _ _ H) as (cl & dl & -> & R).
    destruct (fin_frame cl dl (mid s ev)) as (_ & _ & -> & _). unfold mid, step_res in *. cbn [c_acc].
    destruct ev as [who [bs|] async| | | | |z|]; try reflexivity.
    destruct R as [_ R]. destruct (snd (wop _ _)); destruct R as [_ ->]; reflexivity.
  Qed.

  (* only a Send adds to the log of encodings handed to the writer, and it adds its own *)
  Lemma step_sent s ev s' r : step s ev = (s', r) ->
    c_sent s' = match ev with
                | CSend who (Some bs) _ => if reached (c_enc s) then (who, bs) :: c_sent s else c_sent s
                | _ => c_sent s
                end.
  Proof.
    intros H. destruct (step_mid _ _ _ _ H) as (cl & dl & -> & _).
    destruct (fin_frame cl dl (mid s ev)) as (_ & -> & _). reflexivity.
  Qed.

  (* the accepted-sends log is exactly the Sends that returned nil, in the order of the events *)
  Lemma run_acc evs : forall s s' rs,
    run s evs = (s', rs) -> c_acc s' = rev (accepted evs rs) ++ c_acc s.
  Proof.
    induction evs as [|ev evs IH]; intros s s' rs H; cbn [cn_run] in H.
    - injection H as <- <-. reflexivity.
    - destruct (step s ev) as [s1 r] eqn:ST. destruct (run s1 evs) as [s2 rs'] eqn:RN.
      injection H as <- <-. rewrite (IH _ _ _ RN), (step_acc _ _ _ _ ST).
      destruct ev as [who [bs|] async| | | | |z|]; cbn [accepted]; try reflexivity.
      destruct r; cbn [rev]; try reflexivity. rewrite <- app_assoc. reflexivity.
  Qed.

  (* C19_whole.  For every carrier script and every sequence of events: the bytes on the
     wire are a prefix of the concatenation of the encodings handed to the writer, in the
     order of the Send events (which extends every sender's own order); all of those
     Sends returned nil except possibly the last one, after which the writer is dead.
     So the wire holds whole packets, in order, never interleaved, plus at most the
     beginning of one packet whose Send reported the failure. *)
  Theorem whole d0 wl cs e lim dl dlc cf evs s rs :
    Forall good_ev evs ->
    run (cinit d0 wl cs e lim dl dlc cf) evs = (s, rs) ->
    (exists rest, cn_wire s ++ rest = log_bytes (c_sent s)) /\
    (c_sent s = c_acc s \/ exists x, c_sent s = x :: c_acc s /\ e_berr (c_enc s) <> None) /\
    rev (c_acc s) = accepted evs rs.
  Proof.
    intros G H. pose proof (run_inv _ _ _ _ (inv_init d0 wl cs e lim dl dlc cf) G H) as (I1 & I2 & I3 & _).
    split; [exact I2|]. split.
    - destruct I3 as [E|[x E]]; [left; exact E|]. right. exists x. split; [exact E|].
      intros B. destruct (I1 B) as [SA _]. rewrite SA in E.
      apply (f_equal (@length _)) in E. cbn [length] in E. lia.
    - rewrite (run_acc _ _ _ _ H). cbn [cinit c_acc]. rewrite app_nil_r, rev_involutive. reflexivity.
  Qed.

  (* ---------------------------------------------------------------- Close loses nothing *)

  Theorem close_flushes s s' r :
    inv s -> healthy (c_enc s) -> step s CClose = (s', r) ->
    cn_wire s' = log_bytes (c_acc s') /\ c_acc s' = c_acc s /\ c_sent s' = c_acc s' /\
    e_buf (c_enc s') = [] /\ c_closed s' = true /\
    (c_closed s = false -> c_clfail s = false -> r = CROk).
  Proof.
    intros (I1 & _) (B & A & CF) H. destruct (I1 B) as [SA WB].
    destruct (step_mid _ _ _ _ H) as (cl & dl & -> & -> & _ & ->).
    destruct (fin_frame true dl (mid s CClose)) as (-> & -> & -> & (-> & _) & W & _).
    unfold cn_wire, wire_bytes in *. rewrite W. unfold mid. cbn [c_enc c_sent c_acc wop fst snd].
    destruct (mw_write (c_enc s) [] true) as [e' w] eqn:MW. cbn [fst snd].
    pose proof (mw_write_spec _ _ _ _ _ MW) as (D & _ & M). rewrite A, B in M. destruct M as (A' & M).
    destruct w as [c|]; [exfalso; destruct M as (_ & _ & NC & _); exact (NC CF)|].
    destruct M as (M1 & _ & _ & M4 & _). specialize (M4 (or_introl eq_refl)).
    unfold wire_bytes in M1. rewrite M4, !app_nil_r in M1. rewrite M1, WB.
    repeat split; auto. intros -> ->. reflexivity.
  Qed.

  (* sends, timer firings and delay changes on a connection whose carrier never fails *)
  Definition quiet_ev (ev : cev) : Prop :=
    match ev with
    | CSend _ (Some (_ :: _)) _ | CTimer | CDelay _ | CSetTimeout => True
    | _ => False
    end.

  Definition quiet_res (ev : cev) : cres := match ev with CSend _ _ _ => CROk | _ => CRNone end.

  (* the events after which nothing is left in the write buffer of a healthy connection *)
  Definition flushing_ev (ev : cev) : Prop := match ev with CSend _ _ false | CTimer => True | _ => False end.

  Lemma quiet_step s ev s' r :
    healthy (c_enc s) -> c_closed s = false -> quiet_ev ev -> step s ev = (s', r) ->
    healthy (c_enc s') /\ c_closed s' = false /\ r = quiet_res ev /\ c_clfail s' = c_clfail s /\
    (flushing_ev ev -> e_buf (c_enc s') = []).
  Proof.
    intros Hh C Q H. destruct (step_mid _ _ _ _ H) as (cl & dl & -> & R).
    assert (K : cl = false /\ r = quiet_res ev /\ healthy (fst (wop (c_enc s) ev)) /\
                (flushing_ev ev -> e_buf (fst (wop (c_enc s) ev)) = [])).
    { unfold step_res in R. destruct ev as [who [[|b0 bt]|] async| | | | |z|]; cbn [quiet_ev] in Q; try contradiction;
        cbn [wop fst snd quiet_res flushing_ev] in *.
      - destruct (mw_write (c_enc s) (b0 :: bt) (negb async)) as [e' w] eqn:MW. cbn [fst snd] in *.
        assert (ES : enc_step (c_enc s) (EvWrite (Some (b0 :: bt)) async) = (e', eres_of w)).
        { cbn [enc_step]. rewrite MW. reflexivity. }
        destruct (healthy_step _ (EvWrite (Some (b0 :: bt)) async) _ _ Hh Logic.I ES) as (H1 & _ & NE & Z).
        destruct w as [c|]; [exfalso; exact (NE c eq_refl)|]. destruct R as (_ & -> & ->).
        split; [reflexivity|]. split; [reflexivity|]. split; [exact H1|].
        intros F. apply Z. destruct async; [contradiction | left; reflexivity].
      - destruct (healthy_step _ EvTimer _ _ Hh Logic.I eq_refl) as (H1 & _ & _ & Z). destruct R as (-> & _ & ->). auto.
      - destruct R as (-> & _ & ->). split; [reflexivity|]. split; [reflexivity|]. split; [exact Hh | contradiction].
      - destruct (healthy_step _ (EvDelay z) _ _ Hh Logic.I eq_refl) as (H1 & _). destruct R as (-> & _ & ->).
        split; [reflexivity|]. split; [reflexivity|]. split; [exact H1 | contradiction]. }
    destruct K as (-> & -> & H1 & Z).
    destruct (fin_frame false dl (mid s ev)) as (-> & _ & _ & _ & _ & _ & E). destruct (E eq_refl) as (-> & _ & ->).
    auto.
  Qed.

  Lemma quiet_good ev : quiet_ev ev -> good_ev ev.
  Proof. destruct ev as [who [[|b0 bt]|] async| | | | |z|]; cbn; auto. Qed.

  Lemma quiet_run evs : forall s s' rs,
    inv s -> healthy (c_enc s) -> c_closed s = false -> Forall quiet_ev evs -> run s evs = (s', rs) ->
    inv s' /\ healthy (c_enc s') /\ c_closed s' = false /\ c_clfail s' = c_clfail s /\ rs = map quiet_res evs.
  Proof.
    intros s s' rs I Hh C Q H.
    split; [refine (run_inv evs s s' rs I _ H); eapply Forall_impl; [exact quiet_good | exact Q]|].
    pose proof (run_invariant (fun x => healthy (c_enc x) /\ c_closed x = false /\ c_clfail x = c_clfail s)
                  quiet_ev (fun ev r => r = quiet_res ev)) as RI.
    destruct (RI (fun x ev x' r '(conj Hx (conj Cx Fx)) Qe ST =>
                    let '(conj H1 (conj C1 (conj R1 (conj F1 _)))) := quiet_step x ev x' r Hx Cx Qe ST in
                    conj (conj H1 (conj C1 (eq_trans F1 Fx))) R1)
                 evs s s' rs (conj Hh (conj C eq_refl)) Q H) as ((H2 & C2 & F2) & R2).
    split; [exact H2|]. split; [exact C2|]. split; [exact F2|]. clear - R2. induction R2 as [|ev r evs rs -> _ IH]; [reflexivity | cbn [map]; rewrite IH; reflexivity].
  Qed.

  Definition sends_of (evs : list cev) : list (list byte) :=
    concat (map (fun ev => match ev with CSend _ (Some bs) _ => [bs] | _ => [] end) evs).

  (* in a quiet run every Send is accepted *)
  Lemma accepted_quiet evs : Forall quiet_ev evs -> map snd (accepted evs (map quiet_res evs)) = sends_of evs.
  Proof.
    unfold sends_of. induction 1 as [|ev evs Q _ IH]; [reflexivity|].
    destruct ev as [who [bs|] async| | | | |z|]; cbn [accepted map quiet_res concat app quiet_ev] in *; try contradiction;
      try exact IH.
    cbn [snd]. f_equal. exact IH.
  Qed.

  Lemma quiet_res_ok evs : Forall (fun r => r = CROk \/ r = CRNone) (map quiet_res evs).
  Proof. induction evs as [|ev evs IH]; constructor; [destruct ev; auto | exact IH]. Qed.

  Lemma run_snoc evs ev : forall s0 s rs,
    run s0 (evs ++ [ev]) = (s, rs) ->
    exists s1 rs1 r, run s0 evs = (s1, rs1) /\ step s1 ev = (s, r) /\ rs = rs1 ++ [r].
  Proof.
    induction evs as [|e0 evs IH]; intros s0 s rs H; cbn [app cn_run] in H |- *.
    - destruct (step s0 ev) as [s1 r] eqn:ST. injection H as <- <-. exists s0, [], r. auto.
    - destruct (step s0 e0) as [s1 r1]. destruct (run s1 (evs ++ [ev])) as [s2 rs2] eqn:RN.
      injection H as <- <-. destruct (IH _ _ _ RN) as (sa & rsa & r & E1 & E2 & E3).
      rewrite E1. exists sa, (r1 :: rsa), r. subst rs2. auto.
  Qed.

  (* C19_close_loses_nothing.  No carrier failure: after any mix of flushed and buffered Sends,
     timer firings and delay changes, every Send has returned nil, and once Close returns
     (nil) the wire is exactly the concatenation of everything sent, the last buffered
     packet included, and nothing is left in the buffer. *)
  Theorem close_loses_nothing d0 cs e lim dl dlc evs s rs :
    Forall quiet_ev evs ->
    run (cinit d0 None cs e lim dl dlc false) (evs ++ [CClose]) = (s, rs) ->
    cn_wire s = concat (sends_of evs) /\ e_buf (c_enc s) = [] /\
    Forall (fun r => r = CROk \/ r = CRNone) rs /\ last rs CRNone = CROk.
  Proof.
    intros Q H.
    destruct (run_snoc _ _ _ _ _ H) as (s1 & rs1 & r & RN & ST & ->).
    destruct (quiet_run _ _ _ _ (inv_init _ _ _ _ _ _ _ _) (healthy_init d0) eq_refl Q RN) as (I1 & H1 & C1 & F1 & ->).
    destruct (close_flushes _ _ _ I1 H1 ST) as (W & A & SA & Bf & C & RO).
    specialize (RO C1 F1). subst r.
    split; [|split; [exact Bf|split]].
    - rewrite W, A, (run_acc _ _ _ _ RN). cbn [cinit c_acc]. unfold log_bytes.
      rewrite app_nil_r, rev_involutive, (accepted_quiet _ Q). reflexivity.
    - apply Forall_app. split; [apply quiet_res_ok | constructor; [left; reflexivity | constructor]].
    - rewrite last_last. reflexivity.
  Qed.

  (* ---------------------------------------------------------------- after Close / after an error *)

  (* every error returned by Send or Receive, and every Close, leaves the carrier closed *)
  Theorem errors_close s ev s' r :
    step s ev = (s', r) ->
    match ev, r with
    | CSend _ _ _, CROk => True
    | CSend _ _ _, _ => c_closed s' = true
    | CReceive, CRPacket _ _ => True
    | CReceive, _ => c_closed s' = true
    | CClose, _ => c_closed s' = true
    | _, _ => True
    end.
  Proof.
    intros H. destruct (step_mid _ _ _ _ H) as (cl & dl & -> & R).
    destruct (fin_frame cl dl (mid s ev)) as (-> & _). unfold step_res in R.
    destruct ev as [who [bs|] async| | | | |z|]; auto.
    - destruct R as [_ R]. destruct (snd (wop _ _)); destruct R as [-> ->]; [reflexivity | exact I].
    - destruct R as (-> & _ & ->). reflexivity.
    - destruct (r_res _); [destruct R as (_ & [[-> ->] | (-> & c & ->)]) | destruct R as (-> & _ & ->)];
        first [exact I | reflexivity].
    - destruct R as (-> & _). destruct r; reflexivity.
  Qed.

  (* (a) on a closed connection a Send that has to flush (sync, or delay 0) fails at once *)
  Theorem after_close_flushed_send s who bs async s' r :
    inv s -> c_closed s = true -> bs <> [] -> async = false \/ e_delay0 (c_enc s) = true ->
    step s (CSend who (Some bs) async) = (s', r) -> r <> CROk.
  Proof.
    intros (_ & _ & _ & I4 & _) C Hb Hf H. destruct (I4 C) as (F & _).
    destruct (e_fail (c_enc s)) as [cf|] eqn:F0; [|contradiction].
    cbn [cn_step] in H. destruct (mw_write (c_enc s) bs (negb async)) as [e' r1] eqn:MW.
    assert (NR : r1 <> None).
    { eapply dead_carrier_flushed_write; [exact F0|exact Hb| |exact MW].
      destruct Hf as [->|X]; [left; reflexivity|right; exact X]. }
    destruct r1 as [c|]; [|contradiction]. injection H as <- <-. discriminate.
  Qed.

  (* (b) if a buffered Send is accepted on a closed connection, its bytes sit in the buffer
     and the flush timer is armed (or the writer is already dead) … *)
  Theorem after_close_buffered_send s who bs async s' :
    inv s -> c_closed s = true -> bs <> [] ->
    step s (CSend who (Some bs) async) = (s', CROk) ->
    c_closed s' = true /\ e_buf (c_enc s') <> [] /\ (e_armed (c_enc s') = true \/ e_berr (c_enc s') <> None).
  Proof.
    intros I C Hb H. pose proof (step_inv _ _ _ _ I (ltac:(destruct bs; [contradiction|exact Logic.I]) : good_ev (CSend who (Some bs) async)) H) as I'.
    destruct I as (_ & _ & _ & I4 & _). destruct (I4 C) as (F & _).
    destruct (e_fail (c_enc s)) as [cf|] eqn:F0; [|contradiction].
    cbn [cn_step] in H. destruct (mw_write (c_enc s) bs (negb async)) as [e' r1] eqn:MW.
    destruct r1 as [c|]; [injection H as _ H; discriminate|]. injection H as <-.
    cbn [c_closed c_enc]. split; [exact C|].
    assert (NB : e_buf e' <> []).
    { unfold mw_write in MW. destruct (e_aerr (c_enc s)); [discriminate|].
      destruct bs as [|b0 bt]; [contradiction|]. cbn [is_nil] in MW.
      destruct (bw_write (c_enc s) (b0 :: bt)) as [s1 [c1|]] eqn:BW; [discriminate|].
      destruct (dead_carrier_bw_write _ _ _ _ F0 BW Hb) as (F1 & B1 & _).
      destruct (negb async || e_delay0 s1).
      - destruct (bw_flush s1) as [s2 [c2|]] eqn:FL; [discriminate|]. exfalso. exact (dead_carrier_flush _ _ _ F1 B1 FL).
      - injection MW as <-. exact B1. }
    split; [exact NB|]. destruct I' as (_ & _ & _ & _ & I5). exact (I5 NB).
  Qed.

  (* … when the timer fires the writer dies … *)
  Theorem after_close_timer s s' r :
    inv s -> c_closed s = true -> e_buf (c_enc s) <> [] -> step s CTimer = (s', r) ->
    e_berr (c_enc s') <> None.
  Proof.
    intros (_ & _ & _ & I4 & _) C Hb H. destruct (I4 C) as (F & _). injection H as <- _.
    cbn [set_enc c_enc]. pose proof (mw_timer_spec (c_enc s)) as (_ & _ & _ & T).
    destruct (e_berr (c_enc s)) as [cb|].
    - destruct T as (_ & _ & T3 & _). rewrite T3. discriminate.
    - destruct T as [(_ & _ & _ & _ & _ & _ & T7)|(_ & _ & T3 & _)]; [exfalso; exact (F (T7 Hb))|exact T3].
  Qed.

  Lemma dead_write e p fl e1 w :
    e_berr e <> None -> p <> [] \/ fl = true -> mw_write e p fl = (e1, w) ->
    e_berr e1 <> None /\ wire_bytes e1 = wire_bytes e /\ w <> None.
  Proof.
    intros B Hp MW. pose proof (mw_write_spec _ _ _ _ _ MW) as (_ & _ & M).
    destruct (e_aerr e) as [ca|]; [destruct M as [-> ->]; repeat split; [exact B | discriminate]|].
    destruct M as (_ & M). destruct (e_berr e) as [cb|] eqn:B0; [|contradiction].
    destruct M as (M0 & _). destruct M0 as [-> ->]; [tauto|]. rewrite B0. repeat split; discriminate.
  Qed.

  Lemma dead_step s ev s' r :
    e_berr (c_enc s) <> None -> good_ev ev -> step s ev = (s', r) ->
    e_berr (c_enc s') <> None /\ cn_wire s' = cn_wire s /\ c_sent s' = c_sent s /\ c_acc s' = c_acc s /\
    match ev with CSend _ _ _ | CClose => r <> CROk | _ => True end.
  Proof.
    intros B G H. destruct (step_mid _ _ _ _ H) as (cl & dl & -> & R).
    destruct (fin_frame cl dl (mid s ev)) as (_ & -> & -> & (_ & -> & _) & W & _).
    unfold cn_wire, wire_bytes. rewrite W. unfold mid, step_res, reached in *. cbn [c_enc c_sent c_acc].
    destruct (e_berr (c_enc s)) as [cb|] eqn:B0; [clear B | contradiction]. rewrite andb_false_r.
    assert (B : e_berr (c_enc s) <> None) by (rewrite B0; discriminate).
    destruct ev as [who [bs|] async| | | | |z|]; cbn [wop fst snd set_delay0 e_berr e_wire] in *;
      try (rewrite B0; repeat split; try discriminate; destruct R as (_ & _ & ->); discriminate).
    - destruct (mw_write (c_enc s) bs (negb async)) as [e1 w] eqn:MW. cbn [fst snd] in *.
      destruct (dead_write _ _ _ _ _ B (or_introl (ltac:(destruct bs; [contradiction | discriminate]) : bs <> [])) MW)
        as (B1 & W1 & NW).
      destruct w as [c|]; [|contradiction]. destruct R as (_ & _ & ->). repeat split; auto. discriminate.
    - destruct (mw_write (c_enc s) [] true) as [e1 w] eqn:MW. cbn [fst snd] in *.
      destruct (dead_write _ _ _ _ _ B (or_intror eq_refl) MW) as (B1 & W1 & NW).
      destruct w as [c|]; [|contradiction]. destruct R as (_ & _ & ->). repeat split; auto. discriminate.
    - pose proof (mw_timer_spec (c_enc s)) as (_ & _ & _ & T). rewrite B0 in T. destruct T as (T1 & _ & T3 & _).
      rewrite T3. repeat split; [discriminate | exact T1].
    - destruct (e_fail (c_enc s)); cbn [set_fail e_berr]; rewrite B0; repeat split; discriminate.
  Qed.

  Theorem dead_writer_forever s ev s' r :
    e_berr (c_enc s) <> None -> good_ev ev -> step s ev = (s', r) ->
    e_berr (c_enc s') <> None /\
    match ev with CSend _ _ _ | CClose => r <> CROk | _ => True end.
  Proof. intros B G H. destruct (dead_step _ _ _ _ B G H) as (B' & _ & _ & _ & R). auto. Qed.

  (* (c) Receive on a closed connection never waits for the carrier: it returns a packet cut
     from the front of the bytes already buffered (the buffer gets strictly shorter), or an
     error; with an empty buffer it is an error *)
  Theorem after_close_receive s s' r :
    inv s -> c_closed s = true -> step s CReceive = (s', r) ->
    c_closed s' = true /\
    match r with
    | CRPacket fr p => d_buf (c_dec s) = fr ++ d_buf (c_dec s') /\ fr <> []
    | CRRecvErr _ | CRErr _ => True
    | _ => False
    end /\
    (d_buf (c_dec s) = [] -> r = CRRecvErr (ESource code_closed)).
  Proof.
    intros (_ & _ & _ & I4 & _) C H. destruct (I4 C) as (_ & D1 & D2).
    destruct (step_mid _ _ _ _ H) as (cl & dl & -> & R).
    destruct (fin_frame cl dl (mid s CReceive)) as (-> & _ & _ & _ & _ & -> & _).
    unfold mid, step_res in *. cbn [c_closed c_dec]. rewrite C, orb_true_r. split; [reflexivity|].
    pose proof (dec_read_drained detect decode (c_lim s) (c_dec s) D1) as (_ & _ & R3).
    assert (EMP : d_buf (c_dec s) = [] -> r_res (dec_read detect decode (c_lim s) (c_dec s)) = RFail (ESource code_closed)).
    { intros E. unfold dec_read. rewrite E, D1, D2. reflexivity. }
    destruct (r_res _) as [fr p|er].
    - split; [|intros E; discriminate (EMP E)]. destruct R as (_ & [[_ ->] | (_ & c & ->)]); [exact R3 | exact I].
    - destruct R as (_ & _ & ->). split; [exact I|]. intros E. injection (EMP E) as ->. reflexivity.
  Qed.
End CNP.
