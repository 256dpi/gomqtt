(* LinkProofs.v — the LINK theorems: the sending side (BaseConn over mercury/bufio over a
   failing carrier, Transport/BaseConnProofs.v + Stream/EncStreamProofs.v) composed with the
   receiving side (the stream decoder over ANY chunking, Stream/FramesProofs.v) through the
   REAL codec (Stream/StreamCodec.v: frames_codec, truncation_codec; Codec: encoder_write_exact,
   roundtrip).  Besides the adapters between the shapes of those theorems
     - a link event's bytes are wire_spec p (encoder_write_exact), never empty;
     - the BaseConn ghost logs c_acc / c_sent, read as (goroutine, packet) lists;
     - a prefix of a concatenation of encodings is whole encodings plus a strict prefix of the
       next one (prefix_split);
     - n+1 Receive calls on a BaseConn are dec_all (receives_dec_all);
   one run invariant is proved here: the packet whose Send reported the failure is never whole
   on the wire (short_wire).                                                               *)
From Coq Require Import List NArith Bool Lia ZArith ZifyN ZifyNat ZifyBool.
From Coq.Strings Require Import Byte.
From GM Require Import Codec.Packet Codec.WF Codec.WireSpec.
From GM Require Codec.Enc Codec.EncProofsTop.
From GM Require Import Stream.Stream Stream.StreamSpec Stream.StreamProofs Stream.EncStream Stream.EncStreamProofs
  Stream.FramesProofs Stream.StreamCodec Stream.StreamTotal Transport.BaseConn Transport.BaseConnProofs Transport.Link.
Import ListNotations.
Open Scope N_scope.

Notation stepA := (cn_step detect_impl codec_decode).
Notation runA := (cn_run detect_impl codec_decode).

(* ---------------------------------------------------------------- link events and their bytes *)

(* the real encoder hands exactly wire_spec p to the writer, whatever the pooled buffer held *)
Lemma enc_of_wf prior p : wf p = true -> enc_of prior p = Some (wire_spec p).
Proof. intros W. unfold enc_of. rewrite (EncProofsTop.encoder_write_exact p prior W). reflexivity. Qed.

Lemma wire_spec_cons p : wf p = true -> exists b bs, wire_spec p = b :: bs.
Proof.
  intros W. destruct (codec_detect_enc p W) as (h & H2 & _ & Hl & _).
  destruct (wire_spec p) as [|b bs]; [rewrite len_nil in Hl; lia|eauto].
Qed.

Lemma wire_spec_len_pos p : wf p = true -> 0 < len (wire_spec p).
Proof. intros W. destruct (codec_detect_enc p W) as (h & H2 & _ & Hl & _). lia. Qed.

Lemma lquiet_wf ev : lquiet ev -> lev_wf ev.
Proof. destruct ev; cbn; auto. Qed.

Lemma lquiet_quiet ev : lquiet ev -> quiet_ev (cev_of ev).
Proof.
  destruct ev as [who p prior async| | | | | |]; cbn [lquiet cev_of quiet_ev]; auto.
  intros W. rewrite (enc_of_wf prior p W). destruct (wire_spec_cons p W) as (b & bs & ->). exact I.
Qed.

Lemma lev_wf_good ev : lev_wf ev -> good_ev (cev_of ev).
Proof.
  destruct ev as [who p prior async| | | | | |]; cbn [lev_wf cev_of good_ev]; auto.
  intros W. rewrite (enc_of_wf prior p W). destruct (wire_spec_cons p W) as (b & bs & ->). exact I.
Qed.

Lemma quiet_script script : Forall lquiet script -> Forall quiet_ev (map cev_of script).
Proof. intros F. apply Forall_map. exact (Forall_impl _ lquiet_quiet F). Qed.

Lemma good_script script : Forall lev_wf script -> Forall good_ev (map cev_of script).
Proof. intros F. apply Forall_map. exact (Forall_impl _ lev_wf_good F). Qed.

Lemma lquiet_script_wf script : Forall lquiet script -> Forall lev_wf script.
Proof. intros F. eapply Forall_impl; [|exact F]. exact lquiet_wf. Qed.

(* ---------------------------------------------------------------- (goroutine, packet) lists *)

Definition enc_tag (x : N * packet) : N * list byte := (fst x, wire_spec (snd x)).

Lemma offered_app s1 s2 : offered (s1 ++ s2) = offered s1 ++ offered s2.
Proof.
  induction s1 as [|ev s1 IH]; [reflexivity|]. destruct ev; cbn [app offered]; rewrite IH; reflexivity.
Qed.

Lemma offered_wf script : Forall lev_wf script -> Forall wfp (map snd (offered script)).
Proof.
  intros F. induction F as [|ev script W F IH]; [constructor|].
  destruct ev; cbn [offered map snd]; try exact IH. constructor; [exact W|exact IH].
Qed.

Lemma offered_in script x : In x (offered script) -> exists prior async, In (LSend (fst x) (snd x) prior async) script.
Proof.
  induction script as [|ev script IH]; [intros []|].
  destruct ev as [who p prior async| | | | | |]; cbn [offered]; intros H;
    try (destruct (IH H) as (pr & a & HI); exists pr, a; right; exact HI).
  destruct H as [<-|H]; [exists prior, async; left; reflexivity|].
  destruct (IH H) as (pr & a & HI). exists pr, a. right. exact HI.
Qed.

Lemma laccepted_in script : forall rs x, In x (laccepted script rs) -> In x (offered script).
Proof.
  induction script as [|ev script IH]; intros rs x H; [destruct rs; contradiction|].
  destruct rs as [|r rs]; [destruct ev; contradiction|].
  destruct ev as [who p prior async| | | | | |]; cbn [laccepted offered] in *; try exact (IH _ _ H).
  destruct r; cbn [In] in *; try (right; exact (IH _ _ H)).
  destruct H as [H|H]; [left; exact H|right; exact (IH _ _ H)].
Qed.

Lemma Forall_map_in {A B} (P : B -> Prop) (f : A -> B) l1 l2 :
  (forall x, In x l1 -> In x l2) -> Forall P (map f l2) -> Forall P (map f l1).
Proof.
  intros S F. rewrite Forall_forall in *. intros y Hy. apply in_map_iff in Hy. destruct Hy as (x & <- & Hx).
  apply F. apply in_map. apply S. exact Hx.
Qed.

(* the BaseConn trace function `accepted`, read on a link script *)
Lemma accepted_cev_of script : forall rs, Forall lev_wf script ->
  accepted (map cev_of script) rs = map enc_tag (laccepted script rs).
Proof.
  induction script as [|ev script IH]; intros rs F; [destruct rs; reflexivity|].
  inversion F as [|? ? W F']; subst. destruct rs as [|r rs]; [destruct ev; cbn; try reflexivity; destruct (enc_of prior p); reflexivity|].
  destruct ev as [who p prior async| | | | | |]; cbn [map cev_of accepted laccepted]; try exact (IH rs F').
  cbn [lev_wf] in W. rewrite (enc_of_wf prior p W).
  destruct r; cbn [map]; try exact (IH rs F'). rewrite (IH rs F'). reflexivity.
Qed.

Lemma concat_enc_tag l : concat (map snd (map enc_tag l)) = concat (map wire_spec (map snd l)).
Proof. rewrite !map_map. reflexivity. Qed.

Lemma combine_fst_snd {A B} (l : list (A * B)) : combine (map fst l) (map snd l) = l.
Proof. induction l as [|[a b] l IH]; [reflexivity|]. cbn [map combine fst snd]. rewrite IH. reflexivity. Qed.

Lemma buffered_offered script p : In p (buffered script) -> In p (map snd (offered script)).
Proof.
  induction script as [|ev script IH]; [intros []|].
  destruct ev as [who q prior [|]| | | | | |]; cbn [buffered offered map snd In]; auto.
  intros [H|H]; auto.
Qed.

(* ---------------------------------------------------------------- A without carrier failure *)

(* in a quiet run every Send is accepted *)
Lemma laccepted_quiet script : laccepted script (map quiet_res (map cev_of script)) = offered script.
Proof.
  induction script as [|ev script IH]; [reflexivity|].
  destruct ev; cbn [map cev_of quiet_res laccepted offered]; rewrite IH; reflexivity.
Qed.

Lemma laccepted_app s1 : forall rs1 s2 rs2, length rs1 = length s1 ->
  laccepted (s1 ++ s2) (rs1 ++ rs2) = laccepted s1 rs1 ++ laccepted s2 rs2.
Proof.
  induction s1 as [|ev s1 IH]; intros [|r rs1] s2 rs2 L; try discriminate; [reflexivity|].
  injection L as L. destruct ev; cbn [app laccepted]; try (apply IH; exact L).
  destruct r; rewrite (IH _ _ _ L); reflexivity.
Qed.

Lemma lflushing_wf ev : lflushing ev -> lev_wf ev.
Proof. destruct ev as [who p prior [|]| | | | | |]; cbn; auto. Qed.

(* the last event of link_delivers on a healthy open connection: nothing stays in the buffer,
   the wire is everything accepted, and the event itself, if a Send, is accepted *)
Lemma flush_step s ev s' r :
  inv s -> healthy (c_enc s) -> c_closed s = false -> c_clfail s = false -> lflushing ev ->
  stepA s (cev_of ev) = (s', r) ->
  cn_wire s' = log_bytes (c_acc s') /\ e_buf (c_enc s') = [] /\ (r = CROk \/ r = CRNone) /\
  laccepted [ev] [r] = offered [ev].
Proof.
  intros I Hh C CF Fl H.
  assert (K : ev = LClose \/ lquiet ev /\ flushing_ev (cev_of ev)).
  { destruct ev as [who p prior [|]| | | | | |]; cbn [lflushing lquiet cev_of flushing_ev] in *; auto; contradiction. }
  destruct K as [-> | [Q F]].
  - destruct (close_flushes _ _ _ _ _ I Hh H) as (W & _ & _ & Bf & _ & RO). rewrite (RO C CF). auto.
  - pose proof (lquiet_quiet _ Q) as Q'.
    destruct (quiet_step _ _ _ _ _ _ Hh C Q' H) as ((B & _) & _ & -> & _ & Z).
    destruct (step_inv _ _ _ _ _ _ I (quiet_good _ Q') H) as (I1 & _). destruct (I1 B) as [_ WB].
    rewrite (Z F), app_nil_r in WB. split; [exact WB|]. split; [exact (Z F)|].
    destruct ev; cbn; auto.
Qed.

(* ---------------------------------------------------------------- B on a whole / truncated stream *)

Lemma snd_frames ps : map snd (map (frame_of wire_spec) ps) = ps.
Proof. rewrite map_map. cbn [frame_of snd]. apply map_id. Qed.

(* frames_codec, for the link's names *)
Lemma b_recv_whole limB ps cs eB :
  Forall wfp ps -> Forall (within limB) ps -> concat cs = concat (map wire_spec ps) ->
  let b := b_recv limB cs eB in
  a_frames b = map (frame_of wire_spec) ps /\ b_packets b = ps /\ a_err b = end_err eB 0 /\
  a_allocs b = map (alloc_of wire_spec) ps.
Proof.
  intros W L E b. destruct (frames_codec limB ps cs eB W L E) as (F1 & F2 & F3). fold (b_recv limB cs eB) in F1, F2, F3.
  fold b in F1, F2, F3. split; [exact F1|]. split; [|split; assumption].
  unfold b_packets. rewrite F1. apply snd_frames.
Qed.

(* a prefix of a concatenation of encodings: all of it, or whole encodings followed by the
   first j bytes (j < its length; j = 0: a packet boundary) of the next one *)
Lemma prefix_split : forall ps, Forall wfp ps -> forall w rest,
  w ++ rest = concat (map wire_spec ps) ->
  w = concat (map wire_spec ps) \/
  exists pre p post j, ps = pre ++ p :: post /\ j < len (wire_spec p) /\
    w = concat (map wire_spec pre) ++ takeN j (wire_spec p).
Proof.
  induction ps as [|p ps IH]; intros W w rest E.
  - cbn [map concat] in E. apply app_eq_nil in E. destruct E as [-> _]. left. reflexivity.
  - inversion W as [|? ? W1 W2]; subst. cbn [map concat] in E.
    destruct (app_eq_app _ _ _ _ E) as (l & [[E1 E2]|[E1 E2]]).
    + (* w covers the whole first encoding *)
      destruct (IH W2 l rest (eq_sym E2)) as [F|(pre & q & post & j & P1 & P2 & P3)].
      * left. cbn [map concat]. rewrite E1, F. reflexivity.
      * right. exists (p :: pre), q, post, j. split; [rewrite P1; reflexivity|]. split; [exact P2|].
        cbn [map concat]. rewrite E1, P3, app_assoc. reflexivity.
    + destruct l as [|x l].
      * (* exactly the first encoding *)
        rewrite app_nil_r in E1. cbn [app] in E2.
        destruct (IH W2 [] rest E2) as [F|(pre & q & post & j & P1 & P2 & P3)].
        -- left. cbn [map concat]. rewrite <- F, app_nil_r. symmetry. exact E1.
        -- right. exists (p :: pre), q, post, j. split; [rewrite P1; reflexivity|]. split; [exact P2|].
           cbn [map concat]. rewrite <- app_assoc, <- P3, app_nil_r. symmetry. exact E1.
      * (* a strict prefix of the first encoding *)
        right. exists [], p, ps, (len w). split; [reflexivity|]. split.
        -- rewrite E1, len_app, len_cons. lia.
        -- cbn [map concat app]. rewrite E1. symmetry. apply takeN_exact_app.
Qed.

(* B on any prefix of a concatenation of encodings: a prefix of the packets, then the end of
   the source seen j bytes into the next packet *)
Lemma b_recv_prefix limB ps cs eB rest :
  Forall wfp ps -> Forall (within limB) ps -> concat cs ++ rest = concat (map wire_spec ps) ->
  let b := b_recv limB cs eB in
  exists lost j,
    b_packets b ++ lost = ps /\
    a_frames b = map (frame_of wire_spec) (b_packets b) /\
    a_err b = end_err eB j /\
    match lost with
    | [] => j = 0 /\ concat cs = concat (map wire_spec (b_packets b))
    | p :: _ => j < len (wire_spec p) /\
                concat cs = concat (map wire_spec (b_packets b)) ++ takeN j (wire_spec p)
    end.
Proof.
  intros W L E b. destruct (prefix_split ps W _ _ E) as [F|(pre & p & post & j & P1 & P2 & P3)].
  - destruct (b_recv_whole limB ps cs eB W L F) as (F1 & F2 & F3 & _). fold b in F1, F2, F3.
    exists [], 0. rewrite F2, app_nil_r. repeat split; auto.
  - subst ps. apply Forall_app in W. destruct W as [Wa Wb]. inversion Wb as [|? ? Wp _]; subst.
    apply Forall_app in L. destruct L as [La Lb]. inversion Lb as [|? ? Lp _]; subst.
    destruct (truncation_codec limB pre p j cs eB (Forall_cons _ Wp Wa) (Forall_cons _ Lp La) P2 P3) as [T1 T2].
    fold (b_recv limB cs eB) in T1, T2. fold b in T1, T2.
    assert (BP : b_packets b = pre) by (unfold b_packets; rewrite T1; apply snd_frames).
    exists (p :: post), j. rewrite BP. repeat split; auto.
Qed.

(* ---------------------------------------------------------------- B as a BaseConn *)

Definition recv_results (a : dall) : list cres :=
  map (fun f => CRPacket (fst f) (snd f)) (a_frames a) ++ [CRRecvErr (a_err a)].

(* on an open connection whose SetReadDeadline does not fail, Receive called until the first
   error returns what dec_all returns: the packets, then that error *)
Lemma receives_dec_all detect decode fuel : forall s,
  c_closed s = false -> c_dlleft s = None ->
  let a := dec_all_f detect decode fuel (c_lim s) (c_dec s) in
  a_err a <> EOutOfFuel ->
  snd (cn_run detect decode s (repeat CReceive (S (length (a_frames a))))) = recv_results a.
Proof.
  induction fuel as [|f IH]; intros s C D a NF; [exfalso; apply NF; reflexivity|].
  unfold a in *. clear a. cbn [dec_all_f] in *.
  set (rd := dec_read detect decode (c_lim s) (c_dec s)) in *.
  destruct (r_res rd) as [fr p|er] eqn:RR.
  - cbn [a_frames a_err length] in *.
    change (repeat CReceive (S (S (length (a_frames (dec_all_f detect decode f (c_lim s) (r_state rd)))))))
      with (CReceive :: repeat CReceive (S (length (a_frames (dec_all_f detect decode f (c_lim s) (r_state rd)))))).
    cbn [cn_run cn_step]. fold rd. rewrite RR.
    assert (DL : carrier_deadline (set_dec s (r_state rd)) = (set_dec s (r_state rd), None)).
    { unfold carrier_deadline. cbn [set_dec c_closed c_dlc c_dlleft]. rewrite C, D. reflexivity. }
    rewrite DL.
    specialize (IH (set_dec s (r_state rd)) C D). cbn [set_dec c_lim c_dec] in IH. specialize (IH NF).
    destruct (cn_run detect decode (set_dec s (r_state rd)) _) as [s2 rs2]. cbn [snd] in *.
    rewrite IH. reflexivity.
  - cbn [a_frames a_err length repeat cn_run cn_step]. fold rd. rewrite RR. reflexivity.
Qed.

Lemma b_receives_recv limB cs eB :
  b_receives limB cs eB (S (length (a_frames (b_recv limB cs eB)))) = recv_results (b_recv limB cs eB).
Proof.
  unfold b_receives, b_recv, dec_all.
  apply (receives_dec_all detect_impl codec_decode (S (length (concat cs))) (b_init limB cs eB) eq_refl eq_refl).
  exact (dec_all_fuel_ok detect_impl codec_decode limB cs eB).
Qed.

(* ---------------------------------------------------------------- link_delivers *)

Section Delivers.
  (* A fresh connection A whose carrier does not fail; any interleaving of buffered and flushed
     Sends of well-formed packets by any goroutines, timer firings, delay and timeout changes,
     ended by a Close, a timer firing or a flushed Send; cs is ANY re-chunking of what A's
     carrier accepted; B reads cs and then the end of the stream eB. *)
  Variables (d0 : bool) (csA : list (list byte)) (eA : src_end) (limA : N) (dl : option N) (dlc : bool)
            (script : list lev) (last : lev) (sA : cstate) (rsA : list cres)
            (cs : list (list byte)) (limB : N) (eB : src_end).
  Hypothesis Q : Forall lquiet script.
  Hypothesis Fl : lflushing last.
  Hypothesis L : Forall (within limB) (map snd (offered (script ++ [last]))).
  Hypothesis H : a_run (a_init d0 None csA eA limA dl dlc false) (script ++ [last]) = (sA, rsA).
  Hypothesis RC : rechunk cs (link_chunks sA).

  Let ps := map snd (offered (script ++ [last])).

  (* THE LINK THEOREM.  Every Send (and the Close) returned nil, and B's decoder -- the real
     DetectPacket / Decode, limit not exceeded -- returns exactly the packets sent, each with
     exactly its encoding as byte range, in the order of the Send events, one allocation request
     of the packet's size each, and then a clean end (EOF for io.EOF). *)
  Theorem link_delivers :
    let b := b_recv limB cs eB in
    Forall (fun r => r = CROk \/ r = CRNone) rsA /\
    laccepted (script ++ [last]) rsA = offered (script ++ [last]) /\
    e_buf (c_enc sA) = [] /\
    a_frames b = map (frame_of wire_spec) ps /\
    b_packets b = ps /\
    a_err b = end_err eB 0 /\ (eB = SEof -> a_err b = EEof) /\
    a_allocs b = map (alloc_of wire_spec) ps.
  Proof.
    intros b. pose proof RC as RC'. unfold rechunk in RC'. change (concat (link_chunks sA)) with (cn_wire sA) in RC'.
    pose proof H as H0. unfold a_run, a_init in H0. pose proof H0 as H'. rewrite map_app in H'. cbn [map] in H'.
    destruct (run_snoc _ _ _ _ _ _ _ H') as (s1 & rs1 & r & RN & ST & E). rewrite E in *. clear E.
    destruct (quiet_run _ _ _ _ _ _ (inv_init _ _ _ _ _ _ _ _) (healthy_init d0) eq_refl (quiet_script _ Q) RN)
      as (I1 & H1 & C1 & F1 & E). rewrite E in *. clear E.
    destruct (flush_step _ _ _ _ I1 H1 C1 F1 Fl ST) as (W & Bf & R & A).
    assert (A' : laccepted (script ++ [last]) (map quiet_res (map cev_of script) ++ [r]) = offered (script ++ [last])).
    { rewrite laccepted_app by (rewrite !map_length; reflexivity). rewrite laccepted_quiet, A, offered_app. reflexivity. }
    assert (Wl : Forall lev_wf (script ++ [last])).
    { apply Forall_app. split; [exact (lquiet_script_wf _ Q) | constructor; [exact (lflushing_wf _ Fl) | constructor]]. }
    (* the wire is the accepted log, and that is the trace *)
    rewrite W, (run_acc _ _ _ _ _ _ H0) in RC'. cbn [cinit c_acc] in RC'. unfold log_bytes in RC'.
    rewrite app_nil_r, rev_involutive, (accepted_cev_of _ _ Wl), A', concat_enc_tag in RC'.
    destruct (b_recv_whole limB ps cs eB (offered_wf _ Wl) L RC') as (F1' & F2 & F3 & F4). fold b in F1', F2, F3, F4.
    split; [apply Forall_app; split; [apply quiet_res_ok | constructor; [exact R | constructor]]|].
    repeat split; auto. intros ->. exact F3.
  Qed.

  (* the packets of one sender goroutine arrive in the order that goroutine sent them: label
     the i-th packet B received with the goroutine of the i-th Send event; then for every
     goroutine g, the packets labelled g are exactly the packets g sent, in g's own order *)
  Theorem link_per_sender_order :
    let received := b_packets (b_recv limB cs eB) in
    let senders := map fst (offered (script ++ [last])) in
    length received = length senders /\
    forall g, map snd (filter (fun x => fst x =? g) (combine senders received)) = sent_by g (script ++ [last]).
  Proof.
    intros received senders. destruct link_delivers as (_ & _ & _ & _ & BP & _).
    unfold received, senders. rewrite BP. split; [unfold ps; rewrite !map_length; reflexivity|].
    intros g. unfold ps. rewrite combine_fst_snd. reflexivity.
  Qed.

  (* with B a BaseConn: n+1 Receive calls return the n packets sent, then EOF *)
  Theorem link_delivers_conn :
    b_receives limB cs eB (S (length ps)) =
    map (fun p => CRPacket (wire_spec p) p) ps ++ [CRRecvErr (end_err eB 0)].
  Proof.
    destruct link_delivers as (_ & _ & _ & F1 & _ & F3 & _).
    pose proof (b_receives_recv limB cs eB) as R. rewrite F1, map_length in R. rewrite R.
    unfold recv_results. rewrite F1, F3, map_map. reflexivity.
  Qed.

  (* with the decoder side's own model of DetectPacket (Dec.detect_go, C02) *)
  Theorem link_delivers_detect_go :
    let b := dec_all detect_go_view codec_decode limB cs eB in
    a_frames b = map (frame_of wire_spec) ps /\ a_err b = end_err eB 0.
  Proof.
    intros b. destruct link_delivers as (_ & _ & _ & F1 & _ & F3 & _).
    pose proof (dec_all_detect_go limB cs eB) as V. unfold aview in V. fold b in V.
    unfold b_recv in F1, F3. injection V as V1 V2 _ _. rewrite <- V1, <- V2. split; assumption.
  Qed.
End Delivers.

(* ---------------------------------------------------------------- Close loses nothing, end to end *)

(* everything accepted by Sends — buffered ones included — before a Close on a connection whose
   carrier has not failed reaches B, whole and in order, before B sees the end of the stream;
   Close returns nil.  (C19_close_loses_nothing composed with C03_frames_codec.) *)
Theorem link_close_loses_nothing :
  forall d0 csA eA limA dl dlc script sA rsA cs limB eB,
    Forall lquiet script ->
    Forall (within limB) (map snd (offered script)) ->
    a_run (a_init d0 None csA eA limA dl dlc false) (script ++ [LClose]) = (sA, rsA) ->
    rechunk cs (link_chunks sA) ->
    let b := b_recv limB cs eB in
    last rsA CRNone = CROk /\
    b_packets b = map snd (offered script) /\
    (forall p, In p (buffered script) -> In p (b_packets b)) /\
    a_err b = end_err eB 0 /\ (eB = SEof -> a_err b = EEof).
Proof.
  intros d0 csA eA limA dl dlc script sA rsA cs limB eB Q L H RC b.
  pose proof H as H'. unfold a_run, a_init in H'. rewrite map_app in H'. cbn [map cev_of] in H'.
  apply close_loses_nothing in H' as (_ & _ & _ & LR); [|exact (quiet_script _ Q)].
  assert (L' : Forall (within limB) (map snd (offered (script ++ [LClose])))).
  { rewrite offered_app. cbn [offered]. rewrite app_nil_r. exact L. }
  destruct (link_delivers d0 csA eA limA dl dlc script LClose sA rsA cs limB eB Q Logic.I L' H RC) as (_ & _ & _ & _ & BP & E1 & E2 & _).
  fold b in BP, E1, E2. rewrite offered_app in BP. cbn [offered] in BP. rewrite app_nil_r in BP.
  split; [exact LR|]. split; [exact BP|]. split; [|split; assumption].
  intros p HI. rewrite BP. apply buffered_offered. exact HI.
Qed.

Lemma laccepted_wf script rs : Forall lev_wf script -> Forall wfp (map snd (laccepted script rs)).
Proof.
  intros F. apply (Forall_map_in wfp snd _ (offered script)); [apply laccepted_in|apply offered_wf; exact F].
Qed.

Lemma laccepted_within limB script rs :
  Forall (within limB) (map snd (offered script)) -> Forall (within limB) (map snd (laccepted script rs)).
Proof. apply Forall_map_in. apply laccepted_in. Qed.

(* the same from ANY history — Sends of any kind, A's own Receives, timeouts, timer firings —
   as long as A's carrier has not failed when Close is called (C19_close_flushes composed):
   B receives exactly the packets whose Send returned nil, in order, then a clean end *)
Theorem link_close_flushes :
  forall d0 wl csA eA limA dl dlc cf script s1 rs1 sA r cs limB eB,
    Forall lev_wf script ->
    Forall (within limB) (map snd (offered script)) ->
    a_run (a_init d0 wl csA eA limA dl dlc cf) script = (s1, rs1) ->
    healthy (c_enc s1) ->
    stepA s1 CClose = (sA, r) ->
    rechunk cs (link_chunks sA) ->
    let b := b_recv limB cs eB in
    b_packets b = map snd (laccepted script rs1) /\
    a_frames b = map (frame_of wire_spec) (map snd (laccepted script rs1)) /\
    a_err b = end_err eB 0 /\
    (c_clfail s1 = false -> r = CROk).
Proof.
  intros d0 wl csA eA limA dl dlc cf script s1 rs1 sA r cs limB eB W L H Hh ST RC b.
  unfold a_run, a_init in H.
  pose proof (run_inv _ _ _ _ _ _ (inv_init d0 wl csA eA limA dl dlc cf) (good_script _ W) H) as I1.
  destruct (close_flushes _ _ _ _ _ I1 Hh ST) as (W2 & A2 & _ & _ & _ & RO).
  pose proof (run_acc _ _ _ _ _ _ H) as RA. cbn [cinit c_acc] in RA. rewrite app_nil_r in RA.
  unfold rechunk in RC. change (concat (link_chunks sA)) with (cn_wire sA) in RC. rewrite W2, A2 in RC. unfold log_bytes in RC.
  rewrite RA, rev_involutive, (accepted_cev_of _ _ W), concat_enc_tag in RC.
  destruct (b_recv_whole limB _ cs eB (laccepted_wf script rs1 W) (laccepted_within limB script rs1 L) RC)
    as (F1 & F2 & F3 & _). fold b in F1, F2, F3.
  split; [exact F2|]. split; [exact F1|]. split; [exact F3|].
  intros CF. apply RO; [|exact CF].
  destruct I1 as (_ & _ & _ & I4 & _). destruct (c_closed s1) eqn:C; [|reflexivity].
  destruct (I4 eq_refl) as (F & _). destruct Hh as (_ & _ & F0 & _). contradiction.
Qed.

(* ---------------------------------------------------------------- A with carrier failures *)

(* every entry of the sent log is the encoding of a well-formed packet some Send event of the
   script offered, with that event's goroutine *)
Lemma run_sent (P : N * list byte -> Prop) script : forall s s' rs,
  Forall lev_wf script ->
  (forall x, In x (offered script) -> P (enc_tag x)) ->
  runA s (map cev_of script) = (s', rs) ->
  Forall P (c_sent s) -> Forall P (c_sent s').
Proof.
  induction script as [|ev script IH]; intros s s' rs W HP H F; cbn [map cn_run] in H.
  - injection H as <- <-. exact F.
  - destruct (stepA s (cev_of ev)) as [s1 r] eqn:ST. destruct (runA s1 (map cev_of script)) as [s2 rs'] eqn:RN.
    injection H as <- <-. inversion W as [|? ? W1 W2]; subst.
    apply (IH s1 s2 rs' W2); [| exact RN |].
    + intros x HI. apply HP. destruct ev; cbn [offered]; try exact HI. right. exact HI.
    + rewrite (step_sent _ _ _ _ _ _ ST). destruct ev as [who p prior async| | | | | |]; cbn [cev_of]; try exact F.
      cbn [lev_wf] in W1. rewrite (enc_of_wf prior p W1). destruct (reached _); [|exact F].
      constructor; [|exact F]. apply (HP (who, p)). left. reflexivity.
Qed.

(* ---- the packet whose Send reported the failure is never whole on the wire *)

(* when the sent log is one entry ahead of the accepted log (a Send reported a failure),
   a non-empty part of that entry's bytes is missing from the wire *)
Definition short_wire (s : cstate) : Prop :=
  forall x, c_sent s = x :: c_acc s ->
    exists rest, rest <> [] /\ cn_wire s ++ rest = log_bytes (c_sent s).

Lemma cons_neq_self {A} (x : A) l : l <> x :: l.
Proof. intros E. apply (f_equal (@length _)) in E. cbn [length] in E. lia. Qed.

Lemma step_short s ev s' r :
  inv s -> short_wire s -> good_ev ev -> stepA s ev = (s', r) -> short_wire s'.
Proof.
  intros I J G H. destruct (e_berr (c_enc s)) as [cb|] eqn:B.
  - assert (B' : e_berr (c_enc s) <> None) by (rewrite B; discriminate).
    destruct (dead_step _ _ _ _ _ _ B' G H) as (_ & E1 & E2 & E3 & _).
    unfold short_wire. rewrite E1, E2, E3. exact J.
  - destruct I as (I1 & _). destruct (I1 B) as [SA WB]. unfold cn_wire in WB.
    intros x. rewrite (step_sent _ _ _ _ _ _ H), (step_acc _ _ _ _ _ _ H), SA.
    (* only a Send that reached the writer and failed puts the sent log ahead *)
    destruct ev as [who [bs|] async| | | | |z|]; try (intros E; destruct (cons_neq_self _ _ E)).
    unfold reached. rewrite B. destruct (e_aerr (c_enc s)) as [ca|] eqn:A; cbn [is_some negb andb];
      [destruct r; intros E; apply (f_equal (@length _)) in E; cbn [length] in E; lia|].
    destruct (step_mid _ _ _ _ _ _ H) as (cl & dl & -> & _ & R).
    destruct (fin_frame cl dl (mid detect_impl codec_decode s (CSend who (Some bs) async))) as (_ & _ & _ & _ & W & _).
    unfold cn_wire, wire_bytes. rewrite W. unfold mid in *. cbn [c_enc wop fst snd] in *.
    destruct (mw_write (c_enc s) bs (negb async)) as [e' [c|]] eqn:MW; cbn [fst snd] in *; destruct R as [_ ->];
      [|intros E; apply (f_equal (@length _)) in E; cbn [length] in E; lia].
    intros _. pose proof (mw_write_spec _ _ _ _ _ MW) as (_ & _ & M). rewrite A, B in M.
    destruct M as (_ & _ & _ & _ & rest & R1 & R2).
    exists rest. split; [exact R1|]. fold (wire_bytes e'). rewrite R2, app_assoc, WB, log_bytes_cons. reflexivity.
Qed.

Lemma run_short evs : forall s s' rs,
  inv s -> short_wire s -> Forall good_ev evs -> runA s evs = (s', rs) -> short_wire s'.
Proof.
  intros s s' rs I J G H.
  refine (proj2 (proj1 (run_invariant _ _ (fun x => inv x /\ short_wire x) good_ev (fun _ _ => True) _
                          evs s s' rs (conj I J) G H))).
  intros x ev x' r0 [Ix Jx] Gx ST.
  split; [split; [exact (step_inv _ _ _ _ _ _ Ix Gx ST) | exact (step_short _ _ _ _ Ix Jx Gx ST)] | exact Logic.I].
Qed.

Lemma short_init d0 wl cs e lim dl dlc cf : short_wire (cinit d0 wl cs e lim dl dlc cf).
Proof. intros x E. discriminate E. Qed.

Section Failure.
  (* ANY script on A -- Sends of well-formed packets by any goroutines, buffered or flushed, timer
     firings, A's own Receives, Close anywhere, Sends after Close -- over ANY failing carrier
     (refusing writes after k Write calls, or from some event on), and ANY re-chunking cs of
     whatever A's carrier accepted *)
  Variables (d0 : bool) (wl : option N) (csA : list (list byte)) (eA : src_end) (limA : N) (dl : option N)
            (dlc cf : bool) (script : list lev) (sA : cstate) (rsA : list cres)
            (cs : list (list byte)) (limB : N) (eB : src_end).
  Hypothesis W : Forall lev_wf script.
  Hypothesis L : Forall (within limB) (map snd (offered script)).
  Hypothesis H : a_run (a_init d0 wl csA eA limA dl dlc cf) script = (sA, rsA).
  Hypothesis RC : rechunk cs (link_chunks sA).

  (* LINK, FAILURE SIDE.  B decodes a PREFIX of
         the packets whose Send returned nil, in the order of their Send events,
         followed by at most one more packet: that of the Send that reported the failure
     and then stops: at a packet boundary (j = 0: EOF for io.EOF) or j bytes into the next packet
     of that list (ErrUnexpectedEOF for io.EOF) -- never a packet that was not sent, never a
     reordering, never a packet made from partial bytes.  `lost` is what did not arrive. *)
  Theorem link_prefix_on_failure :
    let b := b_recv limB cs eB in
    exists extra lost j,
      (extra = [] \/
       exists x, extra = [snd x] /\ In x (offered script) /\ e_berr (c_enc sA) <> None /\ lost <> []) /\
      b_packets b ++ lost = map snd (laccepted script rsA) ++ extra /\
      a_frames b = map (frame_of wire_spec) (b_packets b) /\
      a_err b = end_err eB j /\
      match lost with
      | [] => j = 0 /\ concat cs = concat (map wire_spec (b_packets b))
      | p :: _ => j < len (wire_spec p) /\
                  concat cs = concat (map wire_spec (b_packets b)) ++ takeN j (wire_spec p)
      end.
  Proof.
    intros b. pose proof H as H0. unfold a_run, a_init in H0. pose proof RC as RC'.
    pose proof H0 as WH. apply whole in WH as ((rest & PW) & SA & RA); [|exact (good_script _ W)].
    unfold rechunk in RC'. change (concat (link_chunks sA)) with (cn_wire sA) in RC'.
    rewrite (accepted_cev_of _ _ W) in RA.
    assert (LA : log_bytes (c_acc sA) = concat (map wire_spec (map snd (laccepted script rsA)))).
    { unfold log_bytes. rewrite RA. apply concat_enc_tag. }
    assert (SW : Forall (fun x => exists y, In y (offered script) /\ x = enc_tag y) (c_sent sA)).
    { refine (run_sent _ script _ _ _ W _ H0 _); [|constructor]. intros x HI. exists x. auto. }
    set (acc := map snd (laccepted script rsA)) in *.
    pose proof (run_short _ _ _ _ (inv_init d0 wl csA eA limA dl dlc cf) (short_init d0 wl csA eA limA dl dlc cf)
                  (good_script _ W) H0) as SH.
    assert (G : exists extra,
              (extra = [] \/ exists x, extra = [snd x] /\ In x (offered script) /\ e_berr (c_enc sA) <> None /\
                                       exists rest0, rest0 <> [] /\ cn_wire sA ++ rest0 = log_bytes (c_sent sA)) /\
              log_bytes (c_sent sA) = concat (map wire_spec (acc ++ extra)) /\
              Forall wfp (acc ++ extra) /\ Forall (within limB) (acc ++ extra)).
    { destruct SA as [E|(x & E & B)].
      - exists []. rewrite app_nil_r. split; [left; reflexivity|]. split; [rewrite E; exact LA|].
        split; [exact (laccepted_wf script rsA W)|exact (laccepted_within limB script rsA L)].
      - rewrite E in SW. inversion SW as [|? ? (y & Y1 & Y2) _]; subst.
        exists [snd y]. split; [right; exists y; split; [reflexivity|]; split; [exact Y1|]; split; [exact B|exact (SH _ E)]|]. split.
        + rewrite E, log_bytes_cons, LA, map_app, concat_app. cbn [enc_tag snd map concat]. rewrite app_nil_r. reflexivity.
        + pose proof (offered_wf script W) as OW. pose proof L as L'. rewrite Forall_forall in OW, L'.
          split; apply Forall_app; split.
          * exact (laccepted_wf script rsA W).
          * constructor; [|constructor]. apply OW. apply in_map. exact Y1.
          * exact (laccepted_within limB script rsA L).
          * constructor; [|constructor]. apply L'. apply in_map. exact Y1. }
    destruct G as (extra & EX & LB & Wf & Lf).
    rewrite LB, <- RC' in PW.
    destruct (b_recv_prefix limB (acc ++ extra) cs eB rest Wf Lf PW) as (lost & j & P1 & P2 & P3 & P4). fold b in P1, P2, P3, P4.
    exists extra, lost, j. split; [|auto].
    destruct EX as [EX|(x & X1 & X2 & X3 & rest0 & X4 & X5)]; [left; exact EX|].
    right. exists x. split; [exact X1|]. split; [exact X2|]. split; [exact X3|].
    intros ->. destruct P4 as (_ & P4). rewrite app_nil_r in P1. rewrite P1, <- LB, RC' in P4.
    rewrite <- (app_nil_r (cn_wire sA)) in P4 at 1. rewrite <- X5 in P4.
    apply app_inv_head in P4. apply X4. symmetry. exact P4.
  Qed.

  (* hence: what B receives is a prefix of the packets whose Send returned nil to its caller —
     B never gets a packet whose Send reported the failure *)
  Theorem link_prefix_of_accepted :
    let b := b_recv limB cs eB in
    prefix_of (b_packets b) (map snd (laccepted script rsA)) /\
    prefix_of (a_frames b) (map (frame_of wire_spec) (map snd (laccepted script rsA))) /\
    a_frames b = map (frame_of wire_spec) (b_packets b) /\
    (exists j, a_err b = end_err eB j) /\
    (eB = SEof -> a_err b = EEof \/ a_err b = EUnexpectedEof).
  Proof.
    intros b. destruct link_prefix_on_failure as (extra & lost & j & EX & P1 & P2 & P3 & _).
    fold b in P1, P2, P3.
    assert (PF : prefix_of (b_packets b) (map snd (laccepted script rsA))).
    { destruct EX as [->|(x & -> & _ & _ & NL)].
      - rewrite app_nil_r in P1. exists lost. exact P1.
      - destruct (exists_last NL) as (lost' & q & ->). rewrite app_assoc in P1.
        apply app_inj_tail in P1. destruct P1 as [P1 _]. exists lost'. exact P1. }
    split; [exact PF|]. split.
    { rewrite P2. destruct PF as (rest & <-). exists (map (frame_of wire_spec) rest). rewrite map_app. reflexivity. }
    split; [exact P2|]. split; [exists j; exact P3|].
    intros ->. rewrite P3. unfold end_err. destruct (j =? 0); auto.
  Qed.
End Failure.

