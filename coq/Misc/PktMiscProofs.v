(* PktMiscProofs.v — the obvious facts about the small functions of PktMisc.v. *)
From Coq Require Import List NArith Bool Lia.
From Coq.Strings Require Import Byte.
From GM Require Import Codec.Packet Codec.PacketEqb Misc.PktMisc.
Import ListNotations.
Open Scope N_scope.

Lemma qos_successful_iff q : qos_successful q = true <-> q <= 2.
Proof.
  unfold qos_successful. rewrite !orb_true_iff, !N.eqb_eq. lia.
Qed.

Lemma qos_failure_not_successful : qos_successful 128 = false.
Proof. reflexivity. Qed.

Lemma id_valid_iff id : id_valid id = true <-> id <> 0.
Proof. unfold id_valid. rewrite negb_true_iff, N.eqb_neq. tauto. Qed.

Lemma connack_valid_iff c : connack_valid c = true <-> c <= 5.
Proof. unfold connack_valid. apply N.leb_le. Qed.

(* the six valid codes, enumerated *)
Lemma le5_cases c : c <= 5 -> c = 0 \/ c = 1 \/ c = 2 \/ c = 3 \/ c = 4 \/ c = 5.
Proof. lia. Qed.

Lemma connack_string_invalid c : 5 < c -> connack_string c = connack_invalid_string.
Proof.
  intros H. destruct c as [|p]; [lia|].
  destruct p as [[[q|q|]|[q|q|]|]|[[q|q|]|[q|q|]|]|]; try reflexivity; lia.
Qed.

Definition connack_code (t : bytes) : option N := find (fun c => bytes_eqb (connack_string c) t) [0; 1; 2; 3; 4; 5].

Lemma connack_code_string c : c <= 5 -> connack_code (connack_string c) = Some c.
Proof. intros H. destruct (le5_cases c H) as [->|[->|[->|[->|[->| ->]]]]]; reflexivity. Qed.

(* Valid and String agree: the text is "invalid connack code" exactly for the invalid codes *)
Lemma connack_string_valid_iff c : connack_string c = connack_invalid_string <-> connack_valid c = false.
Proof.
  unfold connack_valid. rewrite N.leb_gt. split; [|apply connack_string_invalid].
  intros H. destruct (N.le_gt_cases c 5) as [L|G]; [|exact G].
  apply connack_code_string in L. rewrite H in L. discriminate L.
Qed.

(* different valid codes have different texts *)
Lemma connack_string_inj c d : c <= 5 -> d <= 5 -> connack_string c = connack_string d -> c = d.
Proof. intros Hc Hd H. apply connack_code_string in Hc, Hd. rewrite H in Hc. congruence. Qed.

(* Type *)
Lemma type_of_code_some t p : type_of_code t = Some p -> t = type_code p.
Proof.
  destruct t as [|q]; [discriminate|].
  destruct q as [[[[r|r|]|[r|r|]|]|[[r|r|]|[r|r|]|]|]|[[[r|r|]|[r|r|]|]|[[r|r|]|[r|r|]|]|]|]; cbn; intros H; try discriminate H; injection H as <-; reflexivity.
Qed.

Lemma type_of_code_code p : type_of_code (type_code p) = Some p.
Proof. destruct p; reflexivity. Qed.

Lemma type_code_range p : 1 <= type_code p <= 14.
Proof. destruct p; cbn; lia. Qed.

Lemma type_valid_iff t : type_valid t = true <-> exists p, type_of_code t = Some p.
Proof.
  unfold type_valid. rewrite andb_true_iff, !N.leb_le. split.
  - intros [L U].
    assert (C : t = 1 \/ t = 2 \/ t = 3 \/ t = 4 \/ t = 5 \/ t = 6 \/ t = 7 \/ t = 8 \/ t = 9 \/ t = 10 \/
                t = 11 \/ t = 12 \/ t = 13 \/ t = 14) by lia.
    repeat (destruct C as [->|C]; [eexists; reflexivity|]). subst t. eexists; reflexivity.
  - intros [p H]. apply type_of_code_some in H. subst t. apply type_code_range.
Qed.

Lemma type_name_known p : type_name p <> type_unknown.
Proof. destruct p; discriminate. Qed.

Lemma type_name_inj p q : type_name p = type_name q -> p = q.
Proof.
  assert (F : forall r, find (fun x => bytes_eqb (type_name x) (type_name r)) all_types = Some r) by (intros r; destruct r; reflexivity).
  intros H. pose proof (F p) as X. rewrite H, F in X. congruence.
Qed.

Lemma type_string_code p : type_string (type_code p) = type_name p.
Proof. unfold type_string. rewrite type_of_code_code. reflexivity. Qed.

(* Valid and String agree: "Unknown" exactly for the invalid types *)
Lemma type_string_valid_iff t : type_string t = type_unknown <-> type_valid t = false.
Proof.
  unfold type_string. destruct (type_of_code t) as [p|] eqn:E.
  - split; [intros H; exfalso; exact (type_name_known p H)|].
    intros H. assert (V : type_valid t = true) by (apply type_valid_iff; eexists; exact E). congruence.
  - split; [|reflexivity]. intros _. destruct (type_valid t) eqn:V; [|reflexivity].
    apply type_valid_iff in V. destruct V as [p V]. congruence.
Qed.

(* different valid types have different names *)
Lemma type_string_inj t u : type_valid t = true -> type_valid u = true -> type_string t = type_string u -> t = u.
Proof.
  intros Vt Vu. apply type_valid_iff in Vt, Vu. destruct Vt as [p Hp], Vu as [q Hq].
  unfold type_string. rewrite Hp, Hq. intros H. apply type_name_inj in H. subst q.
  apply type_of_code_some in Hp, Hq. congruence.
Qed.

(* Message.Copy *)
Lemma message_copy_eq m : message_copy m = m.
Proof. destruct m; reflexivity. Qed.

Lemma message_copy_eqb m : message_eqb (message_copy m) m = true.
Proof.
  rewrite message_copy_eq. apply message_eqb_refl.
Qed.

(* Message.String is inside the model exactly for ASCII topics *)
Lemma quote_byte_some b : (exists x, quote_byte b = Some x) <-> Byte.to_N b < 128.
Proof.
  unfold quote_byte. destruct (128 <=? Byte.to_N b) eqn:E.
  - apply N.leb_le in E. split; [intros [x H]; discriminate|lia].
  - apply N.leb_gt in E. split; [intros _; exact E|]. intros _.
    repeat match goal with |- exists x, (if ?c then _ else _) = Some x => destruct c end; eexists; reflexivity.
Qed.

Lemma quote_body_some s : (exists x, quote_body s = Some x) <-> forallb (fun b => Byte.to_N b <? 128) s = true.
Proof.
  induction s as [|b s IH]; cbn [quote_body forallb].
  - split; [reflexivity|eexists; reflexivity].
  - rewrite andb_true_iff, N.ltb_lt, <- IH, <- quote_byte_some. split.
    + intros [x H]. destruct (quote_byte b) as [y|]; [|discriminate]. destruct (quote_body s) as [z|]; [|discriminate].
      split; eexists; reflexivity.
    + intros [[y Hy] [z Hz]]. rewrite Hy, Hz. eexists; reflexivity.
Qed.

Lemma message_string_defined m :
  (exists x, message_string m = Some x) <-> forallb (fun b => Byte.to_N b <? 128) (m_topic m) = true.
Proof.
  rewrite <- quote_body_some. unfold message_string, quote_go.
  destruct (quote_body (m_topic m)) as [q|]; split; intros [x H]; try discriminate; eexists; reflexivity.
Qed.
