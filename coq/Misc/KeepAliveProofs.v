(* KeepAliveProofs.v — facts about the keep-alive arithmetic of KeepAlive.v. *)
From Coq Require Import NArith ZArith Bool Lia ZifyN ZifyBool.
From GM Require Import Misc.KeepAlive.
Open Scope N_scope.

(* ---- the float64 detour -------------------------------------------------- *)

(* below 2^53 the conversion is exact, so the grace period is r / 2 rounded down *)
Lemma grace_exact r : r < 2 ^ 53 -> grace r = r / 2.
Proof.
  intros H. unfold grace, f64_of_int.
  destruct (r <? 2 ^ 53) eqn:E; [reflexivity|]. apply N.ltb_ge in E. lia.
Qed.

(* the bound is sharp in the sense that the integer formula is wrong for a value
   just above it: float64(2^53+3) = 2^53+4 (tie, even significand) *)
Lemma grace_inexact_above : grace (2 ^ 53 + 3) = 2 ^ 52 + 2 /\ (2 ^ 53 + 3) / 2 = 2 ^ 52 + 1.
Proof. split; vm_compute; reflexivity. Qed.

(* every value below 2^53+3 still agrees (2^53, 2^53+1 -> 2^53, 2^53+2): so
   2^53+3 is the first value on which r + r/2 differs from the Go expression *)
Lemma grace_exact_upto r : r < 2 ^ 53 + 3 -> grace r = r / 2.
Proof.
  intros H. destruct (N.lt_ge_cases r (2 ^ 53)) as [L|G]; [apply grace_exact; exact L|].
  assert (C : r = 9007199254740992 \/ r = 9007199254740993 \/ r = 9007199254740994) by lia.
  destruct C as [-> | [-> | ->]]; vm_compute; reflexivity.
Qed.

(* ---- the enforced keep alive -------------------------------------------- *)

Lemma eff_max_pos m : 0 < eff_max m.
Proof.
  unfold eff_max, default_max_keep_alive, second. destruct (m <=? 0)%Z eqn:E; lia.
Qed.

Lemma eff_max_default m : (m <= 0)%Z -> eff_max m = 300 * second.
Proof. intros H. unfold eff_max. destruct (m <=? 0)%Z eqn:E; [reflexivity|lia]. Qed.

Lemma eff_max_set m : (0 < m)%Z -> eff_max m = Z.to_N m.
Proof. intros H. unfold eff_max. destruct (m <=? 0)%Z eqn:E; [lia|reflexivity]. Qed.

Lemma requested_small ka : ka < 65536 -> requested ka < 2 ^ 53.
Proof. unfold requested, second. lia. Qed.

Lemma eff_keep_alive_zero m : eff_keep_alive m 0 = eff_max m.
Proof. reflexivity. Qed.

Lemma eff_keep_alive_min m ka : 0 < ka -> eff_keep_alive m ka = N.min (requested ka) (eff_max m).
Proof.
  intros H. unfold eff_keep_alive, requested, second.
  destruct (ka * 1000000000 =? 0) eqn:E0; [lia|].
  destruct (eff_max m <? ka * 1000000000) eqn:E1; cbn [orb]; lia.
Qed.

Lemma eff_keep_alive_range m ka : N.min second (eff_max m) <= eff_keep_alive m ka <= eff_max m.
Proof.
  destruct (N.eq_dec ka 0) as [->|Hk]; [rewrite eff_keep_alive_zero; lia|].
  rewrite eff_keep_alive_min by lia. unfold requested, second. lia.
Qed.

Lemma eff_keep_alive_pos m ka : 0 < eff_keep_alive m ka.
Proof. pose proof (eff_keep_alive_range m ka). pose proof (eff_max_pos m). unfold second in *. lia. Qed.

Lemma eff_keep_alive_small m ka : eff_max m < 2 ^ 53 -> eff_keep_alive m ka < 2 ^ 53.
Proof. intros Hm. pose proof (eff_keep_alive_range m ka). lia. Qed.

(* ---- the read timeout ---------------------------------------------------- *)

Lemma int64_of_bits_small n : n < 2 ^ 63 -> int64_of_bits n = Z.of_N n.
Proof.
  intros H. unfold int64_of_bits. rewrite N.mod_small by lia.
  destruct (n <? 2 ^ 63) eqn:E; [reflexivity|lia].
Qed.

(* whenever the enforced keep alive is below 2^53 ns (104 days) the Go expression is r + r/2 *)
Lemma read_timeout_of_small m ka :
  eff_keep_alive m ka < 2 ^ 53 ->
  read_timeout m ka = Z.of_N (one_and_a_half (eff_keep_alive m ka)).
Proof.
  intros H. unfold read_timeout, one_and_a_half.
  rewrite grace_exact by exact H.
  apply int64_of_bits_small. pose proof (N.div_le_upper_bound (eff_keep_alive m ka) 2 (eff_keep_alive m ka)). lia.
Qed.

(* in particular whenever MaximumKeepAlive is below 2^53 ns, for every keep alive the packet can carry (and beyond) *)
Lemma read_timeout_exact m ka : eff_max m < 2 ^ 53 ->
  read_timeout m ka = Z.of_N (one_and_a_half (eff_keep_alive m ka)).
Proof. intros Hm. apply read_timeout_of_small, eff_keep_alive_small, Hm. Qed.

(* a request at or below the maximum is honoured whatever the maximum is
   (no restriction on MaximumKeepAlive: the requested value itself is small) *)
Lemma read_timeout_uncapped m ka : 0 < ka -> requested ka < 2 ^ 53 -> requested ka <= eff_max m ->
  read_timeout m ka = Z.of_N (one_and_a_half (requested ka)).
Proof.
  intros Hk Hs Hle.
  assert (E : eff_keep_alive m ka = requested ka) by (rewrite eff_keep_alive_min by exact Hk; lia).
  rewrite read_timeout_of_small; rewrite E; [reflexivity|exact Hs].
Qed.

(* = 1.5 * min(requested, maximum) for a non-zero request *)
Lemma read_timeout_formula m ka : 0 < ka -> eff_max m < 2 ^ 53 ->
  read_timeout m ka = Z.of_N (one_and_a_half (N.min (requested ka) (eff_max m))).
Proof.
  intros Hk Hm. rewrite read_timeout_exact by exact Hm. rewrite eff_keep_alive_min by exact Hk. reflexivity.
Qed.

(* keep alive 0 ("no keep alive requested") gets the maximum *)
Lemma read_timeout_zero m : eff_max m < 2 ^ 53 ->
  read_timeout m 0 = Z.of_N (one_and_a_half (eff_max m)).
Proof. intros Hm. rewrite read_timeout_exact by exact Hm. reflexivity. Qed.

Lemma one_and_a_half_mono a b : a <= b -> one_and_a_half a <= one_and_a_half b.
Proof. unfold one_and_a_half. intros H. pose proof (N.div_le_mono a b 2). lia. Qed.

Lemma one_and_a_half_strict a b : a < b -> one_and_a_half a < one_and_a_half b.
Proof. unfold one_and_a_half. intros H. pose proof (N.div_le_mono a b 2). lia. Qed.

(* within [1.5 * min(1 s, maximum), 1.5 * maximum] *)
Lemma read_timeout_bounds m ka : eff_max m < 2 ^ 53 ->
  (Z.of_N (one_and_a_half (N.min second (eff_max m))) <= read_timeout m ka
   <= Z.of_N (one_and_a_half (eff_max m)))%Z.
Proof.
  intros Hm. rewrite read_timeout_exact by assumption.
  destruct (eff_keep_alive_range m ka) as [L U].
  pose proof (one_and_a_half_mono _ _ L). pose proof (one_and_a_half_mono _ _ U). lia.
Qed.

(* with a maximum of at least one second: within [1.5 s, 1.5 * maximum] *)
Lemma read_timeout_bounds_1s m ka : second <= eff_max m -> eff_max m < 2 ^ 53 ->
  (1500000000 <= read_timeout m ka <= Z.of_N (one_and_a_half (eff_max m)))%Z.
Proof.
  intros H1 Hm. pose proof (read_timeout_bounds m ka Hm) as B.
  replace (N.min second (eff_max m)) with second in B by lia.
  change (Z.of_N (one_and_a_half second)) with 1500000000%Z in B. exact B.
Qed.

(* never zero, never negative: a read timeout <= 0 would mean "no deadline" in transport.BaseConn *)
Lemma read_timeout_pos m ka : eff_max m < 2 ^ 53 -> (0 < read_timeout m ka)%Z.
Proof.
  intros Hm. rewrite read_timeout_exact by assumption.
  pose proof (eff_keep_alive_pos m ka). unfold one_and_a_half. lia.
Qed.

(* monotone in the request over all non-zero requests (saturating at the maximum) *)
Lemma read_timeout_mono m ka1 ka2 : 0 < ka1 -> ka1 <= ka2 -> eff_max m < 2 ^ 53 ->
  (read_timeout m ka1 <= read_timeout m ka2)%Z.
Proof.
  intros H1 H12 Hm. rewrite !read_timeout_formula by lia.
  assert (N.min (requested ka1) (eff_max m) <= N.min (requested ka2) (eff_max m))
    by (unfold requested, second; lia).
  pose proof (one_and_a_half_mono _ _ H). lia.
Qed.

(* strictly monotone below the maximum *)
Lemma read_timeout_strict m ka1 ka2 : 0 < ka1 -> ka1 < ka2 -> requested ka2 < 2 ^ 53 -> requested ka2 <= eff_max m ->
  (read_timeout m ka1 < read_timeout m ka2)%Z.
Proof.
  intros H1 H12 H2 Hle.
  assert (requested ka1 < requested ka2) by (unfold requested, second; lia).
  rewrite !read_timeout_uncapped by lia.
  pose proof (one_and_a_half_strict _ _ H). lia.
Qed.

(* no request is given more time than "no request" (keep alive 0) *)
Lemma read_timeout_zero_is_max m ka : eff_max m < 2 ^ 53 -> (read_timeout m ka <= read_timeout m 0)%Z.
Proof. intros Hm. rewrite read_timeout_zero by assumption. apply (read_timeout_bounds m ka Hm). Qed.

(* without the bound on MaximumKeepAlive positivity fails: MaximumKeepAlive =
   math.MaxInt64 ("unlimited") and keep alive 0 wrap to a negative timeout *)
Lemma read_timeout_unbounded_negative :
  (read_timeout 9223372036854775807 0 < 0)%Z /\ (0 < read_timeout 9223372036854775807 65535)%Z.
Proof. split; vm_compute; reflexivity. Qed.

Lemma read_timeout_unbounded_refuted : exists m ka, ka < 65536 /\ ~ (0 < read_timeout m ka)%Z.
Proof.
  exists 9223372036854775807%Z, 0. split; [reflexivity|].
  pose proof (proj1 read_timeout_unbounded_negative) as G. lia.
Qed.

(* ---- the token defaults -------------------------------------------------- *)

Lemma eff_count_pos n : 0 < eff_count n.
Proof. unfold eff_count, default_count. destruct (n <=? 0)%Z eqn:E; lia. Qed.

Lemma eff_count_spec n : eff_count n = if (0 <? n)%Z then Z.to_N n else 10.
Proof. unfold eff_count, default_count. destruct (n <=? 0)%Z eqn:E, (0 <? n)%Z eqn:F; try reflexivity; lia. Qed.

Lemma eff_token_timeout_nonzero t : eff_token_timeout t <> 0%Z.
Proof. unfold eff_token_timeout, default_token_timeout, second. destruct (t =? 0)%Z eqn:E; lia. Qed.

(* the ack queue can take one acknowledgement per outstanding publish and subscribe token *)
Lemma ack_queue_cap_spec pp ps : ack_queue_cap pp ps = eff_count pp + eff_count ps /\ 2 <= ack_queue_cap pp ps.
Proof.
  unfold ack_queue_cap. pose proof (eff_count_pos pp). pose proof (eff_count_pos ps). lia.
Qed.

Lemma tokens_ok pp ps tt :
  0 < eff_count pp /\ eff_token_timeout tt <> 0%Z /\
  ack_queue_cap pp ps = eff_count pp + eff_count ps /\ 2 <= ack_queue_cap pp ps.
Proof.
  exact (conj (eff_count_pos pp) (conj (eff_token_timeout_nonzero tt) (ack_queue_cap_spec pp ps))).
Qed.
