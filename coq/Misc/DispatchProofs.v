(* DispatchProofs.v — facts about the scheme dispatch of Dispatch.v. *)
From Coq Require Import List NArith Bool Lia.
From Coq.Strings Require Import Byte.
From GM Require Import Codec.Packet Codec.PacketEqb Misc.Dispatch.
Import ListNotations.
Open Scope N_scope.

Lemma dial_kind_find s : dial_kind s = option_map snd (find (fun e => bytes_eqb s (fst e)) scheme_table).
Proof.
  unfold dial_kind. cbn [scheme_table find fst snd].
  destruct (bytes_eqb s s_tcp); [reflexivity|]. destruct (bytes_eqb s s_mqtt); [reflexivity|].
  destruct (bytes_eqb s s_tls); [reflexivity|]. destruct (bytes_eqb s s_ssl); [reflexivity|].
  destruct (bytes_eqb s s_mqtts); [reflexivity|]. destruct (bytes_eqb s s_ws); [reflexivity|].
  destruct (bytes_eqb s s_wss); reflexivity.
Qed.

Lemma dial_kind_table s k : dial_kind s = Some k <-> In (s, k) scheme_table.
Proof.
  split.
  - rewrite dial_kind_find. destruct (find _ scheme_table) as [[n k']|] eqn:F; [|discriminate].
    intros H; injection H as <-. apply find_some in F as [Hin E]. apply bytes_eqb_eq in E. cbn [fst] in E. subst n. exact Hin.
  - intros H. cbn [In scheme_table] in H. repeat (destruct H as [H|H]; [injection H as <- <-; reflexivity|]). destruct H.
Qed.

(* Launch and Dial dispatch identically *)
Lemma launch_agrees s : launch_kind s = dial_kind s.
Proof. reflexivity. Qed.

(* each supported name has exactly one kind *)
Lemma table_functional s k1 k2 : In (s, k1) scheme_table -> In (s, k2) scheme_table -> k1 = k2.
Proof. intros H1 H2. apply dial_kind_table in H1, H2. congruence. Qed.

Lemma table_names_distinct : NoDup (map fst scheme_table).
Proof.
  cbn. repeat constructor; cbn; intros H;
    repeat (destruct H as [H|H]; [discriminate H|]); exact H.
Qed.

(* every supported name is a well-formed, lower-case scheme: none of them can be a parse error *)
Lemma table_names_ok s k : In (s, k) scheme_table -> scheme_ok s = true /\ lower s = s.
Proof.
  intros H. cbn [In scheme_table] in H. repeat (destruct H as [H|H]; [injection H as <- _; split; reflexivity|]). destruct H.
Qed.

(* byte level: lower-casing keeps scheme characters and is idempotent *)
Lemma lower_byte_facts b :
  is_letter (lower_byte b) = is_letter b /\ is_scheme_char (lower_byte b) = is_scheme_char b /\
  lower_byte (lower_byte b) = lower_byte b.
Proof. destruct b; vm_compute; auto. Qed.

Lemma lower_idem s : lower (lower s) = lower s.
Proof. unfold lower. rewrite map_map. apply map_ext. intros b. apply lower_byte_facts. Qed.

Lemma scheme_ok_lower s : scheme_ok (lower s) = scheme_ok s.
Proof.
  destruct s as [|b r]; [reflexivity|]. cbn [lower map scheme_ok]. rewrite (proj1 (lower_byte_facts b)). f_equal.
  induction r as [|c r IH]; [reflexivity|]. cbn [map forallb]. rewrite (proj1 (proj2 (lower_byte_facts c))), IH. reflexivity.
Qed.

(* the outcome does not depend on the case the scheme is written in *)
Lemma dispatch_case_insensitive kind s : dispatch kind (Some (lower s)) = dispatch kind (Some s).
Proof. unfold dispatch. rewrite scheme_ok_lower, lower_idem. reflexivity. Qed.

(* the three outcomes, characterised *)
Lemma dial_parse_error s : dial_outcome (Some s) = OParseError <-> scheme_ok s = false.
Proof.
  unfold dial_outcome, dispatch. destruct (scheme_ok s); [|tauto].
  destruct (dial_kind (lower s)); split; discriminate.
Qed.

Lemma dial_supported s k : dial_outcome (Some s) = OKind k <-> scheme_ok s = true /\ In (lower s, k) scheme_table.
Proof.
  unfold dial_outcome, dispatch. rewrite <- dial_kind_table. destruct (scheme_ok s).
  - destruct (dial_kind (lower s)) as [k'|]; split.
    + intros H; injection H as <-. tauto.
    + intros [_ H]; injection H as <-. reflexivity.
    + discriminate.
    + intros [_ H]; discriminate.
  - split; [discriminate|intros [H _]; discriminate].
Qed.

Lemma dial_unsupported s :
  dial_outcome (Some s) = OUnsupported <-> scheme_ok s = true /\ forall k, ~ In (lower s, k) scheme_table.
Proof.
  unfold dial_outcome, dispatch. destruct (scheme_ok s).
  - destruct (dial_kind (lower s)) as [k'|] eqn:E; split.
    + discriminate.
    + intros [_ H]. exfalso. apply (H k'). apply dial_kind_table. exact E.
    + intros _. split; [reflexivity|]. intros k H. apply dial_kind_table in H. congruence.
    + reflexivity.
  - split; [discriminate|intros [H _]; discriminate].
Qed.

Lemma no_scheme_unsupported kind : dispatch kind None = OUnsupported.
Proof. reflexivity. Qed.

Lemma launch_outcome_agrees w : launch_outcome w = dial_outcome w.
Proof. reflexivity. Qed.

(* default ports *)
Lemma default_ports_documented :
  default_port no_ports KNet = 1883 /\ default_port no_ports KTls = 8883 /\
  default_port no_ports KWs = 80 /\ default_port no_ports KWss = 443.
Proof. repeat split; reflexivity. Qed.

Lemma default_ports_configured a b c d :
  let cfg := Ports (Some a) (Some b) (Some c) (Some d) in
  default_port cfg KNet = a /\ default_port cfg KTls = b /\ default_port cfg KWs = c /\ default_port cfg KWss = d.
Proof. repeat split; reflexivity. Qed.

(* what the tie observes identifies the kind: two kinds that reach the same servers in the same way are equal *)
Lemma reaches_identifies k1 k2 : (forall srv, reaches k1 srv = reaches k2 srv) -> k1 = k2.
Proof.
  intros H. pose proof (H KNet) as A. pose proof (H KTls) as B. pose proof (H KWs) as C. pose proof (H KWss) as D.
  destruct k1, k2; cbn in *; congruence.
Qed.

Lemma reaches_own k : reaches k k = Some k.
Proof. destruct k; reflexivity. Qed.

Lemma reaches_kind k srv k' : reaches k srv = Some k' -> k' = k.
Proof. destruct k, srv; cbn; congruence. Qed.

Lemma server_shape_inj k1 k2 : server_shape k1 = server_shape k2 -> k1 = k2.
Proof. destruct k1, k2; cbn; congruence. Qed.
