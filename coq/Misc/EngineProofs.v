(* EngineProofs.v — invariants of the Engine monitor and soundness of its trace clauses. *)
From Coq Require Import List NArith ZArith Bool Lia.
From GM Require Import Base.Lts Misc.Engine.
Import ListNotations.
Open Scope N_scope.

(* ------------------------------------------------------------------ small facts *)
Lemma upd_same {A} (f : N -> A) k v : upd f k v k = v.
Proof. unfold upd. rewrite N.eqb_refl. reflexivity. Qed.
Lemma upd_other {A} (f : N -> A) k v x : x <> k -> upd f k v x = f x.
Proof. unfold upd. intros H. destruct (N.eqb_spec x k); [contradiction|reflexivity]. Qed.
Lemma upd_moved {A} (f : N -> A) k v w x : f k = w -> upd f k v x = f x \/ (k = x /\ f x = w /\ upd f k v x = v).
Proof. intros H. unfold upd. destruct (N.eqb_spec x k) as [->|_]; auto. Qed.

Lemma is_cstate_true x y : is_cstate x y = true -> x = y.
Proof. destruct x, y; cbn; intros H; try discriminate; reflexivity. Qed.
Lemma is_cstate_refl x : is_cstate x x = true.
Proof. destruct x; reflexivity. Qed.

Lemma no_holder_true s : no_holder s = true -> e_holder s = None.
Proof. unfold no_holder. destruct (e_holder s); [discriminate|reflexivity]. Qed.
Lemma holds_true s c : holds s c = true -> e_holder s = Some c.
Proof. unfold holds. destruct (e_holder s) as [d|]; [|discriminate]. intros H. apply N.eqb_eq in H. subst; reflexivity. Qed.

Definition early (x : cstate) : Prop := x = COffered \/ x = CLimit \/ x = CDelay.

Lemma early_not x : early x -> x <> CNone /\ x <> CConfigured /\ x <> CReceiving /\ x <> CRejected.
Proof. intros [H|[H|H]]; subst x; repeat split; discriminate. Qed.

Definition set_ret (s : est) (c : N) : est :=
  Est (e_close s) (e_kill s) (e_ran s) (e_holder s) (e_unstarted s) (e_accs s) (e_aids s) (e_conns s) (e_owner s) (upd (e_ret s) c true).
Definition start_acc (s : est) (a : N) : est :=
  Est (e_close s) (e_kill s) true (e_holder s) (e_unstarted s) (upd (e_accs s) a (if dead s then APanic else AHead))
      (a :: e_aids s) (e_conns s) (e_owner s) (e_ret s).
Definition take_conn (s : est) (a c : N) : est :=
  Est (e_close s) (e_kill s) (e_ran s) (e_holder s) (e_unstarted s) (upd (e_accs s) a (AHasConn c))
      (e_aids s) (upd (e_conns s) c COffered) (upd (e_owner s) c (Some a)) (e_ret s).
Definition settled (s : est) : est := set_accs s (fun a => settle_acc (e_accs s a)).

(* an accepted event, the guards it passed and the state it leads to; the guards no proof looks into stay boolean *)
Inductive estep (g : ecfg) (s : est) : ev -> est -> Prop :=
| es_handle_call d (Hc : e_conns s d = CNone) : estep g s (EHandleCall d) (set_conn s d COffered)
| es_handle_ret d (r : bool) (Ho : e_owner s d = None) (Hr : e_ret s d = false)
    (Hc : if r then e_conns s d = CConfigured \/ e_conns s d = CReceiving else e_conns s d = CRejected) :
    estep g s (EHandleRet d r) (set_ret s d)
| es_limit d v (Hc : e_conns s d = COffered) (Hh : e_holder s = None) (Hop : is_open s = true)
    (Hk : (e_kill s <=? 1) = true) (Hv : v = g_limit g) :
    estep g s (ELimit d v) (set_holder (set_conn s d CLimit) (Some d))
| es_delay d v (Hc : e_conns s d = CLimit) (Hh : e_holder s = Some d) (Hv : v = g_delay g) :
    estep g s (EDelay d v) (set_conn s d CDelay)
| es_timeout d v (Hc : e_conns s d = CDelay) (Hh : e_holder s = Some d) (Hv : v = g_timeout g) :
    estep g s (ETimeout d v)
          (owner_after (set_unstarted (set_holder (set_conn s d CConfigured) None) (e_unstarted s + 1)) d AHead)
| es_cclose d (Hc : e_conns s d = COffered) (Hh : e_holder s = None) (Hcl : is_closing s = false)
    (Hk : (1 <=? e_kill s) || is_closed s = true) :
    estep g s (ECClose d) (owner_after (set_conn s d CRejected) d ADone)
| es_recv d (Hc : e_conns s d = CConfigured) :
    estep g s (ERecv d) (set_unstarted (set_conn s d CReceiving) (e_unstarted s - 1))
| es_accept_call b (Ha : e_accs s b = ANone) : estep g s (EAcceptCall b) (start_acc s b)
| es_accept_panic b (Ha : e_accs s b = APanic) : estep g s (EAcceptPanic b) (set_acc s b ADone)
| es_srv_accept b (Ha : e_accs s b = AHead) (Hop : is_open s = true) (Hk : (e_kill s <=? 1) = true) :
    estep g s (ESrvAccept b) (set_acc s b AInAccept)
| es_srv_conn b d (Ha : e_accs s b = AInAccept) (Hc : e_conns s d = CNone) : estep g s (ESrvConn b d) (take_conn s b d)
| es_srv_err b (Ha : e_accs s b = AInAccept) :
    estep g s (ESrvErr b) (set_kill (set_acc s b (if g_handler g then AErr else AErrDone)) (N.max (e_kill s) 1))
| es_on_error b (Ha : e_accs s b = AErr) (Hg : g_handler g = true) : estep g s (EOnError b) (set_acc s b AErrDone)
| es_close_call (Hh : e_holder s = None) (Hcl : is_closing s = false) :
    estep g s ECloseCall (set_kill (set_close s ClClosing) 2)
| es_close_ret (Hcl : is_closing s = true) (Hh : e_holder s = None) (Hcr : close_can_return s = true) :
    estep g s ECloseRet (settled (set_close s ClClosed))
| es_quiet (Hh : e_holder s = None) (Hu : (e_unstarted s =? 0) = true)
    (Hq : all_accs s (fun x => negb (astate_eqb x AErr) && negb (astate_eqb x APanic)) = true)
    (Hk : all_accs s (fun x => negb (astate_eqb x AHead)) || (1 <=? e_kill s) = true)
    (Hcr : is_closing s && close_can_return s = false) :
    estep g s EQuiet (settled (set_kill s (if 1 <=? e_kill s then 2 else 0))).

Lemma step_estep g s e s' : step g s e = Some s' -> estep g s e s'.
Proof.
  intros H. destruct e; cbn [step] in H;
    repeat match type of H with (match ?x with _ => _ end) = Some _ => destruct x eqn:?; try discriminate H end;
    injection H as <-; repeat match goal with X : _ && _ = true |- _ => apply andb_prop in X as [? ?] end;
    constructor;
    auto using is_cstate_true, no_holder_true, holds_true, (fun x y => proj1 (Z.eqb_eq x y)), (fun b => proj1 (negb_true_iff b)).
  destruct r; [match goal with X : _ || _ = true |- _ => apply orb_prop in X as [X|X]; [left|right] end|]; auto using is_cstate_true.
Qed.

Lemma owner_after_set s c v :
  owner_after s c v = set_accs s (match e_owner s c with Some b => upd (e_accs s) b v | None => e_accs s end).
Proof. unfold owner_after. destruct (e_owner s c); [reflexivity|destruct s; reflexivity]. Qed.

Lemma owner_after_conns s c v : e_conns (owner_after s c v) = e_conns s.
Proof. rewrite owner_after_set. reflexivity. Qed.
Lemma owner_after_holder s c v : e_holder (owner_after s c v) = e_holder s.
Proof. rewrite owner_after_set. reflexivity. Qed.
Lemma owner_after_kill s c v : e_kill (owner_after s c v) = e_kill s.
Proof. rewrite owner_after_set. reflexivity. Qed.

(* ------------------------------------------------------------------ reachable-state invariant *)
Record Inv (s : est) : Prop := {
  inv_aids  : forall a, e_accs s a <> ANone -> In a (e_aids s);
  inv_owner : forall c a, e_owner s c = Some a -> early (e_conns s c) -> e_accs s a = AHasConn c;
  inv_fresh : forall c, e_conns s c = CNone -> e_owner s c = None }.

Lemma inv_init : Inv e_init.
Proof. split; cbn; intros; congruence. Qed.

Lemma settle_not_none x : x <> ANone -> settle_acc x <> ANone.
Proof. destruct x; cbn; congruence. Qed.
Lemma settle_hasconn x c : x = AHasConn c -> settle_acc x = AHasConn c.
Proof. intros ->. reflexivity. Qed.
Lemma settle_none_inv x : settle_acc x <> ANone -> x <> ANone.
Proof. destruct x; cbn; congruence. Qed.

(* a connection moves to state v: allowed to be an early state only if it was in one, or nobody owns it *)
Lemma inv_conn s s' c v :
  Inv s -> e_conns s' = upd (e_conns s) c v -> e_accs s' = e_accs s -> e_aids s' = e_aids s -> e_owner s' = e_owner s ->
  v <> CNone -> (early v -> early (e_conns s c) \/ e_owner s c = None) -> Inv s'.
Proof.
  intros [Ia Io If] Ec Ea Ei Eo Hv He. split; rewrite ?Ec, ?Ea, ?Ei, ?Eo; [exact Ia| |].
  - intros c0 a O. unfold upd. destruct (N.eqb_spec c0 c) as [->|_]; [|apply Io, O].
    intros Ev. destruct (He Ev) as [E|E]; [exact (Io c a O E)|congruence].
  - intros c0. unfold upd. destruct (N.eqb_spec c0 c); [congruence|apply If].
Qed.

Lemma inv_acc s s' a v :
  Inv s -> e_accs s' = upd (e_accs s) a v -> e_aids s' = e_aids s -> e_owner s' = e_owner s -> e_conns s' = e_conns s ->
  e_accs s a <> ANone -> (forall c, e_accs s a <> AHasConn c) -> Inv s'.
Proof.
  intros [Ia Io If] Ea Ei Eo Ec Hn Hc. split; rewrite ?Ec, ?Ea, ?Ei, ?Eo; [| |exact If].
  - intros a0. unfold upd. destruct (N.eqb_spec a0 a) as [->|_]; [intros _; exact (Ia a Hn)|apply Ia].
  - intros c a0 O E. pose proof (Io c a0 O E) as X. unfold upd. destruct (N.eqb_spec a0 a) as [->|_]; [destruct (Hc c X)|exact X].
Qed.

(* Handle has dealt with connection c (state v, not an early one); the loop that owns it moves to w *)
Lemma inv_handled s s' c v w :
  Inv s -> early (e_conns s c) -> ~ early v -> v <> CNone -> w <> ANone ->
  e_conns s' = upd (e_conns s) c v ->
  e_accs s' = (match e_owner s c with Some b => upd (e_accs s) b w | None => e_accs s end) ->
  e_aids s' = e_aids s -> e_owner s' = e_owner s -> Inv s'.
Proof.
  intros [Ia Io If] E Hv Hn Hw Ec Ea Ei Eo. split; rewrite ?Ec, ?Ea, ?Ei, ?Eo.
  - intros a. destruct (e_owner s c) as [b|] eqn:Ob; [|apply Ia]. unfold upd.
    destruct (N.eqb_spec a b) as [->|_]; [|apply Ia]. intros _. apply Ia. rewrite (Io c b Ob E). discriminate.
  - intros c0 a O. unfold upd at 1. destruct (N.eqb_spec c0 c) as [->|Hc]; [intros X; destruct (Hv X)|]. intros E0.
    pose proof (Io c0 a O E0) as X. destruct (e_owner s c) as [b|] eqn:Ob; [|exact X]. unfold upd.
    destruct (N.eqb_spec a b) as [->|_]; [|exact X]. rewrite (Io c b Ob E) in X. congruence.
  - intros c0. unfold upd. destruct (N.eqb_spec c0 c); [congruence|apply If].
Qed.

Lemma inv_settled s s' :
  Inv s -> e_accs s' = (fun a => settle_acc (e_accs s a)) -> e_aids s' = e_aids s -> e_owner s' = e_owner s ->
  e_conns s' = e_conns s -> Inv s'.
Proof.
  intros [Ia Io If] Ea Ei Eo Ec. split; rewrite ?Ec, ?Ea, ?Ei, ?Eo; [| |exact If].
  - intros a Ha. apply Ia, settle_none_inv, Ha.
  - intros c a O E. rewrite (Io c a O E). reflexivity.
Qed.

Lemma inv_step g s e s' : Inv s -> step g s e = Some s' -> Inv s'.
Proof.
  intros I H. apply step_estep in H. pose proof I as [Ia Io If]. destruct H; rewrite ?owner_after_set.
  - apply (inv_conn s _ d COffered I); try reflexivity; [discriminate|right; exact (If d Hc)].
  - destruct I; split; assumption.
  - apply (inv_conn s _ d CLimit I); try reflexivity; [discriminate|left; rewrite Hc; left; reflexivity].
  - apply (inv_conn s _ d CDelay I); try reflexivity; [discriminate|left; rewrite Hc; right; left; reflexivity].
  - apply (inv_handled s _ d CConfigured AHead I); try reflexivity; try discriminate; [rewrite Hc; right; right; reflexivity|].
    intros [X|[X|X]]; discriminate X.
  - apply (inv_handled s _ d CRejected ADone I); try reflexivity; try discriminate; [rewrite Hc; left; reflexivity|].
    intros [X|[X|X]]; discriminate X.
  - apply (inv_conn s _ d CReceiving I); try reflexivity; [discriminate|intros [X|[X|X]]; discriminate X].
  - (* a new accept loop *)
    split; cbn [start_acc e_accs e_aids e_owner e_conns]; [| |exact If].
    + intros a. unfold upd. destruct (N.eqb_spec a b) as [->|_]; [left; reflexivity|right; apply Ia; assumption].
    + intros c a O E. pose proof (Io c a O E) as X. unfold upd. destruct (N.eqb_spec a b) as [->|_]; [congruence|exact X].
  - apply (inv_acc s _ b ADone I); try reflexivity; congruence.
  - apply (inv_acc s _ b AInAccept I); try reflexivity; congruence.
  - (* the loop takes connection d from its server *)
    split; cbn [take_conn e_accs e_aids e_owner e_conns].
    + intros a. unfold upd. destruct (N.eqb_spec a b) as [->|_]; [intros _; apply Ia; congruence|apply Ia].
    + intros c a. unfold upd at 1 2. destruct (N.eqb_spec c d) as [->|Hn].
      * intros X _. injection X as <-. apply upd_same.
      * intros O E. pose proof (Io c a O E) as X. unfold upd. destruct (N.eqb_spec a b) as [->|_]; [congruence|exact X].
    + intros c. unfold upd. destruct (N.eqb_spec c d); [discriminate|apply If].
  - apply (inv_acc s _ b (if g_handler g then AErr else AErrDone) I); try reflexivity; congruence.
  - apply (inv_acc s _ b AErrDone I); try reflexivity; congruence.
  - destruct I; split; assumption.
  - apply (inv_settled s _ I); reflexivity.
  - apply (inv_settled s _ I); reflexivity.
Qed.

Lemma erun_run g s es : erun g s es = run (step g) s es.
Proof. revert s; induction es as [|e es IH]; intros s; cbn [erun run]; [reflexivity|]. destruct (step g s e); [apply IH|reflexivity]. Qed.

Lemma inv_run g es : forall s s', Inv s -> erun g s es = Some s' -> Inv s'.
Proof. intros s s' I H. rewrite erun_run in H. exact (invariant_all_traces _ _ _ Inv s I (inv_step g) es s' H). Qed.

(* induction over a trace accepted from a reachable state, last event first *)
Lemma trace_ind g (Q : est -> list ev -> Prop) :
  (forall s, Q s []) ->
  (forall s e s1 es s', Inv s -> estep g s e s1 -> Inv s1 -> erun g s1 es = Some s' -> Q s1 es -> Q s (e :: es)) ->
  forall es s s', Inv s -> erun g s es = Some s' -> Q s es.
Proof.
  intros Q0 Qs. induction es as [|e es IH]; intros s s' I H; cbn [erun] in H; [apply Q0|].
  destruct (step g s e) as [s1|] eqn:E; [|discriminate]. pose proof (inv_step _ _ _ _ I E) as I1.
  exact (Qs s e s1 es s' I (step_estep _ _ _ _ E) I1 H (IH s1 s' I1 H)).
Qed.

Lemma loop_step g s e s' a :
  Inv s -> estep g s e s' ->
  let moved x y := e_accs s a = x /\ e_accs s' a = y in
  e_accs s' a = e_accs s a \/
  match e with
  | EAcceptCall b => b = a /\ moved ANone (if dead s then APanic else AHead)
  | EAcceptPanic b => b = a /\ moved APanic ADone
  | ESrvAccept b => b = a /\ moved AHead AInAccept
  | ESrvConn b c => b = a /\ moved AInAccept (AHasConn c)
  | ESrvErr b => b = a /\ moved AInAccept (if g_handler g then AErr else AErrDone)
  | EOnError b => b = a /\ moved AErr AErrDone
  | ETimeout c _ => moved (AHasConn c) AHead
  | ECClose c => moved (AHasConn c) ADone
  | ECloseRet | EQuiet => e_accs s' a = settle_acc (e_accs s a)
  | _ => False
  end.
Proof.
  intros I E. cbv zeta.
  assert (Own : forall s1 c w, e_accs s1 = e_accs s -> e_owner s1 = e_owner s -> early (e_conns s c) ->
                  e_accs (owner_after s1 c w) a = e_accs s a \/ (e_accs s a = AHasConn c /\ e_accs (owner_after s1 c w) a = w)).
  { intros s1 c w Ea Eo Hc. rewrite owner_after_set. cbn [set_accs e_accs]. rewrite Ea, Eo.
    destruct (e_owner s c) as [b|] eqn:O; [|left; reflexivity].
    destruct (upd_moved (e_accs s) b w _ a (inv_owner _ I c b O Hc)) as [X|(_ & X)]; [left|right]; exact X. }
  destruct E; try (left; reflexivity); try (apply upd_moved; exact Ha).
  - apply Own; try reflexivity. rewrite Hc. right; right; reflexivity.
  - apply Own; try reflexivity. rewrite Hc. left; reflexivity.
  - right; reflexivity.
  - right; reflexivity.
Qed.

Lemma all_accs_in s p a : all_accs s p = true -> In a (e_aids s) -> p (e_accs s a) = true.
Proof. unfold all_accs. rewrite forallb_forall. intros H I. exact (H a I). Qed.

(* ------------------------------------------------------------------ c3: settings before the first Receive *)
Definition sim3 (s : est) (stage : N -> N) : Prop :=
  forall c, (e_conns s c = CLimit -> stage c = 1) /\ (e_conns s c = CDelay -> stage c = 2) /\
            (e_conns s c = CConfigured -> stage c = 3).

Lemma sim3_conn s s' stage stage' c v :
  sim3 s stage -> e_conns s' = upd (e_conns s) c v -> (forall c0, c0 <> c -> stage' c0 = stage c0) ->
  (v = CLimit -> stage' c = 1) -> (v = CDelay -> stage' c = 2) -> (v = CConfigured -> stage' c = 3) -> sim3 s' stage'.
Proof.
  intros S Ec Hs H1 H2 H3 c0. rewrite Ec. unfold upd. destruct (N.eqb_spec c0 c) as [->|Hn]; [auto|].
  rewrite (Hs c0 Hn). apply S.
Qed.

Lemma settings_sound g : forall es s s', Inv s -> erun g s es = Some s' ->
  forall stage, sim3 s stage -> settings_before_recv g stage es = true.
Proof.
  refine (trace_ind g _ _ _); [reflexivity|]. intros s e s1 es _ _ E _ _ K stage S.
  destruct E; cbn [settings_before_recv]; try subst v; try (apply K; exact S).
  - apply K, (sim3_conn s _ stage stage d COffered S); try reflexivity; discriminate.
  - rewrite Z.eqb_refl. apply K, (sim3_conn s _ stage _ d CLimit S); try reflexivity; try discriminate;
      [intros c0 Hn; apply upd_other, Hn|intros _; apply upd_same].
  - rewrite (proj1 (S d) Hc), Z.eqb_refl. apply K, (sim3_conn s _ stage _ d CDelay S); try reflexivity; try discriminate;
      [intros c0 Hn; apply upd_other, Hn|intros _; apply upd_same].
  - rewrite (proj1 (proj2 (S d)) Hc), Z.eqb_refl. apply K, (sim3_conn s _ stage _ d CConfigured S); try discriminate;
      [apply owner_after_conns|intros c0 Hn; apply upd_other, Hn|intros _; apply upd_same].
  - apply K, (sim3_conn s _ stage stage d CRejected S); try reflexivity; try discriminate. apply owner_after_conns.
  - rewrite (proj2 (proj2 (S d)) Hc). apply K, (sim3_conn s _ stage stage d CReceiving S); try reflexivity; discriminate.
  - apply K, (sim3_conn s _ stage stage d COffered S); try reflexivity; discriminate.
Qed.

Lemma settings_before_recv_sound g es s :
  erun g e_init es = Some s -> settings_before_recv g (fun _ => 0) es = true.
Proof. intros H. apply (settings_sound g es _ s inv_init H). intros c. cbn. repeat split; discriminate. Qed.

(* ------------------------------------------------------------------ c6: OnError only for a failed Accept *)
Definition sim6 (s : est) (failed : N -> bool) : Prop := forall a, e_accs s a = AErr -> failed a = true.

Lemma settle_err x : settle_acc x = AErr -> x = AErr.
Proof. destruct x; cbn; congruence. Qed.

Lemma onerror_sound g : forall es s s', Inv s -> erun g s es = Some s' ->
  forall failed, sim6 s failed -> onerror_justified failed es = true.
Proof.
  refine (trace_ind g _ _ _); [reflexivity|]. intros s e s1 es _ I E _ _ K failed S.
  assert (M : forall a, e_accs s1 a = AErr -> e_accs s a = AErr \/ e = ESrvErr a).
  { intros a A. destruct (loop_step g s e s1 a I E) as [X|X]; [left; congruence|].
    destruct e; try contradiction; try (destruct X as (_ & _ & X); congruence).
    - destruct X as [_ X]; congruence.
    - destruct X as [_ X]; congruence.
    - destruct X as (_ & _ & X), (dead s); congruence.
    - right. destruct X as [-> _]. reflexivity.
    - left. apply settle_err. congruence.
    - left. apply settle_err. congruence. }
  assert (Keep : (forall a, e <> ESrvErr a) -> sim6 s1 failed)
    by (intros Ne a0 A0; destruct (M a0 A0) as [X|X]; [exact (S a0 X)|destruct (Ne a0 X)]).
  destruct e; cbn [onerror_justified]; try (apply K, Keep; discriminate).
  - apply K. intros a0 A0. unfold upd. destruct (M a0 A0) as [X|X]; [|injection X as ->; rewrite N.eqb_refl; reflexivity].
    destruct (a0 =? a); [reflexivity|exact (S a0 X)].
  - apply andb_true_intro. split; [|apply K, Keep; discriminate].
    apply S. inversion E; assumption.
Qed.

Lemma onerror_justified_sound g es s :
  erun g e_init es = Some s -> onerror_justified (fun _ => false) es = true.
Proof. intros H. apply (onerror_sound g es _ s inv_init H). intros a A. discriminate A. Qed.

(* ------------------------------------------------------------------ c4: an accept loop stops at its first error *)
(* a loop whose Accept has failed only waits for its OnError call and then for the engine to come to rest *)
Lemma failed_loop_step g s e s' a :
  Inv s -> estep g s e s' -> e_accs s a = AErr \/ e_accs s a = AErrDone \/ e_accs s a = ADone ->
  e_accs s' a = e_accs s a \/ (e = EOnError a /\ e_accs s a = AErr /\ e_accs s' a = AErrDone) \/
  ((e = ECloseRet \/ e = EQuiet) /\ e_accs s' a = settle_acc (e_accs s a)).
Proof.
  intros I E F. destruct (loop_step g s e s' a I E) as [M|M]; [left; exact M|right].
  destruct e; try contradiction; try (exfalso; destruct M as (_ & M & _), F as [F|[F|F]]; congruence); auto.
  - exfalso. destruct M as [M _], F as [F|[F|F]]; congruence.
  - exfalso. destruct M as [M _], F as [F|[F|F]]; congruence.
  - left. destruct M as (-> & M). auto.
Qed.

Definition P4 (s : est) (a : N) (rep : bool) : Prop :=
  (e_accs s a = AErr /\ rep = false) \/ e_accs s a = AErrDone \/ e_accs s a = ADone.

Lemma settle_P4 x : x = AErrDone \/ x = ADone -> settle_acc x = ADone.
Proof. intros [->| ->]; reflexivity. Qed.

Lemma no_more_sound g a : forall es s s', Inv s -> erun g s es = Some s' ->
  forall rep, P4 s a rep -> no_more_from a rep es = true.
Proof.
  refine (trace_ind g _ _ _); [reflexivity|]. intros s e s1 es _ I E _ _ K rep P.
  assert (F : e_accs s a = AErr \/ e_accs s a = AErrDone \/ e_accs s a = ADone) by (destruct P as [[P _]|P]; auto).
  destruct (failed_loop_step g s e s1 a I E F) as [M|[(-> & A & A')|(Ee & M)]].
  - (* the loop stays as it is, so the event is not one of its own *)
    assert (Same : no_more_from a rep es = true) by (apply K; unfold P4; rewrite M; exact P).
    destruct E; cbn [no_more_from]; try exact Same; destruct (N.eqb_spec b a) as [->|_]; try exact Same; exfalso.
    all: cbn [set_kill set_acc take_conn e_accs] in M; rewrite upd_same in M; destruct (g_handler g); congruence.
  - (* its OnError call: allowed once *)
    cbn [no_more_from]. rewrite N.eqb_refl. destruct P as [[_ ->]|[P|P]]; [|congruence|congruence]. apply K. right; left. exact A'.
  - assert (P' : P4 s1 a rep).
    { unfold P4. rewrite M. destruct P as [[P1 P2]|P]; [rewrite P1; left; auto|right; right; apply settle_P4, P]. }
    destruct Ee as [-> | ->]; exact (K rep P').
Qed.

Lemma stops_at_error_sound g : forall es s s', Inv s -> erun g s es = Some s' -> stops_at_error es = true.
Proof.
  refine (trace_ind g _ _ _); [reflexivity|]. intros s e s1 es s' _ E I1 H1 K. destruct E; try exact K.
  cbn [stops_at_error]. rewrite K, andb_true_r. apply (no_more_sound g b es _ s' I1 H1).
  unfold P4. cbn [set_kill set_acc e_accs]. rewrite upd_same. destruct (g_handler g); tauto.
Qed.

(* ------------------------------------------------------------------ c5: the error is reported before the engine rests *)
Lemma reported_sound g a : forall es s s', Inv s -> erun g s es = Some s' ->
  e_accs s a = AErr -> reported_before_rest a es = true.
Proof.
  refine (trace_ind g _ _ _); [reflexivity|]. intros s e s1 es _ I E _ _ K P.
  assert (Ain : In a (e_aids s)) by (apply (inv_aids _ I); congruence).
  (* the engine does not rest: Close cannot return while the loop is not finishable, and an OnError call is pending *)
  assert (NoRest : e <> ECloseRet /\ e <> EQuiet).
  { destruct E; split; try discriminate; exfalso.
    - unfold close_can_return in Hcr. apply andb_prop in Hcr as [_ Hcr]. pose proof (all_accs_in _ _ _ Hcr Ain) as X. rewrite P in X. discriminate.
    - pose proof (all_accs_in _ _ _ Hq Ain) as X. cbn beta in X. rewrite P in X. discriminate. }
  destruct (failed_loop_step g s e s1 a I E (or_introl P)) as [M|[(-> & _)|([-> | ->] & _)]].
  - assert (Same : reported_before_rest a es = true) by (apply K; congruence).
    destruct e as [| | | | | | | | | | | |b| | |]; cbn [reported_before_rest]; try exact Same.
    + destruct (b =? a); [reflexivity|exact Same].
    + destruct (proj1 NoRest eq_refl).
    + destruct (proj2 NoRest eq_refl).
  - cbn [reported_before_rest]. rewrite N.eqb_refl. reflexivity.
  - destruct (proj1 NoRest eq_refl).
  - destruct (proj2 NoRest eq_refl).
Qed.

Lemma error_reported_sound g : forall es s s', Inv s -> erun g s es = Some s' -> error_reported g es = true.
Proof.
  refine (trace_ind g _ _ _); [reflexivity|]. intros s e s1 es s' _ E I1 H1 K. destruct E; try exact K.
  cbn [error_reported]. rewrite K, andb_true_r. destruct (g_handler g) eqn:Hh; [|reflexivity].
  apply (reported_sound g b es _ s' I1 H1). cbn [set_kill set_acc e_accs]. apply upd_same.
Qed.

(* ------------------------------------------------------------------ c1 / c2: after Close has returned *)
Record P1 (s : est) : Prop := {
  p1_open : is_open s = false;
  p1_holder : e_holder s = None;
  p1_ran : e_ran s = true;
  p1_done : all_accs s is_done = true }.

Lemma is_done_settle x : is_done x = true -> is_done (settle_acc x) = true.
Proof. destruct x; cbn; congruence. Qed.
Lemma finishable_settle x : finishable x = true -> is_done (settle_acc x) = true.
Proof. destruct x; cbn; congruence. Qed.

(* after Close has returned every loop that was started has returned: only a new Accept call or the Handle of a
   connection offered by the user can happen, and neither configures a connection *)
Lemma P1_step g s e s1 : Inv s -> P1 s -> estep g s e s1 ->
  P1 s1 /\ is_start e = false /\ is_acceptor_ev e = false.
Proof.
  intros I [Po Ph Pr Pd] E.
  assert (Idle : forall a x, e_accs s a = x -> is_done x = false -> x = ANone).
  { intros a x X D. destruct x; try reflexivity; discriminate D ||
      (assert (Ain : In a (e_aids s)) by (apply (inv_aids _ I); congruence);
       pose proof (all_accs_in _ _ _ Pd Ain) as Y; rewrite X in Y; discriminate Y). }
  assert (Done : forall f, (forall a, In a (e_aids s) -> is_done (e_accs s a) = true -> is_done (f a) = true) ->
                 forallb (fun a => is_done (f a)) (e_aids s) = true).
  { intros f Hf. apply forallb_forall. intros a Ain. apply (Hf a Ain), (all_accs_in _ _ _ Pd Ain). }
  assert (DoneUpd : forall b v, is_done v = true -> forallb (fun a => is_done (upd (e_accs s) b v a)) (e_aids s) = true).
  { intros b v V. apply Done. intros a _ X. unfold upd. destruct (a =? b); assumption. }
  destruct E; try congruence; try (discriminate (Idle _ _ Ha eq_refl));
    (split; [|split; reflexivity]); try (split; assumption).
  - rewrite owner_after_set. split; try assumption. unfold all_accs. cbn [set_accs set_conn e_accs e_aids e_owner].
    destruct (e_owner s d); [apply DoneUpd; reflexivity|exact Pd].
  - split; try assumption; [reflexivity|]. unfold all_accs. cbn [start_acc e_accs e_aids forallb]. rewrite upd_same.
    unfold dead. rewrite Pr, Pd. apply DoneUpd. reflexivity.
  - split; try assumption. apply DoneUpd. reflexivity.
  - split; try assumption. reflexivity.
  - split; try assumption; [reflexivity|]. apply Done. intros a _ X. apply is_done_settle, X.
  - split; try assumption. apply Done. intros a _ X. apply is_done_settle, X.
Qed.

Lemma closeret_P1 g s s1 : estep g s ECloseRet s1 -> P1 s1.
Proof.
  intros E. inversion E; subst. unfold close_can_return in Hcr. apply andb_prop in Hcr as [R Hcr].
  split; try assumption; try reflexivity. unfold all_accs in *. cbn [settled set_accs set_close e_accs e_aids].
  rewrite forallb_forall in *. intros a Ain. apply finishable_settle, Hcr, Ain.
Qed.

Lemma after_P1 g : forall es s s', Inv s -> erun g s es = Some s' -> P1 s ->
  forallb (fun e => negb (is_start e) && negb (is_acceptor_ev e)) es = true.
Proof.
  refine (trace_ind g _ _ _); [reflexivity|]. intros s e s1 es _ I E _ _ K P. destruct (P1_step _ _ _ _ I P E) as (P' & A & B).
  cbn [forallb]. rewrite A, B. exact (K P').
Qed.

Lemma after_close_sound g : forall es s s', Inv s -> erun g s es = Some s' -> after_close_ok es = true.
Proof.
  refine (trace_ind g _ _ _); [reflexivity|]. intros s e s1 es s' _ E I1 H1 K. destruct e; try exact K.
  cbn [after_close_ok]. rewrite K, andb_true_r. exact (after_P1 g es s1 s' I1 H1 (closeret_P1 _ _ _ E)).
Qed.

(* c2 *)
Definition P2 (s : est) (late : N -> bool) : Prop :=
  forall c, late c = true -> e_conns s c = COffered \/ e_conns s c = CRejected.

Lemma late_sound g : forall es s s', Inv s -> erun g s es = Some s' ->
  forall late, P1 s -> P2 s late -> late_handles_ok late es = true.
Proof.
  refine (trace_ind g _ _ _); [reflexivity|]. intros s e s1 es _ I E _ _ K0 late P L. destruct (P1_step _ _ _ _ I P E) as (P' & A & B).
  pose proof (fun late' => K0 late' P') as K.
  assert (Conn : forall s2 late' c v, e_conns s2 = upd (e_conns s) c v ->
                   (forall c0, late' c0 = true -> c0 = c \/ late c0 = true) ->
                   (late' c = true -> v = COffered \/ v = CRejected) -> P2 s2 late').
  { intros s2 late' c v Ec Hl Hv c0 Lc. rewrite Ec. unfold upd. destruct (N.eqb_spec c0 c) as [->|Hn]; [exact (Hv Lc)|].
    destruct (Hl c0 Lc) as [X|X]; [contradiction|exact (L c0 X)]. }
  destruct E; cbn [late_handles_ok]; try discriminate A; try discriminate B; try (apply K; exact L).
  - apply K, (Conn _ _ d COffered); [reflexivity| |auto]. intros c0. unfold upd. destruct (N.eqb_spec c0 d); auto.
  - destruct r; [|apply K; exact L]. apply andb_true_intro. split; [|apply K; exact L].
    destruct (late d) eqn:Lc; [|reflexivity]. destruct (L d Lc), Hc; congruence.
  - apply K, (Conn _ _ d CRejected); [apply owner_after_conns|auto|auto].
  - apply K, (Conn _ _ d CReceiving); [reflexivity|auto|]. intros Lc. destruct (L d Lc); congruence.
Qed.

Lemma handle_after_close_sound g : forall es s s', Inv s -> erun g s es = Some s' -> handle_after_close_ok es = true.
Proof.
  refine (trace_ind g _ _ _); [reflexivity|]. intros s e s1 es s' _ E I1 H1 K. destruct e; try exact K.
  cbn [handle_after_close_ok]. rewrite K, andb_true_r. apply (late_sound g es s1 s' I1 H1 _ (closeret_P1 _ _ _ E)). discriminate.
Qed.

(* ------------------------------------------------------------------ Close that never returns *)

(* (a) no accept loop was ever started: tomb.Wait has nothing to wait for and never returns;
   only a later Accept call (whose loop leaves at once) releases it *)
Definition not_accept_call (e : ev) : Prop := forall a, e <> EAcceptCall a.

Lemma hang_no_accept_step g s e s1 : is_closing s = true -> e_ran s = false -> not_accept_call e ->
  step g s e = Some s1 -> is_closing s1 = true /\ e_ran s1 = false.
Proof.
  intros C R NA E. apply step_estep in E. unfold is_closing in *.
  destruct E; rewrite ?owner_after_set; try (split; assumption).
  - destruct (NA b eq_refl).
  - unfold is_closing in Hcl. congruence.
  - unfold close_can_return in Hcr. rewrite R in Hcr. discriminate.
Qed.

Lemma hang_no_accept_run g es : forall s s', is_closing s = true -> e_ran s = false -> Forall not_accept_call es ->
  erun g s es = Some s' -> is_closing s' = true.
Proof.
  induction es as [|e es IH]; intros s s' C R F H; cbn [erun] in H.
  - injection H as <-. exact C.
  - destruct (step g s e) as [s1|] eqn:E; [|discriminate]. inversion F as [|? ? F1 F2]; subst.
    destruct (hang_no_accept_step _ _ _ _ C R F1 E) as [C1 R1]. eapply IH; eassumption.
Qed.

Lemma close_hangs_without_accept g :
  exists s, erun g e_init [ECloseCall; EQuiet] = Some s /\ is_closing s = true /\
    forall es s', Forall not_accept_call es -> erun g s es = Some s' -> is_closing s' = true.
Proof.
  eexists. split; [reflexivity|]. split; [reflexivity|].
  intros es s' F H. eapply hang_no_accept_run; [| |exact F|exact H]; reflexivity.
Qed.

(* … and the Accept call does release it *)
Lemma close_released_by_accept g :
  match erun g e_init [ECloseCall; EQuiet; EHandleCall 1; EQuiet; EAcceptCall 0; ECloseRet; ECClose 1; EHandleRet 1 false; EQuiet] with
  | Some s => is_closed s | None => false end = true.
Proof. reflexivity. Qed.

(* (b) an accept loop holds a connection it has not handled yet when Close takes the mutex:
   the loop waits for the mutex inside Handle, Close waits for the loop — for ever, whatever happens next *)
Record Stuck (a c : N) (s : est) : Prop := {
  st_closing : is_closing s = true;
  st_holder : e_holder s = None;
  st_in : In a (e_aids s);
  st_acc : e_accs s a = AHasConn c;
  st_conn : e_conns s c = COffered }.

Lemma stuck_step g a c s e s1 : Stuck a c s -> step g s e = Some s1 -> Stuck a c s1.
Proof.
  intros [C Hd In Ac Cc] E. apply step_estep in E.
  (* the loop and the connection are touched by no event that is still enabled *)
  assert (Acc : forall b v, e_accs s b <> AHasConn c -> upd (e_accs s) b v a = AHasConn c)
    by (intros b v Hb; unfold upd; destruct (N.eqb_spec a b); congruence).
  assert (Conn : forall c0 v, e_conns s c0 <> COffered -> upd (e_conns s) c0 v c = COffered)
    by (intros c0 v Hc; unfold upd; destruct (N.eqb_spec c c0); congruence).
  assert (Open : is_open s = false) by (unfold is_open, is_closing in *; destruct (e_close s); congruence).
  destruct E; try congruence; try (split; assumption).
  - split; try assumption. apply Conn. congruence.
  - split; try assumption. apply Conn. congruence.
  - split; try assumption; [right; exact In|apply Acc; congruence].
  - split; try assumption. apply Acc. congruence.
  - split; try assumption; [apply Acc; congruence|apply Conn; congruence].
  - split; try assumption. apply Acc. congruence.
  - split; try assumption. apply Acc. congruence.
  - unfold close_can_return in Hcr. apply andb_prop in Hcr as [_ Hcr]. pose proof (all_accs_in _ _ _ Hcr In) as X. rewrite Ac in X. discriminate.
  - split; try assumption. cbn [settled set_accs set_kill e_accs]. rewrite Ac. reflexivity.
Qed.

Lemma stuck_run g a c es : forall s s', Stuck a c s -> erun g s es = Some s' -> Stuck a c s'.
Proof. intros s s' S H. rewrite erun_run in H. exact (invariant_all_traces _ _ _ (Stuck a c) s S (stuck_step g a c) es s' H). Qed.

Lemma close_deadlock g :
  exists s, erun g e_init [EAcceptCall 0; ESrvAccept 0; EQuiet; ESrvConn 0 1; ECloseCall] = Some s /\
    forall es s', erun g s es = Some s' -> is_closing s' = true /\ e_conns s' 1 = COffered.
Proof.
  eexists. split; [reflexivity|]. intros es s' H.
  assert (S : Stuck 0 1 s') by (eapply stuck_run; [|exact H]; split; cbn; auto).
  split; [exact (st_closing _ _ _ S)|exact (st_conn _ _ _ S)].
Qed.

(* the documented order — servers fail first, then Close — is accepted and ends closed; afterwards
   Handle closes the connection and returns false, a second Close returns at once *)
Lemma close_returns_example :
  match erun (Cfg 8388608 10000000 10000000000 true) e_init
    [EAcceptCall 0; ESrvAccept 0; EQuiet; ESrvConn 0 1; ELimit 1 8388608; EDelay 1 10000000; ETimeout 1 10000000000;
     ESrvAccept 0; ERecv 1; EQuiet; EHandleCall 2; ELimit 2 8388608; EDelay 2 10000000; ETimeout 2 10000000000;
     EHandleRet 2 true; ERecv 2; EQuiet; ESrvErr 0; EOnError 0; EQuiet; ECloseCall; ECloseRet; EQuiet;
     EHandleCall 3; ECClose 3; EHandleRet 3 false; EQuiet; ECloseCall; ECloseRet; EQuiet; EAcceptCall 1; EAcceptPanic 1; EQuiet] with
  | Some s => is_closed s && dead s | None => false end = true.
Proof. vm_compute. reflexivity. Qed.

(* the monitor does reject: a connection configured after Close returned, a Receive before the timeout was set *)
Lemma rejects_examples :
  erun (Cfg 1 2 3 true) e_init [EAcceptCall 0; ESrvAccept 0; ESrvErr 0; EOnError 0; ECloseCall; ECloseRet; EHandleCall 1; ELimit 1 1] = None /\
  erun (Cfg 1 2 3 true) e_init [EHandleCall 1; ELimit 1 1; EDelay 1 2; ERecv 1] = None /\
  erun (Cfg 1 2 3 true) e_init [EHandleCall 1; ELimit 1 1; EDelay 1 2; ETimeout 1 4] = None /\
  erun (Cfg 1 2 3 true) e_init [EAcceptCall 0; ESrvAccept 0; ESrvErr 0; EOnError 0; ESrvAccept 0] = None.
Proof. repeat split; vm_compute; reflexivity. Qed.
