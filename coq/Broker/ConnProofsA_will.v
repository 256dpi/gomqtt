(* ConnProofsA_will.v — C12_will: on every trace the model accepts, the will is
   published by the cleanup exactly once iff the client was accepted (Setup
   succeeded), supplied a will and sent no DISCONNECT; Terminate is called iff
   the client passed authentication; both at most once, before Closed. *)
From Coq Require Import List NArith Bool Lia.
From GM Require Import Base.Lts Codec.Packet Session.Ids Session.Store
  Broker.Conn Broker.ConnSpec Broker.ConnBase Broker.ConnProofsA_lib Broker.ConnProofsA_inv.
Import ListNotations.
Open Scope N_scope.

Definition wl_due (t : wl_st) : bool :=
  wl_setup t && negb (wl_disc t) && match wl_will t with Some _ => true | None => false end.

Definition procs_of (gp : option N) : list N := match gp with Some g => [g] | None => [] end.
Definition connecting (p : phase) : bool := match p with Connecting => true | _ => false end.

(* the relation between the model state and the scanner's bookkeeping has two parts: what
   gproc, ph, will and pp say about all the scanner has noted but its two counters, *)
Definition will_A (gp : option N) (ph : phase) (w : option message) (pp : ppc) (t : wl_st) : Prop :=
  wl_procs t = procs_of gp /\
  wl_auth t = negb (connecting ph) /\
  (wl_setup t = false -> w = None) /\
  (wl_setup t = true -> gp <> None /\ ph <> Connecting) /\
  (wl_setup t = true -> ph = Connected -> w = wl_will t) /\
  (wl_disc t = true -> ph = Disconnected) /\
  (ph = Disconnected -> wl_setup t = true -> wl_disc t = true) /\
  (pp = PFirst -> gp = None) /\
  (forall c, pp = PAuth c \/ pp = PSetup c -> gp <> None /\ wl_will t = c_will c).

(* and what the cleanup's control point says about the counters *)
Definition will_L (lp : lpc) (t : wl_st) : Prop :=
  match lp with
  | LNone => wl_pubs t = 0 /\ wl_terms t = 0
  | LWillR | LWillDie | LTerm => wl_pubs t = 1 /\ wl_terms t = 0 /\ wl_due t = true /\ wl_auth t = true
  | LTermDie | LClosed => wl_terms t = 1 /\ wl_auth t = true /\ Bool.eqb (wl_due t) (wl_pubs t =? 1) = true
  | LEnd => True
  end.

Definition will_R' (gp : option N) (ph : phase) (w : option message) (pp : ppc) (lp : lpc) (t : wl_st) : Prop :=
  will_A gp ph w pp t /\ will_L lp t.

Definition will_R (s : bc) (t : wl_st) : Prop := will_R' (gproc s) (ph s) (will s) (pp s) (lp s) t.

Lemma will_R_iff s t : will_R s t <-> will_A (gproc s) (ph s) (will s) (pp s) t /\ will_L (lp s) t.
Proof. reflexivity. Qed.

Definition will_I (s : bc) : Prop := inv_phase s /\ inv_frozen s.

Lemma will_I_init : will_I bc_init.
Proof. split; [exact inv_phase_init|exact inv_frozen_init]. Qed.
Lemma will_I_step s e s' : will_I s -> step s e = Some s' -> will_I s'.
Proof. intros [H1 H2] H. split; [eapply inv_phase_step; eassumption|eapply inv_frozen_step; eassumption]. Qed.

(* events the scanner ignores *)
Definition wl_neutral (e : event) : bool :=
  match e with
  | ENewConn | ERx _ _ | ERxErr _ | EAuth _ AOk | ESetup _ (SOk _ _ _ _ _) | EPub _ _ None | ETerm _ _ | EClosed => false
  | _ => true
  end.

Lemma wl_neutral_step t e : wl_neutral e = true -> wl_step t e = Some t.
Proof.
  destruct e; cbn; intros H; try discriminate H; try reflexivity.
  - destruct r; try discriminate H; reflexivity.
  - destruct r; try discriminate H; reflexivity.
  - destruct k; try discriminate H; reflexivity.
Qed.

Lemma clo_event_wl_neutral e : clo_event e = true -> wl_neutral e = true.
Proof. destruct e; cbn; intros H; try discriminate H; reflexivity. Qed.

Lemma nmem_procs_false gp g : is_role gp g = false -> nmem g (procs_of gp) = false.
Proof. destruct gp as [g'|]; cbn; intros H; [rewrite H; reflexivity|reflexivity]. Qed.

Lemma nmem_self g : nmem g [g] = true.
Proof. cbn. rewrite N.eqb_refl. reflexivity. Qed.

Lemma first_packet p : (exists c, p = Connect c) \/
  ((match p with Connect c => PAuth c | _ => PDieLog KClient end) = PDieLog KClient /\
   forall g w su d pu te, wl_step (WlSt [] w false su d pu te) (ERx g p) = Some (WlSt [g] w false su d pu te)).
Proof. destruct p; try (right; split; [reflexivity|intros; reflexivity]). left. eauto. Qed.

Lemma loop_packet p : ((exists c, p = Connect c) \/ p = Disconnect) \/
  ((forall t g, wl_step t (ERx g p) =
      Some (WlSt (if nmem g (wl_procs t) then wl_procs t else g :: wl_procs t) (wl_will t) (wl_auth t) (wl_setup t) (wl_disc t)
                 (wl_pubs t) (wl_terms t))) /\ forall s, dispatch_st s p = s).
Proof. destruct p; try (right; split; intros; reflexivity); left; [left; eauto|right; reflexivity]. Qed.

Ltac wl_proj := cbn [wl_procs wl_will wl_auth wl_setup wl_disc wl_pubs wl_terms] in *.

(* will_A reads the control point only to tell PFirst, PAuth and PSetup from the rest *)
Definition late_pp (x : ppc) : bool := match x with PFirst | PAuth _ | PSetup _ => false | _ => true end.

Lemma will_A_keep gp ph w pp pp' t : late_pp pp' = true -> will_A gp ph w pp t -> will_A gp ph w pp' t.
Proof.
  intros Hl (W1 & W2 & W3 & W4 & W5 & W6 & W7 & _). repeat split; try assumption; try (apply W4; assumption).
  - intros ->. discriminate Hl.
  - destruct H as [-> | ->]; discriminate Hl.
  - destruct H as [-> | ->]; discriminate Hl.
Qed.

(* a processor step on an event the scanner ignores leaves ph and will alone and
   does not lead to the control points before Setup *)
Lemma step_proc_neutral s e s' : wl_neutral e = true -> step_proc s e = Some s' ->
  ph s' = ph s /\ will s' = will s /\ late_pp (pp s') = true.
Proof. intros Hn Hp. inv_proc Hp; try discriminate Hn; pp_cases; try discriminate Hn; sfp; repeat split; reflexivity. Qed.

Section Changes.
  Variables (g : N) (w : option message) (procs : list N) (ww : option message) (au su di : bool) (pu te : N).

  (* a receive makes the processor's goroutine known; the will noted may change while Setup has not succeeded *)
  Lemma will_A_rx gp ph pp pp' ww' : gp = Some g \/ gp = None -> late_pp pp' = true -> (su = true -> ww' = ww) ->
    will_A gp ph w pp (WlSt procs ww au su di pu te) -> will_A (Some g) ph w pp' (WlSt [g] ww' au su di pu te).
  Proof.
    intros Hgp Hl Hw (W1 & W2 & W3 & W4 & W5 & W6 & W7 & _). wl_proj. apply (will_A_keep _ _ _ PDone); [exact Hl|].
    repeat split; wl_proj; try assumption; try discriminate; try (destruct H; discriminate).
    - apply W4, H.
    - intros Hs Hc. rewrite (Hw Hs). apply W5; assumption.
  Qed.

  (* the first packet, a CONNECT: its will is noted *)
  Lemma will_A_connect c : will_A None Connecting w PFirst (WlSt [] ww au su di pu te) ->
    will_A (Some g) Connecting w (PAuth c) (WlSt [g] (c_will c) au su di pu te).
  Proof.
    intros (_ & W2 & W3 & W4 & _ & W6 & _). wl_proj.
    assert (Hs : su = false) by (destruct su; [destruct (W4 eq_refl) as [Hx _]; contradiction|reflexivity]). subst su.
    repeat split; wl_proj; try assumption; try discriminate.
    destruct H as [H|H]; [injection H as ->; reflexivity|discriminate H].
  Qed.

  (* DISCONNECT in the main loop: the will is dropped *)
  Lemma will_A_disconnect pp' : late_pp pp' = true ->
    will_A (Some g) Disconnected None pp' (WlSt [g] ww true su (true && su || di) pu te).
  Proof.
    intros Hl. apply (will_A_keep _ _ _ PDone); [exact Hl|].
    repeat split; wl_proj; try discriminate; try (destruct H; discriminate). intros _ ->. reflexivity.
  Qed.

  (* Auth succeeded *)
  Lemma will_A_auth c : will_A (Some g) Connecting w (PAuth c) (WlSt procs ww au su di pu te) ->
    will_A (Some g) Connected w (PSetup c) (WlSt procs ww true su di pu te).
  Proof.
    intros (W1 & _ & W3 & W4 & _ & W6 & _ & _ & W9). wl_proj.
    assert (Hs : su = false) by (destruct su; [destruct (W4 eq_refl) as [_ Hx]; contradiction|reflexivity]). subst su.
    assert (Hd : di = false) by (destruct di; [discriminate (W6 eq_refl)|reflexivity]). subst di.
    repeat split; wl_proj; try assumption; try discriminate.
    destruct H as [H|H]; [discriminate H|injection H as <-]. apply (W9 c). left. reflexivity.
  Qed.

  (* Setup succeeded: the client's will is now the connection's *)
  Lemma will_A_setup c pp' : late_pp pp' = true -> will_A (Some g) Connected w (PSetup c) (WlSt procs ww au su di pu te) ->
    will_A (Some g) Connected (c_will c) pp' (WlSt procs ww au true di pu te).
  Proof.
    intros Hl (W1 & W2 & _ & _ & _ & W6 & _ & _ & W9). wl_proj. apply (will_A_keep _ _ _ PDone); [exact Hl|].
    repeat split; wl_proj; try assumption; try discriminate; try (destruct H; discriminate).
    intros _ _. symmetry. apply (W9 c). right. reflexivity.
  Qed.
End Changes.

(* ----------------------------------------------------------- the processor *)

(* the scanner's step is computed; pubs and terms are as they were *)
Local Ltac noted := eexists; split; [reflexivity|]; split; [|split; reflexivity].

Lemma will_proc s t e s' g gp0 :
  inv_phase s ->
  will_A gp0 (ph s) (will s) (pp s) t ->
  gproc s = Some g -> ev_g e = Some g ->
  (gp0 = Some g \/ (gp0 = None /\ is_rx e = true)) ->
  step_proc s e = Some s' ->
  exists t', wl_step t e = Some t' /\ will_A (gproc s') (ph s') (will s') (pp s') t' /\
             wl_pubs t' = wl_pubs t /\ wl_terms t' = wl_terms t.
Proof.
  intros (Hi1 & Hi2 & Hi3) HR Hgp Hg Hgp0 Hp.
  destruct (step_proc_frame _ _ _ Hp) as (_ & Fg & _). rewrite Fg, Hgp. clear Fg.
  destruct (wl_neutral e) eqn:Hn.
  { (* ignored events: only the control point moves, and not to one before Setup *)
    exists t. split; [apply wl_neutral_step, Hn|]. split; [|split; reflexivity].
    destruct (step_proc_neutral _ _ _ Hn Hp) as (-> & -> & Hl).
    destruct Hgp0 as [->|[_ Hrx]]; [exact (will_A_keep _ _ _ _ _ _ Hl HR)|destruct e; discriminate]. }
  destruct t as [procs ww au su di pu te]. pose proof HR as (W1 & W2 & _ & W4 & _ & _ & _ & W8 & _). wl_proj.
  assert (Hgp0' : gp0 = Some g \/ gp0 = None) by (destruct Hgp0 as [?|[? _]]; auto).
  assert (Hprocs : (if nmem g procs then procs else g :: procs) = [g]).
  { rewrite W1. destruct Hgp0' as [-> | ->]; cbn [procs_of]; [rewrite nmem_self|]; reflexivity. }
  (* the six steps on events the scanner looks at *)
  inv_proc Hp; try discriminate Hn; cbn [ev_g] in Hg; injection Hg as ->; sfp.
  - (* the first packet: only a CONNECT is recorded (its will); every other one is fatal *)
    rewrite Hpp in *. rewrite (W8 eq_refl), (Hi2 eq_refl) in *. cbn [procs_of connecting negb] in *. subst procs au.
    destruct (first_packet p0) as [(c & ->)|(-> & Hst)].
    + noted. eapply will_A_connect, HR.
    + rewrite Hst. noted. eapply will_A_rx; [right; reflexivity|reflexivity|intros _; reflexivity|exact HR].
  - (* a receive error *)
    cbn [wl_step]; wl_proj; rewrite Hprocs. noted. eapply will_A_rx; [exact Hgp0'|reflexivity|intros _; reflexivity|exact HR].
  - (* Auth succeeded *)
    destruct r0; try discriminate Hn. destruct Hgp0 as [->|[_ Hx]]; [|discriminate Hx].
    rewrite Hpp in *. rewrite (Hi2 eq_refl) in *. noted. eapply will_A_auth, HR.
  - (* Setup succeeded *)
    destruct Hgp0 as [->|[_ Hx]]; [|discriminate Hx].
    rewrite (Hi3 _ Hpp) in *. rewrite Hpp in HR. noted. eapply will_A_setup; [reflexivity|exact HR].
  - (* a packet in the main loop: the scanner looks at a second CONNECT and at DISCONNECT; the
       control point it leads to is never one before Setup *)
    assert (Hl : late_pp x0 = true) by (dispatch_cases Hd; reflexivity).
    assert (Ha : au = true).
    { rewrite W2. destruct (ph s) eqn:Eph; [|reflexivity|reflexivity]. destruct (Hi1 eq_refl) as [Hx _]. rewrite Hpp in Hx. discriminate Hx. }
    destruct (loop_packet p0) as [[(c & ->)| ->]|(Hst & Hds)].
    + cbn [wl_step dispatch_st]; wl_proj; rewrite Hprocs.
      destruct procs; noted; (eapply will_A_rx; [exact Hgp0'|exact Hl| |exact HR]); [|intros _; reflexivity].
      (* no goroutine has received yet, so Setup has not succeeded *)
      intros Hs. destruct (W4 Hs) as [Hx _]. destruct gp0; [discriminate W1|contradiction].
    + cbn [wl_step dispatch_st]; wl_proj; rewrite Hprocs, Ha; sfp. noted. apply will_A_disconnect, Hl.
    + rewrite Hst, Hds. wl_proj. rewrite Hprocs. noted. eapply will_A_rx; [exact Hgp0'|exact Hl|intros _; reflexivity|exact HR].
  - (* EPub None by the processor: a QoS 0 publish *)
    destruct Hgp0 as [->|[_ Hx]]; [|discriminate Hx].
    subst procs. cbn [wl_step procs_of] in *. wl_proj. rewrite nmem_self. noted. apply (will_A_keep _ _ _ (pp s)); [reflexivity|exact HR].
Qed.

(* ------------------------------------------------------------- the cleanup *)

(* the cleanup freezes the processor *)
Lemma will_A_done gp ph w pp t : will_A gp ph w pp t -> will_A gp ph w PDone t.
Proof. apply will_A_keep. reflexivity. Qed.

Lemma will_A_new : will_A None Connecting None PFirst wl_new.
Proof. repeat split; intros; try discriminate; auto; destruct H; discriminate. Qed.

Lemma will_R_init : will_R bc_init wl_new.
Proof. split; [exact (will_A_done _ _ _ _ _ will_A_new)|exact I]. Qed.

Lemma will_A_connected gp m pp t : will_A gp Connected (Some m) pp t ->
  wl_auth t = true /\ wl_setup t = true /\ wl_disc t = false /\ wl_will t = Some m.
Proof.
  intros (_ & W2 & W3 & _ & W5 & W6 & _).
  assert (Hs : wl_setup t = true) by (destruct (wl_setup t); [reflexivity|discriminate (W3 eq_refl)]).
  split; [exact W2|]. split; [exact Hs|]. split; [|symmetry; exact (W5 Hs eq_refl)].
  destruct (wl_disc t); [discriminate (W6 eq_refl)|reflexivity].
Qed.

Lemma will_A_not_due gp ph w pp t : will_A gp ph w pp t -> ph <> Connecting -> (ph = Connected -> w = None) ->
  wl_auth t = true /\ wl_due t = false.
Proof.
  intros (_ & W2 & _ & W4 & W5 & _ & W7 & _) Hc Hw. split; [rewrite W2; destruct ph; [contradiction|reflexivity|reflexivity]|].
  unfold wl_due. destruct (wl_setup t) eqn:Es; [|reflexivity]. destruct (wl_disc t) eqn:Ed; [reflexivity|].
  destruct (wl_will t) eqn:Ew; [|reflexivity]. exfalso.
  destruct ph; [apply Hc; reflexivity| |discriminate (W7 eq_refl eq_refl)].
  specialize (W5 eq_refl eq_refl). rewrite (Hw eq_refl) in W5. discriminate W5.
Qed.

Lemma will_A_connecting gp w pp t : will_A gp Connecting w pp t -> wl_auth t = false /\ wl_setup t = false.
Proof.
  intros (_ & W2 & _ & W4 & _). split; [exact W2|]. destruct (wl_setup t); [|reflexivity].
  destruct (W4 eq_refl) as [_ Hc]. exfalso. apply Hc. reflexivity.
Qed.

Lemma will_cleanup s t e s' :
  will_R s t ->
  (e = EClosed \/ exists g, ev_g e = Some g /\ is_role (gproc s) g = false) ->
  step_cleanup s e = Some s' ->
  exists t', wl_step t e = Some t' /\ will_R s' t'.
Proof.
  intros HR He Hl. apply will_R_iff in HR as [HA HL]. pose proof HA as (W1 & _).
  cut (exists t', wl_step t e = Some t' /\ will_A (gproc s') (ph s') (will s') (pp s') t' /\ will_L (lp s') t');
    [intros (t' & H1 & H2); exists t'; split; [exact H1|apply will_R_iff, H2]|].
  destruct t as [procs wwill auth setup disc pubs terms].
  destruct (step_cleanup_cases _ _ _ Hl) as
    [g m -> El Hst Hph Hw -> | g ok -> El Hst Hge Hw -> | -> El Hst Hph -> | g ok -> El -> | g -> El -> | g ok -> El ->
    | g -> El -> | -> El ->]; rewrite El in HL; cbn [will_L] in HL; sf; wl_proj.
  - (* the will: the client was accepted and has not disconnected *)
    destruct He as [He|(g0 & Hg & Hr)]; [discriminate He|]. cbn [ev_g] in Hg. injection Hg as <-.
    rewrite Hph, Hw in HA. destruct (will_A_connected _ _ _ _ HA) as (Ha & Hs & Hd & Hww). wl_proj. subst auth setup disc wwill.
    destruct HL as [-> ->]. subst procs. cbn [wl_step]; wl_proj. rewrite (nmem_procs_false _ _ Hr), message_eqb_refl. cbn [andb negb N.eqb].
    eexists. split; [reflexivity|]. rewrite Hph, Hw. split; [exact (will_A_done _ _ _ _ _ HA)|]. repeat split.
  - (* Terminate without a will *)
    assert (Hc : ph s <> Connecting) by (intros Hx; rewrite Hx in Hge; discriminate Hge).
    destruct (will_A_not_due _ _ _ _ _ HA Hc Hw) as [Ha Hdue]. wl_proj. subst auth. destruct HL as [-> ->].
    cbn [wl_step]; wl_proj. cbn [andb N.eqb]. eexists. split; [reflexivity|]. split; [exact (will_A_done _ _ _ _ _ HA)|].
    destruct ok; (cbn [will_L]; unfold wl_due in *; wl_proj; rewrite Hdue; repeat split).
  - (* the client never passed authentication *)
    rewrite Hph in HA. destruct (will_A_connecting _ _ _ _ HA) as [Ha Hs]. wl_proj. subst auth setup. destruct HL as [-> ->].
    cbn [wl_step]; wl_proj. cbn [andb negb N.eqb Bool.eqb]. eexists. split; [reflexivity|]. rewrite Hph.
    split; [exact (will_A_done _ _ _ _ _ HA)|exact I].
  - eexists. split; [reflexivity|]. split; [exact HA|]. destruct ok; exact HL.
  - eexists. split; [reflexivity|]. split; [exact HA|exact HL].
  - destruct HL as (-> & -> & Hdue & ->). cbn [wl_step]; wl_proj. cbn [andb N.eqb]. eexists. split; [reflexivity|]. split; [exact HA|].
    destruct ok; (cbn [will_L]; unfold wl_due in *; wl_proj; rewrite Hdue; repeat split).
  - eexists. split; [reflexivity|]. split; [exact HA|exact HL].
  - destruct HL as (-> & -> & Hdue). unfold wl_due in Hdue; wl_proj. cbn [wl_step]; wl_proj. rewrite Hdue. cbn [andb N.eqb Bool.eqb].
    eexists. split; [reflexivity|]. split; [exact HA|exact I].
Qed.

(* --------------------------------------------------------------- all steps *)

Lemma will_step_lemma s t e s' :
  will_I s -> will_R s t -> step s e = Some s' -> exists t', wl_step t e = Some t' /\ will_R s' t'.
Proof.
  intros Hi HR. refine (step_sweep (fun s t => will_I s /\ will_R s t) (fun t e s' => exists t', wl_step t e = Some t' /\ will_R s' t')
                          _ _ _ _ _ _ _ _ _ _ s t e s' (conj Hi HR)); clear s t e s' Hi HR.
  - (* roles *) intros s t g d a c HP _ _. exact HP.
  - (* new *) intros s t _ _. exists wl_new. split; [reflexivity|]. split; [exact will_A_new|split; reflexivity].
  - (* close-req *) intros s t [_ HR]. exists t. split; [reflexivity|exact HR].
  - (* quiescent *) intros s t [_ HR] _. exists t. split; [reflexivity|exact HR].
  - (* kill *) intros s t g [_ HR] _. exists t. split; [reflexivity|exact HR].
  - (* closure *) intros s t e s' [_ HR] Hc. exists t. split; [apply wl_neutral_step, clo_event_wl_neutral, (step_clo_event _ _ _ Hc)|].
    destruct (step_clo_shape _ _ _ Hc) as (se & cl & dy & q & ->). exact HR.
  - (* processor: it runs while cleanup has not begun *)
    intros s s1 t e s' g [[Hi Hf] HR] _ Hv Hg Hp.
    assert (Hl : lp s = LNone).
    { destruct (lp s) eqn:El; try reflexivity;
        (assert (Hn : lp s <> LNone) by (rewrite El; discriminate)); destruct (Hf Hn) as (Hx & _);
        (assert (Hx1 : pp s1 = PDone) by (destruct Hv as [[-> _]|(_ & _ & -> & _)]; exact Hx));
        rewrite (step_proc_off _ _ Hx1) in Hp; discriminate Hp. }
    apply will_R_iff in HR as [HA HL]. rewrite Hl in HL. destruct HL as [L1 L2].
    destruct (step_proc_frame _ _ _ Hp) as (_ & _ & _ & _ & _ & Fl).
    destruct (will_proc s1 t e s' g (gproc s)) as (t' & Hst & HA' & P1 & P2); try assumption.
    + destruct Hv as [[-> _]|(_ & _ & -> & _)]; exact Hi.
    + destruct Hv as [[-> _]|(_ & _ & -> & _)]; exact HA.
    + destruct Hv as [[-> Hx]|(_ & _ & -> & _)]; [exact Hx|reflexivity].
    + destruct Hv as [[-> Hx]|(Hx & _ & -> & Hrx)]; [left; exact Hx|right; split; assumption].
    + exists t'. split; [exact Hst|]. apply will_R_iff. split; [exact HA'|]. rewrite Fl.
      replace (lp s1) with LNone by (destruct Hv as [[-> _]|(_ & _ & -> & _)]; symmetry; exact Hl).
      split; [rewrite P1; exact L1|rewrite P2; exact L2].
  - (* dequeuer *) intros s t e s' g [_ HR] _ _ _ _ Hp. exists t. split.
    + apply wl_neutral_step. apply step_deq_event in Hp. destruct e; try discriminate Hp; reflexivity.
    + destruct (step_deq_shape _ _ _ Hp) as (se & d & dy & t1 & t2 & t3 & ->). exact HR.
  - (* acker *) intros s t e s' g [_ HR] _ _ _ _ _ Hp. exists t. split.
    + apply wl_neutral_step. apply step_ack_event in Hp. destruct e; try discriminate Hp; reflexivity.
    + destruct (step_ack_shape _ _ _ Hp) as (a & dy & t1 & t2 & t3 & q & ->). exact HR.
  - (* cleanup: its goroutine is not the processor's *)
    intros s t e s' [_ HR] Ho Hp. apply (will_cleanup s); [exact HR| |exact Hp].
    destruct (ev_g e) as [g|] eqn:Eg; [right; exists g; split; [reflexivity|apply (Ho g Eg)]|left].
    apply step_cleanup_event in Hp. destruct e; try discriminate Hp; try discriminate Eg; reflexivity.
Qed.

Theorem c12_will_holds : forall es s, bc_run es = Some s -> c12_will es = true.
Proof.
  unfold c12_will.
  apply (scan_sound_inv wl_step will_I will_R will_I_init will_I_step will_step_lemma).
  exact will_R_init.
Qed.
