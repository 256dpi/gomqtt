(* ConnProofsB7.v — C07_pubrel_answered: at quiescence every PUBREL received on the
   live connection has been answered with PUBCOMP, unless the backend still withholds
   the acknowledgement of the publish it triggered.  A counting argument: every pending
   PUBREL is accounted for by the processor's program counter, by a closure that will
   still queue the PUBCOMP, or by a PUBCOMP in the ack queue — as long as nothing failed. *)
From Coq Require Import List NArith Bool Lia Arith.
From GM Require Import Base.Lts Codec.Packet Session.Ids Session.Store Session.StoreProofs
  Broker.Conn Broker.ConnSpec Broker.ConnBase Broker.ConnProofsA_inv Broker.ConnProofsB1 Broker.ConnProofsB3
  Broker.ConnProofsB4.
Import ListNotations.
Open Scope N_scope.

(* ------------------------------------------------------------------ counting *)

Definition cnt (x : N) (l : list N) : nat := length (filter (N.eqb x) l).

Lemma cnt_cons x y l : cnt x (y :: l) = ((if N.eqb x y then 1 else 0) + cnt x l)%nat.
Proof. unfold cnt. cbn [filter]. destruct (x =? y); reflexivity. Qed.

Lemma cnt_nremove1_same x l : cnt x (nremove1 x l) = pred (cnt x l).
Proof.
  induction l as [|y l IH]; [reflexivity|]. cbn [nremove1].
  destruct (y =? x) eqn:E.
  - rewrite cnt_cons, N.eqb_sym, E. reflexivity.
  - rewrite !cnt_cons, N.eqb_sym, E, IH. reflexivity.
Qed.

Lemma cnt_nremove1_other x k l : x <> k -> cnt x (nremove1 k l) = cnt x l.
Proof.
  intros Hne. induction l as [|y l IH]; [reflexivity|]. cbn [nremove1].
  destruct (y =? k) eqn:E.
  - apply N.eqb_eq in E. subst y. rewrite cnt_cons. destruct (x =? k) eqn:E'; [apply N.eqb_eq in E'; contradiction|reflexivity].
  - rewrite !cnt_cons, IH. reflexivity.
Qed.

Lemma cnt_pos_in x l : (0 < cnt x l)%nat -> In x l.
Proof.
  induction l as [|y l IH]; [cbn; lia|]. rewrite cnt_cons. destruct (x =? y) eqn:E.
  - apply N.eqb_eq in E. subst. intros _. left; reflexivity.
  - intros H. right. apply IH. lia.
Qed.

Lemma in_cnt_pos x l : In x l -> (0 < cnt x l)%nat.
Proof.
  induction l as [|y l IH]; [intros []|]. rewrite cnt_cons. intros [->|H].
  - rewrite N.eqb_refl. lia.
  - specialize (IH H). lia.
Qed.

(* generic: number of elements satisfying a predicate *)
Definition cntb {A} (f : A -> bool) (l : list A) : nat := length (filter f l).

Lemma cntb_app {A} (f : A -> bool) l1 l2 : cntb f (l1 ++ l2) = (cntb f l1 + cntb f l2)%nat.
Proof. unfold cntb. rewrite filter_app, app_length. reflexivity. Qed.

Lemma cntb_cons {A} (f : A -> bool) x l : cntb f (x :: l) = ((if f x then 1 else 0) + cntb f l)%nat.
Proof. unfold cntb. cbn [filter]. destruct (f x); reflexivity. Qed.

Lemma cntb_pos {A} (f : A -> bool) l : (0 < cntb f l)%nat -> exists x, In x l /\ f x = true.
Proof.
  induction l as [|y l IH]; [cbn; lia|]. rewrite cntb_cons. destruct (f y) eqn:E.
  - intros _. exists y. split; [left; reflexivity|exact E].
  - intros H. destruct (IH ltac:(lia)) as (x & Hx & Fx). exists x. split; [right; exact Hx|exact Fx].
Qed.

(* the PUBCOMPs in the ack queue *)
Definition is_pubcomp (id : N) (p : packet) : bool := match p with Pubcomp i => i =? id | _ => false end.

Lemma ackq_take_cnt q p q' id : ackq_take q p = Some q' ->
  cntb (is_pubcomp id) q = ((if is_pubcomp id p then 1 else 0) + cntb (is_pubcomp id) q')%nat.
Proof.
  revert q'. induction q as [|x q IH]; intros q' H; cbn [ackq_take] in H; [discriminate H|].
  destruct (packet_eqb x p) eqn:E.
  - injection H as <-. apply packet_eqb_eq in E. subst x. apply cntb_cons.
  - destruct (ackq_take q p) as [r|] eqn:Er; [|discriminate H]. injection H as <-.
    rewrite !cntb_cons, (IH r eq_refl). lia.
Qed.

(* the closures of connection n that will still queue PUBCOMP id *)
Definition clo_pend (n id : N) (c : closure) : bool :=
  (c_conn c =? n) &&
  match c_kind c with KPubcomp i => i =? id | _ => false end &&
  match c_stat c with CReg | CDel _ => true | _ => false end.

Lemma cntb_clo_set f l c st : NoDup (ckeys l) -> In c l ->
  (cntb f (clo_set l (c_k c) st) + (if f c then 1 else 0) =
   cntb f l + (if f (with_stat c st) then 1 else 0))%nat.
Proof.
  unfold with_stat. induction l as [|x l IH]; cbn [clo_set In ckeys map]; [tauto|].
  intros Hnd Hin. inversion Hnd as [|? ? Hx Hnd']; subst.
  destruct (c_k x =? c_k c) eqn:E.
  - apply N.eqb_eq in E. assert (x = c).
    { destruct Hin as [->|Hin]; [reflexivity|]. exfalso. apply Hx. rewrite E. apply in_map. exact Hin. }
    subst x. rewrite !cntb_cons. lia.
  - apply N.eqb_neq in E. destruct Hin as [->|Hin]; [congruence|].
    rewrite !cntb_cons. specialize (IH Hnd' Hin). lia.
Qed.

(* ------------------------------------------------------------- the relation *)

Definition proc_n (x : ppc) (id : N) : nat :=
  match x with
  | PRelLookup i | PRelPub i _ | PCompTx i => if N.eqb i id then 1 else 0
  | _ => 0
  end%nat.

Definition bound (s : bc) (id : N) : nat :=
  (proc_n (pp s) id + cntb (clo_pend (conn_no s) id) (clos s) + cntb (is_pubcomp id) (ackq s))%nat.

Definition ap_dead (x : apc) : bool := match x with ADieLog | ADieClose | ADone => true | _ => false end.
Definition st_dying (st : cstat) : bool := match st with CDieLog _ | CDieClose _ => true | _ => false end.

(* something failed on this connection (or it is closing): the obligation is void *)
Definition doomed (s : bc) : Prop :=
  lp s <> LNone \/ dying s = true \/ dead_pp (pp s) = true \/ ap_dead (ap s) = true \/
  exists c, In c (clos s) /\ c_conn c = conn_no s /\ st_dying (c_stat c) = true.

Definition pa_count (s : bc) (pend : list N) : Prop :=
  (pre_loop (pp s) = true -> pend = []) /\
  (pre_loop (pp s) = false -> ~ doomed s -> forall id, (cnt id pend <= bound s id)%nat).

Definition pa_inv (s : bc) (w : pa_st) : Prop :=
  reg_ok (clos s) (pa_wait w) /\ pa_count s (pa_pend w).

Definition pa_rel (s : bc) (w : pa_st) : Prop := last_rel s (pa_last w) /\ pa_inv s w.

Lemma pa_last_next w e w' : pa_step w e = Some w' -> pa_last w' = lt_next (pa_last w) e.
Proof. intros H. unfold pa_step in H. destruct e; bm H; inv_some H; subst; reflexivity. Qed.

Lemma quiescent_inv s : quiescent s = true ->
  pp s = PLoop /\ ackq s = [] /\ ~ doomed s /\ (forall c, In c (clos s) -> clo_idle c = true).
Proof.
  unfold quiescent. intros H.
  apply andb_true_iff in H. destruct H as [H Q8]. apply andb_true_iff in H. destruct H as [H Q7].
  apply andb_true_iff in H. destruct H as [H Q6]. apply andb_true_iff in H. destruct H as [H Q5].
  apply andb_true_iff in H. destruct H as [H Q4]. apply andb_true_iff in H. destruct H as [H Q3].
  apply andb_true_iff in H. destruct H as [Q1 Q2].
  destruct (pp s) eqn:Epp; try discriminate Q3. destruct (ap s) eqn:Eap; try discriminate Q5.
  destruct (ackq s) eqn:Eq; try discriminate Q6. destruct (lp s) eqn:Elp; try discriminate Q7.
  rewrite forallb_forall in Q8. split; [reflexivity|]. split; [reflexivity|]. split; [|exact Q8].
  intros [D|[D|[D|[D|(c & Hc & _ & D)]]]].
  - apply D. exact Elp.
  - rewrite D in Q2. discriminate Q2.
  - rewrite Epp in D. discriminate D.
  - rewrite Eap in D. discriminate D.
  - specialize (Q8 _ Hc). unfold clo_idle in Q8. destruct (c_stat c); discriminate.
Qed.

Lemma pa_quiescent s w : quiescent s = true -> pa_inv s w -> pa_step w EQuiescent = Some w.
Proof.
  intros Hq [HW [_ HN]]. destruct (quiescent_inv _ Hq) as (Epp & Eq & Hnd & Hidle).
  cbn [pa_step].
  assert (forallb (fun id => existsb (fun x => snd x =? id) (pa_wait w)) (pa_pend w) = true) as ->; [|reflexivity].
  apply forallb_forall. intros id Hid. apply in_cnt_pos in Hid.
  assert (Hp : pre_loop (pp s) = false) by (rewrite Epp; reflexivity).
  specialize (HN Hp Hnd id). unfold bound in HN. rewrite Epp, Eq in HN. cbn [proc_n cntb filter length] in HN.
  destruct (cntb_pos (clo_pend (conn_no s) id) (clos s) ltac:(unfold cntb in *; lia)) as (c & Hc & Fc).
  unfold clo_pend in Fc. apply andb_true_iff in Fc. destruct Fc as [Fc F3]. apply andb_true_iff in Fc. destruct Fc as [F1 F2].
  destruct (c_kind c) eqn:Ek; try discriminate F2. apply N.eqb_eq in F2. subst id0.
  specialize (Hidle _ Hc). unfold clo_idle in Hidle. destruct (c_stat c) eqn:Es; try discriminate F3; try discriminate Hidle.
  apply existsb_exists. exists (c_k c, id). split; [|apply N.eqb_refl].
  apply aget_in. eapply HW; eassumption.
Qed.

(* ------------------------------------------------------------ closure steps *)

Lemma reg_ok_adel l c m : NoDup (ckeys l) -> In c l -> c_stat c <> CReg -> reg_ok l m -> reg_ok l (adel m (c_k c)).
Proof.
  intros Hnd Hin Hst W c' id H Hk Hs. rewrite aget_adel_ne; [eapply W; eassumption|].
  intros E. assert (c' = c) by (eapply ckeys_inj; eassumption). subst c'. contradiction.
Qed.

(* the status of one closure changes; if it was dying it still is, or the connection now is *)
Lemma doomed_upd s s' c st : NoDup (ckeys (clos s)) -> In c (clos s) -> clo_frame s s' ->
  clos s' = clo_set (clos s) (c_k c) st ->
  (st_dying (c_stat c) = true -> c_conn c = conn_no s -> st_dying st = true \/ dying s' = true) ->
  doomed s -> doomed s'.
Proof.
  intros Hnd Hin (Elp & Epp & Eap & En & Edy) Et Hc D.
  destruct D as [D|[D|[D|[D|(c1 & H1 & N1 & S1)]]]].
  - left. rewrite Elp. exact D.
  - right. left. apply Edy, D.
  - right. right. left. rewrite Epp. exact D.
  - right. right. right. left. rewrite Eap. exact D.
  - destruct (N.eq_dec (c_k c1) (c_k c)) as [E|E].
    + assert (c1 = c) by (eapply ckeys_inj; eassumption). subst c1.
      destruct (Hc S1 N1) as [Hs|Hd]; [|right; left; exact Hd].
      right. right. right. right. exists (with_stat c st). rewrite Et, En. cbn [with_stat c_conn c_stat].
      split; [apply clo_set_in_same; auto|auto].
    + right. right. right. right. exists c1. rewrite Et, En. split; [apply clo_set_in_other; assumption|auto].
Qed.

Lemma doomed_same s s' : lp s' = lp s -> pp s' = pp s -> ap s' = ap s -> conn_no s' = conn_no s ->
  (dying s = true -> dying s' = true) -> (forall c, In c (clos s) -> In c (clos s')) -> doomed s -> doomed s'.
Proof.
  intros Elp Epp Eap En Edy Et D.
  destruct D as [D|[D|[D|[D|(c1 & H1 & N1 & S1)]]]].
  - left. rewrite Elp. exact D.
  - right. left. apply Edy, D.
  - right. right. left. rewrite Epp. exact D.
  - right. right. right. left. rewrite Eap. exact D.
  - right. right. right. right. exists c1. rewrite En. auto.
Qed.

Lemma doomed_clo s e s' : NoDup (ckeys (clos s)) -> clo_nf s e s' -> clo_frame s s' -> doomed s -> doomed s'.
Proof.
  intros Hnd H Hf.
  destruct H as [c g id _ Hin Hst _ _ Ec _ _ | c g _ Hin Hst _ _ Ec _ _ | c g id ok _ Hin Hst _ Ec _ _
                | c g st Hl Hin Ec _ _ | c g _ _ _ _ ->];
    [apply (doomed_upd s s' c _ Hnd Hin Hf Ec)..|exact (fun D => D)].
  - rewrite Hst. intros E; discriminate E.
  - rewrite Hst. intros E; discriminate E.
  - rewrite Hst. intros E; discriminate E.
  - destruct Hl as [E|E Hd|E]; rewrite E.
    + intros _ _. left. reflexivity.
    + intros _ Ec'. right. exact (Hd Ec').
    + intros D; discriminate D.
Qed.

Lemma clo_pend_idle n id c : idle_st (c_stat c) = true -> clo_pend n id c = false.
Proof. unfold clo_pend. destruct (c_stat c); try discriminate; intros _; apply andb_false_r. Qed.

Lemma clo_pend_other n id c : (forall i, c_kind c <> KPubcomp i) -> clo_pend n id c = false.
Proof.
  unfold clo_pend. intros Hk. destruct (c_kind c) eqn:Ek; try (rewrite andb_false_r; reflexivity).
  exfalso. eapply Hk. reflexivity.
Qed.

Lemma enq_cnt s c id : cntb (is_pubcomp id) (ackq (clo_enqueue s c)) =
  (cntb (is_pubcomp id) (ackq s) + (if clo_live s c && is_pubcomp id (ack_packet (c_kind c)) then 1 else 0))%nat.
Proof.
  unfold clo_enqueue. destruct (clo_live s c); cbn [andb]; [|lia].
  cbn [ackq set_ackq]. rewrite cntb_app, cntb_cons. unfold cntb at 2. cbn [filter length]. lia.
Qed.

(* on a connection that is not doomed, a closure step moves a pending PUBCOMP from the closure
   table to the ack queue, or nowhere *)
Lemma bound_clo s e s' : NoDup (ckeys (clos s)) -> clo_nf s e s' -> clo_frame s s' -> ~ doomed s' ->
  forall id, bound s' id = bound s id.
Proof.
  intros Hnd H (Elp & Epp & Eap & En & Edy) Hnd' id. unfold bound. rewrite Epp, En.
  destruct H as [c g id0 _ Hin Hst Hk _ Ec _ Eq | c g _ Hin Hst Hk _ Ec _ Eq | c g id0 ok _ Hin Hst Hk Ec _ Eq
                | c g st Hl Hin Ec _ Eq | c g _ _ _ _ ->]; [| | | |reflexivity]; rewrite Ec, Eq.
  - (* CReg -> CDel: pending before and after *)
    pose proof (cntb_clo_set (clo_pend (conn_no s) id) _ c (CDel g) Hnd Hin) as E.
    assert (F : clo_pend (conn_no s) id (with_stat c (CDel g)) = clo_pend (conn_no s) id c) by (unfold clo_pend; rewrite Hst; reflexivity).
    rewrite F in E. lia.
  - (* another kind *)
    pose proof (cntb_clo_set (clo_pend (conn_no s) id) _ c (CRun g) Hnd Hin) as E.
    rewrite (clo_pend_other _ _ c Hk), (clo_pend_other _ _ (with_stat c (CRun g)) Hk) in E.
    rewrite enq_cnt. destruct (c_kind c) eqn:Ek; cbn [ack_packet is_pubcomp]; rewrite ?andb_false_r; try lia.
    exfalso. eapply Hk. reflexivity.
  - assert (F1 : clo_pend (conn_no s) id c = (c_conn c =? conn_no s) && (id0 =? id)).
    { unfold clo_pend. rewrite Hk, Hst. apply andb_true_r. }
    destruct ok.
    + (* CDel -> CRun: the PUBCOMP is queued if the closure's connection is the live one *)
      pose proof (cntb_clo_set (clo_pend (conn_no s) id) _ c (CRun g) Hnd Hin) as E.
      rewrite (clo_pend_idle _ _ (with_stat c (CRun g)) eq_refl), F1 in E.
      assert (Hlp : lp s = LNone).
      { destruct (lp s) eqn:El; try reflexivity; exfalso; apply Hnd'; left; rewrite Elp; discriminate. }
      rewrite enq_cnt. unfold clo_live. rewrite Hlp, Hk. cbn [negb ack_packet is_pubcomp]. rewrite andb_true_r. lia.
    + (* CDel -> CDieLog: the closure belongs to another connection *)
      pose proof (cntb_clo_set (clo_pend (conn_no s) id) _ c (CDieLog g) Hnd Hin) as E.
      rewrite (clo_pend_idle _ _ (with_stat c (CDieLog g)) eq_refl), F1 in E.
      destruct (c_conn c =? conn_no s) eqn:En'; [exfalso|cbn [andb] in E; lia].
      apply Hnd'. right. right. right. right. exists (with_stat c (CDieLog g)). rewrite Ec, En.
      split; [apply clo_set_in_same; auto|]. split; [apply N.eqb_eq, En'|reflexivity].
  - destruct (late_tr_on _ _ _ _ _ _ Hl) as (_ & Hi & Hi').
    pose proof (cntb_clo_set (clo_pend (conn_no s) id) _ c st Hnd Hin) as E.
    rewrite (clo_pend_idle _ _ c Hi), (clo_pend_idle _ _ (with_stat c st) Hi') in E. lia.
Qed.

Lemma pa_count_clo s e s' pend : NoDup (ckeys (clos s)) -> clo_nf s e s' -> clo_frame s s' ->
  pa_count s pend -> pa_count s' pend.
Proof.
  intros Hnd H Hf [C1 C2]. pose proof Hf as (_ & Epp & _).
  split; rewrite Epp; [exact C1|].
  intros Hp Hnd' id. rewrite (bound_clo _ _ _ Hnd H Hf Hnd'). apply C2; [exact Hp|].
  intros D. apply Hnd'. eapply doomed_clo; eassumption.
Qed.

Lemma pa_inv_clo s w e s' : inv_c07 s -> pa_inv s w -> step_clo s e = Some s' ->
  exists w', pa_step w e = Some w' /\ pa_inv s' w'.
Proof.
  intros (I1 & _) [HW HC] H. apply step_clo_nf in H. destruct H as [H Hf].
  pose proof (pa_count_clo _ _ _ _ I1 H Hf HC) as HC'.
  destruct H as [c g id -> Hin Hst _ _ Ec _ _ | c g -> Hin Hst _ _ Ec _ _ | c g id ok -> Hin Hst _ Ec _ _
                | c g st Hl Hin Ec _ _ | c g He Hin Hst _ ->].
  - eexists. split; [reflexivity|]. split; [rewrite Ec|exact HC']. apply reg_ok_set_adel; auto. discriminate.
  - eexists. split; [reflexivity|]. split; [rewrite Ec|exact HC']. apply reg_ok_set_adel; auto. discriminate.
  - eexists. split; [reflexivity|]. split; [rewrite Ec|exact HC']. apply reg_ok_set; auto. destruct ok; discriminate.
  - destruct (late_tr_on _ _ _ _ _ _ Hl) as (_ & _ & Hi).
    exists w. split; [destruct Hl; reflexivity|]. split; [rewrite Ec|exact HC']. apply reg_ok_set; auto. apply idle_not_reg, Hi.
  - (* a finished closure: the scanner forgets a key that no registered closure has *)
    destruct He as [-> | ->]; (eexists; split; [reflexivity|]); (split; [|exact HC']); [|exact HW].
    apply reg_ok_adel; auto. rewrite Hst. discriminate.
Qed.

(* ---------------------------------------------------------- processor steps *)

Lemma step_proc_frame2 s e s' : step_proc s e = Some s' ->
  lp s' = lp s /\ conn_no s' = conn_no s /\ (dying s = true -> dying s' = true) /\
  (pre_loop (pp s) = false -> ap s' = ap s) /\ (dead_pp (pp s) = true -> dead_pp (pp s') = true) /\
  (forall c, In c (clos s) -> In c (clos s')).
Proof.
  intros H. inv_proc H; pp_split; try dispatch_cases Hd; pp_cases; sfp; try rewrite Hpp; cbn [pre_loop dead_pp];
    repeat split; try reflexivity; try (intros; assumption); try (intros E; discriminate E);
    try (intros c1 Hc1; apply in_app_iff; left; exact Hc1).
Qed.

Lemma doomed_proc s e s' : step_proc s e = Some s' -> pre_loop (pp s) = false -> doomed s -> doomed s'.
Proof.
  intros H Hp D. destruct (step_proc_frame2 _ _ _ H) as (Elp & En & Edy & Eap & Edead & Ecl).
  destruct D as [D|[D|[D|[D|(c1 & H1 & N1 & S1)]]]].
  - left. rewrite Elp. exact D.
  - right. left. apply Edy, D.
  - right. right. left. apply Edead, D.
  - right. right. right. left. rewrite (Eap Hp). exact D.
  - right. right. right. right. exists c1. rewrite En. auto.
Qed.

Lemma cnt_nremove1_le x k l : (cnt x (nremove1 k l) <= cnt x l)%nat.
Proof.
  destruct (N.eq_dec x k) as [->|Hne]; [rewrite cnt_nremove1_same; lia|rewrite cnt_nremove1_other by exact Hne; lia].
Qed.

Lemma cntb_clo_app_other n id l k n' a : (forall i, a <> KPubcomp i) ->
  cntb (clo_pend n id) (l ++ [Clo k n' a CReg]) = cntb (clo_pend n id) l.
Proof.
  intros Ha. rewrite cntb_app, cntb_cons. unfold clo_pend at 2. cbn [c_kind c_conn c_stat].
  destruct a; try (rewrite andb_false_r; cbn [andb]; unfold cntb; cbn [filter length]; lia).
  exfalso. eapply Ha. reflexivity.
Qed.

Lemma cntb_clo_app_pc n id l k i :
  cntb (clo_pend n id) (l ++ [Clo k n (KPubcomp i) CReg]) = (cntb (clo_pend n id) l + (if N.eqb i id then 1 else 0))%nat.
Proof.
  rewrite cntb_app, cntb_cons. unfold clo_pend at 2. cbn [c_kind c_conn c_stat].
  rewrite N.eqb_refl, andb_true_r. cbn [andb]. unfold cntb at 2. cbn [filter length]. lia.
Qed.

Ltac pa_count_tac s C1 C2 Hdm Epp :=
  sfp; cbn [pre_loop pa_pend]; split;
  [ let Hp := fresh "Hp" in intros Hp; first [discriminate Hp | exact (C1 eq_refl)]
  | let Hnd' := fresh "Hnd'" in let id := fresh "id" in
    intros _ Hnd' id;
    first [ exfalso; apply Hnd'; right; right; left; reflexivity
          | rewrite (C1 eq_refl); unfold cnt; cbn [filter length]; lia
          | let Hn := fresh "Hn" in
            assert (Hn : ~ doomed s) by (let D := fresh "D" in intro D; apply Hnd'; apply Hdm; [reflexivity|exact D]);
            specialize (C2 eq_refl Hn id); unfold bound in *; rewrite Epp in C2; sfp; cbn [proc_n] in *; lia ] ].

Lemma pa_inv_proc s w e s' g : gproc s = Some g -> ev_g e = Some g ->
  plast (pp s) (aget (pa_last w) g) -> pa_inv s w -> step_proc s e = Some s' ->
  exists w', pa_step w e = Some w' /\ pa_inv s' w'.
Proof.
  intros Hg Heg HL [HW [C1 C2]] H.
  pose proof (doomed_proc _ _ _ H) as Hdm.
  inv_proc H; cbn [ev_g] in Heg; injection Heg as ->; pp_split; try dispatch_cases Hd; pp_cases;
    pose proof Hpp as Epp; try rewrite Epp in *; cbn [pre_loop] in *; sfp.
  all: try (eexists; split; [reflexivity|];
            split; [first [exact HW | apply reg_ok_app_other; [discriminate|exact HW]]|];
            pa_count_tac s C1 C2 Hdm Epp).
  (* PResend: nothing is pending before the loop *)
  1-3: (specialize (C1 eq_refl);
        assert (Ew : forall ok, pa_step w (ETx g (set_dup p0) true ok) = Some w)
          by (intros ok; destruct w as [wl wp ww]; cbn [pa_pend] in C1; subst wp; destruct p0; destruct ok; reflexivity);
        exists w; split; [apply Ew|]; split; [exact HW|];
        cbn [pre_loop]; split; intros Hp; try discriminate Hp; try exact C1;
        intros Hnd'; exfalso; apply Hnd'; right; right; left; reflexivity).
  - (* a PUBREL is received *)
    eexists. split; [reflexivity|]. split; [exact HW|]. cbn [pa_pend pre_loop]. split; [intros Hp; discriminate Hp|].
    intros _ Hnd' id0.
    assert (Hn : ~ doomed s) by (intro D; apply Hnd'; apply Hdm; [reflexivity|exact D]).
    specialize (C2 eq_refl Hn id0). unfold bound in *. rewrite Epp in C2. sfp. cbn [proc_n] in *.
    rewrite cnt_cons. rewrite (N.eqb_sym id0 id). destruct (N.eqb id id0); lia.
  - (* a SUBACK closure is registered *)
    eexists. split; [reflexivity|]. split; [apply reg_ok_app_other; [discriminate|exact HW]|].
    cbn [pa_pend pre_loop]. split; [intros Hp; discriminate Hp|]. intros _ Hnd' id1.
    assert (Hn : ~ doomed s) by (intro D; apply Hnd'; apply Hdm; [reflexivity|exact D]).
    specialize (C2 eq_refl Hn id1). unfold bound in *. rewrite Epp in C2. sfp. cbn [proc_n] in *.
    rewrite cntb_clo_app_other by discriminate. lia.
  - eexists. split; [reflexivity|]. split; [apply reg_ok_app_other; [discriminate|exact HW]|].
    cbn [pa_pend pre_loop]. split; [intros Hp; discriminate Hp|]. intros _ Hnd' id1.
    assert (Hn : ~ doomed s) by (intro D; apply Hnd'; apply Hdm; [reflexivity|exact D]).
    specialize (C2 eq_refl Hn id1). unfold bound in *. rewrite Epp in C2. sfp. cbn [proc_n] in *.
    rewrite cntb_clo_app_other by discriminate. lia.
  - (* a PUBACK closure is registered *)
    cbn [plast] in HL. destruct HL as (d & m' & HL).
    exists w. split; [cbn [pa_step]; rewrite HL; reflexivity|]. split; [apply reg_ok_app_other; [discriminate|exact HW]|].
    cbn [pa_pend pre_loop]. split; [intros Hp; discriminate Hp|]. intros _ Hnd' id1.
    assert (Hn : ~ doomed s) by (intro D; apply Hnd'; apply Hdm; [reflexivity|exact D]).
    specialize (C2 eq_refl Hn id1). unfold bound in *. rewrite Epp in C2. sfp. cbn [proc_n] in *.
    rewrite cntb_clo_app_other by discriminate. lia.
  - (* the PUBCOMP closure is registered: the processor hands the obligation to it *)
    cbn [plast] in HL.
    eexists. split; [cbn [pa_step]; rewrite HL; reflexivity|]. cbn [pa_wait pa_pend].
    split; [apply reg_ok_app_pc; assumption|].
    cbn [pa_pend pre_loop]. split; [intros Hp; discriminate Hp|]. intros _ Hnd' id1.
    assert (Hn : ~ doomed s) by (intro D; apply Hnd'; apply Hdm; [reflexivity|exact D]).
    specialize (C2 eq_refl Hn id1). unfold bound in *. rewrite Epp in C2. sfp. cbn [proc_n] in *.
    rewrite cntb_clo_app_pc. destruct (N.eqb id0 id1); lia.
  - (* the processor answers an unknown PUBREL itself *)
    eexists. split; [reflexivity|]. split; [exact HW|]. cbn [pa_pend pre_loop]. split; [intros Hp; discriminate Hp|].
    intros _ Hnd' j.
    assert (Hn : ~ doomed s) by (intro D; apply Hnd'; apply Hdm; [reflexivity|exact D]).
    specialize (C2 eq_refl Hn j). unfold bound in *. rewrite Epp in C2. sfp. cbn [proc_n] in *.
    destruct (N.eqb x j) eqn:E.
    + apply N.eqb_eq in E. subst j. rewrite cnt_nremove1_same. lia.
    + rewrite cnt_nremove1_other; [lia|]. intros ->. rewrite N.eqb_refl in E. discriminate E.
Qed.

(* ------------------------------------------------------- the other coroutines *)

Lemma pa_inv_deq s w e s' : pa_inv s w -> step_deq s e = Some s' ->
  exists w', pa_step w e = Some w' /\ pa_inv s' w'.
Proof.
  intros [HW [C1 C2]] H. pose proof (step_deq_event _ _ _ H) as Hev.
  apply step_deq_frame in H. destruct H as (_ & Ecl & Epp & _ & En & Elp & Eq & Eap & Edy).
  assert (Hb : forall id, bound s' id = bound s id) by (intros id; unfold bound; rewrite Epp, En, Ecl, Eq; reflexivity).
  assert (Hd : doomed s -> doomed s') by (apply doomed_same; auto; rewrite Ecl; auto).
  assert (Hsame : pa_inv s' w).
  { split; [rewrite Ecl; exact HW|]. split; rewrite Epp; [exact C1|]. intros Hp Hnd' id. rewrite Hb. apply C2; auto. }
  destruct e; try discriminate Hev; try (exists w; split; [reflexivity|exact Hsame]).
  (* a send: if it is a PUBCOMP the scanner forgets one pending id, which is harmless *)
  destruct p; try (exists w; split; [reflexivity|exact Hsame]).
  destruct ok; [|exists w; split; [reflexivity|exact Hsame]].
  eexists. split; [reflexivity|]. cbn [pa_wait pa_pend]. split; [rewrite Ecl; exact HW|].
  split; rewrite Epp.
  - intros Hp. rewrite (C1 Hp). reflexivity.
  - intros Hp Hnd' j. rewrite Hb. etransitivity; [apply cnt_nremove1_le|]. apply C2; auto.
Qed.

Lemma pa_inv_ack s w e s' : pa_inv s w -> step_ack s e = Some s' ->
  exists w', pa_step w e = Some w' /\ pa_inv s' w'.
Proof.
  intros [HW [C1 C2]] H. unfold step_ack in H.
  destruct (ap s) eqn:Eap; destruct e; try discriminate H.
  - (* AIdle: a queued packet is sent *)
    destruct async; [|discriminate H]. destruct (ackq_take (ackq s) p) as [q'|] eqn:Et; [|discriminate H].
    destruct ok; injection H as <-.
    + assert (Hfr : forall j, (bound (ack_token_back (set_ackq s q') p) j + (if is_pubcomp j p then 1 else 0) = bound s j)%nat).
      { intros j. unfold bound, ack_token_back. rewrite (ackq_take_cnt _ _ _ j Et). destruct p; sf; lia. }
      assert (Hd : doomed s -> doomed (ack_token_back (set_ackq s q') p)).
      { unfold ack_token_back. destruct p; sf; apply doomed_same; auto. }
      assert (Epp : pp (ack_token_back (set_ackq s q') p) = pp s) by (unfold ack_token_back; destruct p; reflexivity).
      assert (Ecl : clos (ack_token_back (set_ackq s q') p) = clos s) by (unfold ack_token_back; destruct p; reflexivity).
      destruct p; try (exists w; split; [reflexivity|]; split; [rewrite Ecl; exact HW|]; split; rewrite Epp; [exact C1|];
                       intros Hp Hnd' j; specialize (Hfr j); cbn [is_pubcomp] in Hfr; specialize (C2 Hp (fun D => Hnd' (Hd D)) j); lia).
      eexists. split; [reflexivity|]. cbn [pa_wait pa_pend]. split; [rewrite Ecl; exact HW|]. split; rewrite Epp.
      * intros Hp. rewrite (C1 Hp). reflexivity.
      * intros Hp Hnd' j. specialize (Hfr j). cbn [is_pubcomp] in Hfr. specialize (C2 Hp (fun D => Hnd' (Hd D)) j).
        cbn [pa_pend]. destruct (N.eqb id j) eqn:E.
        -- apply N.eqb_eq in E. subst j. rewrite cnt_nremove1_same. lia.
        -- rewrite cnt_nremove1_other; [lia|]. intros ->. rewrite N.eqb_refl in E. discriminate E.
    + (* the write failed *)
      assert (Ew : pa_step w (ETx g p true false) = Some w) by (destruct p; reflexivity).
      exists w. split; [exact Ew|]. split; [exact HW|]. sf. split; [exact C1|].
      intros _ Hnd'. exfalso. apply Hnd'. right. right. right. left. reflexivity.
  - destruct k; try discriminate H. injection H as <-.
    exists w. split; [reflexivity|]. split; [exact HW|]. sf. split; [exact C1|].
    intros _ Hnd'. exfalso. apply Hnd'. right. right. right. left. reflexivity.
  - injection H as <-.
    exists w. split; [reflexivity|]. split; [exact HW|]. sf. split; [exact C1|].
    intros _ Hnd'. exfalso. apply Hnd'. right. right. right. left. reflexivity.
Qed.

Lemma pa_inv_cleanup s w e s' : pa_inv s w -> step_cleanup s e = Some s' ->
  exists w', pa_step w e = Some w' /\ pa_inv s' w'.
Proof.
  intros [HW [C1 C2]] H. exists w. split.
  - apply step_cleanup_event in H. destruct e; try discriminate H; try reflexivity; destruct k; try discriminate H; reflexivity.
  - apply step_cleanup_frame in H. destruct H as (_ & _ & Ecl & _ & _ & _ & Hp & Hlp).
    split; [rewrite Ecl; exact HW|]. split.
    + intros Hpre. destruct Hp as [Hp|Hp]; rewrite Hp in Hpre; [exact (C1 Hpre)|discriminate Hpre].
    + intros _ Hnd'. exfalso. apply Hnd'. left. exact Hlp.
Qed.

Lemma pa_inv_hstep s w e s' : inv_c07 s -> pa_rel s w -> step s e = Some s' ->
  exists w', pa_step w e = Some w' /\ pa_inv s' w'.
Proof.
  intros Hi HR. refine (step_sweep (fun s w => inv_c07 s /\ pa_rel s w) (fun w e s' => exists w', pa_step w e = Some w' /\ pa_inv s' w')
                          _ _ _ _ _ _ _ _ _ _ s w e s' (conj Hi HR)); clear s w e s' Hi HR.
  - (* roles *) intros s w g d a c HP _ _. exact HP.
  - (* a new connection *)
    intros s w [_ [_ [HW _]]] _. eexists. split; [reflexivity|]. split; [exact HW|]. sf. split; cbn [pre_loop]; [reflexivity|discriminate].
  - (* close-req *) intros s w [_ [_ HR]]. exists w. split; [reflexivity|exact HR].
  - (* quiescence *)
    intros s w [_ [_ HR]] Hq. exists w. split; [apply (pa_quiescent s); assumption|exact HR].
  - (* the connection is closed from outside *)
    intros s w g [_ [_ [HW [C1 C2]]]] _. exists w. split; [reflexivity|]. split; [exact HW|]. sf. split; [exact C1|].
    intros _ Hnd'. exfalso. apply Hnd'. right. left. reflexivity.
  - (* closure *) intros s w e s' [Hi [_ HR]] H. eapply pa_inv_clo; eassumption.
  - (* processor *) intros s s1 w e s' g [_ [HL HR]] _ Hv Hev H. apply (pa_inv_proc s1 w e s' g); try assumption.
    + destruct Hv as [[-> Hg]|(_ & _ & -> & _)]; [exact Hg|reflexivity].
    + exact (last_rel_view _ _ _ _ _ Hv HL).
    + destruct Hv as [[-> _]|(_ & _ & -> & _)]; exact HR.
  - (* dequeuer *) intros s w e s' g [_ [_ HR]] _ _ _ _ H. eapply pa_inv_deq; eassumption.
  - (* acker *) intros s w e s' g [_ [_ HR]] _ _ _ _ _ H. eapply pa_inv_ack; eassumption.
  - (* cleanup *) intros s w e s' [_ [_ HR]] _ H. eapply pa_inv_cleanup; eassumption.
Qed.

Lemma pa_hstep s w e s' : inv_c07 s -> pa_rel s w -> step s e = Some s' ->
  exists w', pa_step w e = Some w' /\ pa_rel s' w'.
Proof.
  intros Hi HR H. destruct (pa_inv_hstep _ _ _ _ Hi HR H) as (w' & Ew & HR').
  exists w'. split; [exact Ew|]. split; [|exact HR'].
  rewrite (pa_last_next _ _ _ Ew). apply (last_hstep _ _ _ _ (proj1 HR) H).
Qed.

Theorem pubrel_answered : forall es s, bc_run es = Some s -> c07_pubrel_answered es = true.
Proof.
  unfold c07_pubrel_answered.
  apply (scan_sound_inv pa_step inv_c07 pa_rel inv_c07_init inv_c07_step pa_hstep).
  split; [exact I|]. split; [intros c id []|]. split; [discriminate|].
  intros _ Hnd. exfalso. apply Hnd. right. right. left. reflexivity.
Qed.
