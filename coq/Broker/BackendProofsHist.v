(* BackendProofsHist.v — from steps to histories: every step of every history from the
   initial state satisfies every clause; the retained map is the fold of the
   history's publishes. *)
From Coq Require Import List NArith Bool Lia.
From Coq.Strings Require Import Byte.
From GM Require Import Codec.Packet Topic.MatchSpec Broker.Backend Broker.BackendSpec
  Broker.BackendProofs Broker.BackendProofsPublish Broker.BackendEffect Broker.BackendProofsSteps Broker.BackendProofsReplay
  Broker.BackendOwn.
Import ListNotations.
Open Scope N_scope.

(* the observed steps of a history *)
Fixpoint trace (st : state) (ops : list op) : list (state * op * result * state) :=
  match ops with
  | [] => []
  | o :: ops' => let (r, st') := step st o in (st, o, r, st') :: trace st' ops'
  end.

(* clause P holds at every step whose oracle argument is a possible outcome *)
Definition holds_along (P : state -> op -> result -> state -> bool) (cap : N) (ops : list op) : Prop :=
  Forall (fun x => let '(st, o, r, st') := x in r <> RBadOracle -> P st o r st' = true) (trace (init cap) ops).

Lemma trace_cons st o ops :
  trace st (o :: ops) = (st, o, fst (step st o), snd (step st o)) :: trace (snd (step st o)) ops.
Proof. cbn [trace]. destruct (step st o); reflexivity. Qed.

Lemma trace_forall (P : state -> Prop) (Q : state * op * result * state -> Prop) :
  (forall st o, P st -> P (snd (step st o))) ->
  (forall st o, P st -> Q (st, o, fst (step st o), snd (step st o))) ->
  forall ops st, P st -> Forall Q (trace st ops).
Proof.
  intros HP HQ ops. induction ops as [|o ops IH]; intros st H; [constructor|].
  rewrite trace_cons. constructor; [apply HQ, H|apply IH, HP, H].
Qed.

Lemma trace_snoc ops : forall st o,
  trace st (ops ++ [o]) = trace st ops ++ [(run_state st ops, o, fst (step (run_state st ops) o), snd (step (run_state st ops) o))].
Proof.
  induction ops as [|o' ops IH]; intros st o; cbn [app].
  - rewrite trace_cons. reflexivity.
  - rewrite !trace_cons, run_state_cons, IH. reflexivity.
Qed.

Lemma run_state_snoc ops : forall st o, run_state st (ops ++ [o]) = snd (step (run_state st ops) o).
Proof.
  induction ops as [|o' ops IH]; intros st o; cbn [app].
  - rewrite run_state_cons. reflexivity.
  - rewrite !run_state_cons. apply IH.
Qed.

Lemma history_invariant (J : list (state * op * result * state) -> state -> Prop) st0 :
  J [] st0 ->
  (forall past st o, J past st -> J (past ++ [(st, o, fst (step st o), snd (step st o))]) (snd (step st o))) ->
  forall ops, J (trace st0 ops) (run_state st0 ops).
Proof.
  intros J0 Jstep ops. induction ops as [|o ops IH] using rev_ind; [exact J0|].
  rewrite trace_snoc, run_state_snoc. apply Jstep, IH.
Qed.

Lemma trace_split ops : forall st (l1 : list (state * op * result * state)) x l2,
  trace st ops = l1 ++ x :: l2 ->
  exists ops1 o ops2,
    ops = ops1 ++ o :: ops2 /\ l1 = trace st ops1 /\
    x = (run_state st ops1, o, fst (step (run_state st ops1) o), snd (step (run_state st ops1) o)) /\
    l2 = trace (snd (step (run_state st ops1) o)) ops2.
Proof.
  induction ops as [|o ops IH]; intros st l1 x l2 H.
  - destruct l1; discriminate.
  - rewrite trace_cons in H. destruct l1 as [|y l1]; cbn [app] in H.
    + injection H as <- <-. exists [], o, ops. repeat split.
    + injection H as <- H. destruct (IH _ _ _ _ H) as (ops1 & o' & ops2 & E1 & E2 & E3 & E4).
      exists (o :: ops1), o', ops2. rewrite run_state_cons. subst. rewrite trace_cons. repeat split.
Qed.

Lemma trace_step_facts cap ops st o r st' :
  In (st, o, r, st') (trace (init cap) ops) -> wf st /\ Own st /\ step st o = (r, st').
Proof.
  revert st o r st'.
  assert (F : Forall (fun x => let '(st, o, r, st') := x in wf st /\ Own st /\ step st o = (r, st')) (trace (init cap) ops)).
  { apply (trace_forall (fun st => wf st /\ Own st)).
    - intros st o [W O]. split; [apply wf_step, W|apply own_step, O].
    - intros st o [W O]. split; [exact W|]. split; [exact O|apply surjective_pairing].
    - split; [apply wf_init|apply own_init]. }
  intros st o r st'. exact (proj1 (Forall_forall _ _) F (st, o, r, st')).
Qed.

Lemma holds_along_intro (P : state -> op -> result -> state -> bool) :
  (forall st o, wf st -> Own st -> let (r, st') := step st o in r <> RBadOracle -> P st o r st' = true) ->
  forall cap ops, holds_along P cap ops.
Proof.
  intros H cap ops. apply Forall_forall. intros [[[st o] r] st'] Hin.
  destruct (trace_step_facts _ _ _ _ _ _ Hin) as (W & O & E). specialize (H st o W O). rewrite E in H. exact H.
Qed.

Lemma holds_along_always (P : state -> op -> result -> state -> bool) :
  (forall st o, wf st -> Own st -> let (r, st') := step st o in P st o r st' = true) ->
  forall cap ops, holds_along P cap ops.
Proof.
  intros H. apply holds_along_intro. intros st o W O. specialize (H st o W O). destruct (step st o). intros _; exact H.
Qed.

Theorem targets_along cap ops : holds_along targets_ok cap ops.
Proof. apply holds_along_always. intros st o W O. apply step_targets_ok; [exact W|apply own_ownok, O]. Qed.

Theorem live_copy_along cap ops : holds_along live_copy_ok cap ops.
Proof. apply holds_along_always. intros st o W _. apply step_live_copy_ok, W. Qed.

Theorem qos_along cap ops : holds_along qos_ok cap ops.
Proof. apply holds_along_always. intros st o W _. apply step_qos_ok, W. Qed.

Theorem resub_along cap ops : holds_along resub_ok cap ops.
Proof. apply holds_along_intro. intros st o _ _. apply step_resub_ok. Qed.

Theorem unsub_along cap ops : holds_along unsub_ok cap ops.
Proof. apply holds_along_always. intros st o W _. apply step_unsub_ok, W. Qed.

Theorem replay_along cap ops : holds_along replay_ok cap ops.
Proof. apply holds_along_intro. intros st o W _. apply step_replay_ok, W. Qed.

Theorem retained_along cap ops : holds_along retained_ok cap ops.
Proof. apply holds_along_always. intros st o W O. apply step_retained_ok; [exact W|apply own_ownok, O]. Qed.

(* a Publish that returns ErrQueueFull has changed nothing *)
Theorem refused_along cap ops : holds_along refused_ok cap ops.
Proof. apply holds_along_always. intros st o W O. apply step_refused_ok; [exact W|apply own_ownok, O]. Qed.

(* the publish of a closing connection (its will) is never refused *)
Theorem closing_accepted_along cap ops : holds_along closing_accepted_ok cap ops.
Proof. apply holds_along_always. intros st o W O. apply step_closing_accepted_ok; [exact W|apply own_ownok, O]. Qed.

(* ------------------------------------------------------------------ the retained map as a fold over the history *)
(* the publishes of a history that were accepted (a refused or a waiting call has done nothing) *)
Fixpoint effective_pubs (ops : list op) (rs : list result) : list message :=
  match ops, rs with
  | OPublish _ m _ :: ops', r :: rs' =>
      (match r with ROk => [m] | _ => [] end) ++ effective_pubs ops' rs'
  | _ :: ops', _ :: rs' => effective_pubs ops' rs'
  | _, _ => []
  end.

(* MQTT 3.3.1.3: what is retained for topic t after the publishes, starting from `start` *)
Definition retained_fold (start : option message) (pubs : list message) (t : bytes) : option message :=
  fold_left (fun acc m => if m_retain m && bytes_eqb t (m_topic m)
                          then (if is_nil (m_payload m) then None else Some m) else acc) pubs start.
Definition retained_spec (pubs : list message) (t : bytes) : option message := retained_fold None pubs t.

Lemma retained_run ops : forall st t, wf st -> Own st ->
  alookup bytes_eqb t (st_retained (snd (run st ops))) =
  retained_fold (alookup bytes_eqb t (st_retained st)) (effective_pubs ops (fst (run st ops))) t.
Proof.
  induction ops as [|o ops IH]; intros st t W O; cbn [run]; [reflexivity|].
  pose proof (wf_step st o W) as W1. pose proof (own_step st o O) as O1.
  destruct (step st o) as [r st1] eqn:E. cbn [snd] in W1, O1. specialize (IH st1 t W1 O1).
  destruct (run st1 ops) as [rs st2]. cbn [fst snd] in *.
  assert (Est : st1 = snd (step st o)) by (rewrite E; reflexivity).
  destruct o as [c id clean|tm|c|c subs b|c fs|c m got|c tq|c|];
    try (cbn [effective_pubs]; rewrite IH, Est, retained_step_other by exact I; reflexivity).
  cbn [effective_pubs]. unfold retained_fold in *. rewrite fold_left_app, IH. f_equal.
  cbn [step] in E. rewrite publish_unfold in E.
  destruct (pub_stuck st c m) eqn:Hnb.
  - injection E as <- <-. destruct (own_refused st c m); reflexivity.
  - rewrite (proj1 (proj2 (pub_through st c m W (own_ownok st O) Hnb))) in E.
    injection E as <- <-. cbn [st_retained fold_left]. rewrite alookup_retain_update. reflexivity.
Qed.

Theorem retained_is_spec cap ops t :
  let (rs, st) := run (init cap) ops in
  alookup bytes_eqb t (st_retained st) = retained_spec (effective_pubs ops rs) t /\
  NoDup (map fst (st_retained st)) /\ retained_wf st = true.
Proof.
  pose proof (retained_run ops (init cap) t (wf_init cap) (own_init cap)) as X.
  pose proof (wf_run ops (init cap) (wf_init cap)) as W.
  pose proof (run_state_inv (fun st => retained_wf st = true) step_retained_wf ops (init cap) eq_refl) as RW.
  unfold run_state in W, RW. destruct (run (init cap) ops) as [rs st]. cbn [fst snd] in *.
  split; [exact X|]. split; [exact (proj2 (proj2 W))|exact RW].
Qed.

(* ------------------------------------------------------------------ ErrQueueFull is atomic *)
(* in every history a Publish that returns ErrQueueFull has changed nothing at all (sessions, queues, retained
   store, everything), and it was the pre-check that refused it: the live publisher's own matching queue is full *)
Theorem queue_full_atomic cap ops st c m got st' :
  In (st, OPublish c m got, RQueueFull, st') (trace (init cap) ops) ->
  st' = st /\ own_refused st c m = true.
Proof.
  intros Hin. destruct (trace_step_facts _ _ _ _ _ _ Hin) as (W & O & E). cbn [step] in E.
  destruct (publish_refused st c m got W (own_ownok st O)) as [R S]; [rewrite E; reflexivity|].
  rewrite E in S. cbn [snd] in S. auto.
Qed.

(* the publish of a closing connection (its will) is never refused *)
Theorem closing_publisher_not_refused cap ops st c m got r st' :
  In (st, OPublish c m got, r, st') (trace (init cap) ops) ->
  mem_n c (st_dying st) = true -> r <> RQueueFull.
Proof.
  intros Hin D ->. destruct (queue_full_atomic _ _ _ _ _ _ _ Hin) as [_ R].
  unfold own_refused in R. rewrite D in R. discriminate.
Qed.

