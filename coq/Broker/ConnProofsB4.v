(* ConnProofsB4.v — C07 exactly-once, part 1: the "last packet received by the
   processor" bookkeeping shared by the scanners, and the relation between the
   model and the prompt_acks scanner (pk_step). *)
From Coq Require Import List NArith Bool Lia.
From GM Require Import Base.Lts Codec.Packet Session.Ids Session.Store Session.StoreProofs
  Broker.Conn Broker.ConnSpec Broker.ConnBase Broker.ConnProofsB1 Broker.ConnProofsB3.
Import ListNotations.
Open Scope N_scope.

(* ---------------------------------------------------- last packet received *)

Definition plast (x : ppc) (o : option packet) : Prop :=
  match x with
  | PPub1W id _ => exists d m', o = Some (Publish d m' id)
  | PRelLookup id | PRelPub id _ | PCompTx id => o = Some (Pubrel id)
  | _ => True
  end.

Definition last_rel (s : bc) (l : list (N * packet)) : Prop :=
  match gproc s with Some g => plast (pp s) (aget l g) | None => plast (pp s) None end.

Definition lt_next (l : list (N * packet)) (e : event) : list (N * packet) :=
  match e with ENewConn => [] | ERx g p => aput l g p | _ => l end.

Definition lt_quiet (e : event) : bool := match e with ENewConn | ERx _ _ => false | _ => true end.
Lemma lt_next_quiet l e : lt_quiet e = true -> lt_next l e = l.
Proof. destruct e; cbn; intros H; try discriminate H; reflexivity. Qed.

Lemma plast_none x o : plast x None -> plast x o.
Proof. destruct x; cbn [plast]; try tauto; try discriminate. intros (d & m' & E). discriminate E. Qed.

Lemma last_proc s l e s' g : gproc s = Some g -> ev_g e = Some g -> plast (pp s) (aget l g) ->
  step_proc s e = Some s' -> plast (pp s') (aget (lt_next l e) g).
Proof.
  intros Hg Heg HR H. inv_proc H; cbn [ev_g] in Heg; injection Heg as ->; try dispatch_cases Hd;
    cbn [lt_next]; pp_cases; sfp; cbn [plast]; rewrite ?aget_aput_eq; try exact I; eauto;
    rewrite Hpp in HR; exact HR.
Qed.

Lemma last_rel_view s s1 l g e : proc_view s s1 g e -> last_rel s l -> plast (pp s1) (aget l g).
Proof.
  unfold last_rel. intros [[-> Hg]|(Hn & _ & -> & _)]; [rewrite Hg|rewrite Hn; sf; apply plast_none]; exact (fun x => x).
Qed.

Lemma last_rel_done s' l : pp s' = PDone -> last_rel s' l.
Proof. unfold last_rel. intros ->. destruct (gproc s'); exact I. Qed.

Lemma last_hstep s l e s' : last_rel s l -> step s e = Some s' -> last_rel s' (lt_next l e).
Proof.
  refine (step_sweep last_rel (fun l e s' => last_rel s' (lt_next l e)) _ _ _ _ _ _ _ _ _ _ s l e s'); clear s l e s'.
  - (* roles *) intros s l g d a c HR _ _. exact HR.
  - (* new *) intros s l _ _. exact I.
  - (* close-req *) intros s l HR. exact HR.
  - (* quiescent *) intros s l HR _. exact HR.
  - (* kill *) intros s l g HR _. exact HR.
  - (* closure *) intros s l e s' HR H.
    rewrite lt_next_quiet by (apply step_clo_event in H; destruct e; try discriminate H; reflexivity).
    apply step_clo_shape in H. destruct H as (se & cl & dy & q & ->). exact HR.
  - (* processor *) intros s s1 l e s' g HR _ Hv Hev H.
    assert (Hg1 : gproc s1 = Some g) by (destruct Hv as [[-> Hg]|(_ & _ & -> & _)]; [exact Hg|reflexivity]).
    pose proof (last_proc _ _ _ _ _ Hg1 Hev (last_rel_view _ _ _ _ _ Hv HR) H) as HR'.
    apply step_proc_frame in H. destruct H as (_ & Hg' & _). unfold last_rel. rewrite Hg', Hg1. exact HR'.
  - (* dequeuer *) intros s l e s' g HR _ _ _ _ H.
    rewrite lt_next_quiet by (apply step_deq_event in H; destruct e; try discriminate H; reflexivity).
    apply step_deq_shape in H. destruct H as (se & d & dy & t1 & t2 & t3 & ->). exact HR.
  - (* acker *) intros s l e s' g HR _ _ _ _ _ H.
    rewrite lt_next_quiet by (apply step_ack_event in H; destruct e; try discriminate H; reflexivity).
    apply step_ack_shape in H. destruct H as (a & dy & t1 & t2 & t3 & q & ->). exact HR.
  - (* cleanup *) intros s l e s' HR _ H.
    rewrite lt_next_quiet by (apply step_cleanup_event in H; destruct e; try discriminate H; reflexivity).
    destruct (step_cleanup_frame _ _ _ H) as (_ & _ & _ & Hg & _ & _ & [Hp|Hp] & _); [|apply last_rel_done, Hp].
    unfold last_rel in *. rewrite Hp, Hg. exact HR.
Qed.

(* ------------------------------------------- model vs the prompt_acks scanner *)

(* the closures of PUBREL-publishes not yet invoked, as the scanners record them: k -> id *)
Definition reg_ok (l : list closure) (m : list (N * N)) : Prop :=
  forall c id, In c l -> c_kind c = KPubcomp id -> c_stat c = CReg -> aget m (c_k c) = Some id.

Lemma reg_ok_set_adel l k st m : NoDup (ckeys l) -> st <> CReg -> reg_ok l m -> reg_ok (clo_set l k st) (adel m k).
Proof.
  intros Hnd Hst W c' id H Hk Hs. apply (in_clo_set _ _ _ _ Hnd) in H.
  destruct H as [[H Hne]|(x & Hx & Kx & ->)]; [|cbn [c_stat] in Hs; contradiction].
  rewrite aget_adel_ne by exact Hne. eapply W; eassumption.
Qed.

Lemma reg_ok_set l k st m : NoDup (ckeys l) -> st <> CReg -> reg_ok l m -> reg_ok (clo_set l k st) m.
Proof.
  intros Hnd Hst W c' id H Hk Hs. apply (in_clo_set _ _ _ _ Hnd) in H.
  destruct H as [[H _]|(x & Hx & Kx & ->)]; [eapply W; eassumption|]. cbn [c_stat] in Hs. contradiction.
Qed.

Lemma reg_ok_app_other l k n a m : (forall id, a <> KPubcomp id) -> reg_ok l m -> reg_ok (l ++ [Clo k n a CReg]) m.
Proof.
  intros Ha W c id H Hk Hs. apply in_app_iff in H. cbn [In] in H. destruct H as [H|[<-|[]]]; [eapply W; eassumption|].
  exfalso. eapply Ha, Hk.
Qed.

Lemma reg_ok_app_pc l k n id m : clo_find l k = None -> reg_ok l m ->
  reg_ok (l ++ [Clo k n (KPubcomp id) CReg]) ((k, id) :: m).
Proof.
  intros Hf W c id' H Hk Hs. apply in_app_iff in H. cbn [In] in H. destruct H as [H|[<-|[]]].
  - rewrite aget_cons_ne; [eapply W; eassumption|]. eapply clo_find_none; eassumption.
  - cbn [c_kind c_k] in *. injection Hk as <-. apply aget_cons_eq.
Qed.

Lemma idle_not_reg st : idle_st st = true -> st <> CReg.
Proof. intros H ->. discriminate H. Qed.

Definition pk_clo (l : list closure) (op bu : list (N * N)) : Prop :=
  reg_ok l op /\
  (forall c id g, In c l -> c_kind c = KPubcomp id -> c_stat c = CDel g -> aget bu g = Some id) /\
  (forall k id, aget op k = Some id ->
     exists c, In c l /\ c_k c = k /\ c_stat c = CReg /\ c_kind c = KPubcomp id).

Definition pk_pp (x : ppc) (op bu : list (N * N)) (ov : list N) : Prop :=
  match x with
  | PRelPub id _ => (forall k, aget op k = Some id -> In k ov) /\ (forall g, aget bu g <> Some id)
  | _ => True
  end.

Definition pk_sc (op : list (N * N)) (ov : list N) : Prop :=
  forall k k' id, aget op k = Some id -> aget op k' = Some id -> k <> k' -> In k ov \/ In k' ov.

Definition pk_inv (s : bc) (u : pk_st) : Prop :=
  pk_clo (clos s) (pk_open u) (pk_busy u) /\
  pk_pp (pp s) (pk_open u) (pk_busy u) (pk_over u) /\
  pk_sc (pk_open u) (pk_over u).

Definition pk_rel (s : bc) (u : pk_st) : Prop := last_rel s (pk_last u) /\ pk_inv s u.

Definition irrelevant (c : closure) : Prop := (forall id, c_kind c <> KPubcomp id) \/ idle_st (c_stat c) = true.

Lemma pk_clo_open l c op bu id : NoDup (ckeys l) -> In c l -> pk_clo l op bu -> aget op (c_k c) = Some id ->
  c_stat c = CReg /\ c_kind c = KPubcomp id.
Proof.
  intros Hnd Hin (_ & _ & P3) Ho. destruct (P3 _ _ Ho) as (c1 & H1 & K1 & S1 & Kd1).
  assert (c1 = c) by (eapply ckeys_inj; eassumption). subst c1. split; assumption.
Qed.

Lemma irrelevant_closed l c op bu : NoDup (ckeys l) -> In c l -> irrelevant c -> pk_clo l op bu -> aget op (c_k c) = None.
Proof.
  intros Hnd Hin Hirr Hc. destruct (aget op (c_k c)) as [id|] eqn:Ho; [exfalso|reflexivity].
  destruct (pk_clo_open _ _ _ _ _ Hnd Hin Hc Ho) as [Hs Hk].
  destruct Hirr as [Hi|Hi]; [eapply Hi, Hk|rewrite Hs in Hi; discriminate Hi].
Qed.

(* an update of a closure that is irrelevant before and after *)
Lemma pk_clo_set_irr l c st op bu :
  NoDup (ckeys l) -> In c l -> irrelevant c -> idle_st st = true ->
  pk_clo l op bu -> pk_clo (clo_set l (c_k c) st) op bu.
Proof.
  intros Hnd Hin Hirr Hst Hc. pose proof (irrelevant_closed _ _ _ _ Hnd Hin Hirr Hc) as Hn.
  destruct Hc as (P1 & P2 & P3). repeat split.
  - apply reg_ok_set; [exact Hnd|apply idle_not_reg, Hst|exact P1].
  - intros c' id g H Hk Hs. apply (in_clo_set _ _ _ _ Hnd) in H.
    destruct H as [[H _]|(x & Hx & Kx & ->)]; [eapply P2; eassumption|].
    cbn [c_stat] in Hs. rewrite Hs in Hst. discriminate Hst.
  - intros k id H. destruct (P3 k id H) as (c1 & H1 & K1 & R).
    exists c1. repeat split; try apply R; try exact K1. apply clo_set_in_other; [exact H1|]. congruence.
Qed.

(* a registered closure is appended *)
Lemma pk_clo_app_other l k n a op bu :
  (forall id, a <> KPubcomp id) -> pk_clo l op bu -> pk_clo (l ++ [Clo k n a CReg]) op bu.
Proof.
  intros Ha (P1 & P2 & P3). repeat split.
  - apply reg_ok_app_other; assumption.
  - intros c id g H Hk Hs. apply in_app_iff in H. cbn [In] in H. destruct H as [H|[<-|[]]]; [eapply P2; eassumption|].
    discriminate Hs.
  - intros k1 id H. destruct (P3 k1 id H) as (c1 & H1 & R). exists c1. split; [apply in_app_iff; left; exact H1|exact R].
Qed.

Lemma pk_clo_app_pc l k n id op bu :
  clo_find l k = None -> pk_clo l op bu -> pk_clo (l ++ [Clo k n (KPubcomp id) CReg]) ((k, id) :: op) bu.
Proof.
  intros Hf (P1 & P2 & P3). repeat split.
  - apply reg_ok_app_pc; assumption.
  - intros c id' g H Hk Hs. apply in_app_iff in H. cbn [In] in H. destruct H as [H|[<-|[]]]; [eapply P2; eassumption|].
    discriminate Hs.
  - intros k1 id' H. destruct (N.eq_dec k1 k) as [->|Hne].
    + rewrite aget_cons_eq in H. injection H as <-. eexists. split; [apply in_app_iff; right; left; reflexivity|].
      repeat split.
    + rewrite aget_cons_ne in H by exact Hne. destruct (P3 k1 id' H) as (c1 & H1 & R).
      exists c1. split; [apply in_app_iff; left; exact H1|exact R].
Qed.

Lemma pk_clo_call l c g id op bu :
  NoDup (ckeys l) -> In c l -> c_stat c = CReg -> c_kind c = KPubcomp id ->
  (forall c', In c' l -> clo_on g c' = false) ->
  pk_clo l op bu -> pk_clo (clo_set l (c_k c) (CDel g)) (adel op (c_k c)) (aput bu g id).
Proof.
  intros Hnd Hin Hs Hk Hon (P1 & P2 & P3). repeat split.
  - apply reg_ok_set_adel; [exact Hnd|discriminate|exact P1].
  - intros c' id' g' H Hk' Hs'. apply (in_clo_set _ _ _ _ Hnd) in H.
    destruct H as [[H Hne]|(x & Hx & Kx & ->)].
    + pose proof (Hon _ H) as Ho. unfold clo_on in Ho. rewrite Hs' in Ho. apply N.eqb_neq in Ho.
      rewrite aget_aput_ne by congruence. eapply P2; eassumption.
    + assert (x = c) by (eapply ckeys_inj; eassumption). subst x. cbn [c_kind c_stat] in *.
      injection Hs' as <-. rewrite Hk in Hk'. injection Hk' as <-. apply aget_aput_eq.
  - intros k1 id1 H. apply aget_adel_some in H. destruct H as [H Hne].
    destruct (P3 k1 id1 H) as (c1 & H1 & K1 & R). exists c1. split; [|split; [exact K1|exact R]].
    apply clo_set_in_other; [exact H1|congruence].
Qed.

Lemma pk_clo_del l c g st op bu :
  NoDup (ckeys l) -> one_on l -> In c l -> clo_on g c = true -> idle_st st = true ->
  pk_clo l op bu -> pk_clo (clo_set l (c_k c) st) op (adel bu g).
Proof.
  intros Hnd Hone Hin Hon Hst (P1 & P2 & P3). repeat split.
  - apply reg_ok_set; [exact Hnd|apply idle_not_reg, Hst|exact P1].
  - intros c' id' g' H Hk' Hs'. apply (in_clo_set _ _ _ _ Hnd) in H.
    destruct H as [[H Hne]|(x & Hx & Kx & ->)].
    + rewrite aget_adel_ne; [eapply P2; eassumption|].
      intros ->. apply Hne. eapply Hone; try eassumption. apply clo_on_del, Hs'.
    + cbn [c_stat] in Hs'. rewrite Hs' in Hst. discriminate Hst.
  - intros k1 id1 H. destruct (P3 k1 id1 H) as (c1 & H1 & K1 & S1 & R). exists c1. repeat split; auto.
    apply clo_set_in_other; [exact H1|]. intros E.
    assert (c1 = c) by (eapply ckeys_inj; try eassumption; congruence). subst c1.
    unfold clo_on in Hon. rewrite S1 in Hon. discriminate Hon.
Qed.

Lemma pk_clo_adel_free l g op bu :
  (forall c', In c' l -> clo_on g c' = false) -> pk_clo l op bu -> pk_clo l op (adel bu g).
Proof.
  intros Hon (P1 & P2 & P3). repeat split; [exact P1| |exact P3].
  intros c' id' g' H Hk' Hs'. rewrite aget_adel_ne; [eapply P2; eassumption|].
  intros ->. pose proof (Hon _ H) as Hf. rewrite (clo_on_del _ _ Hs') in Hf. discriminate Hf.
Qed.

Lemma pk_last_next u e u' : pk_step u e = Some u' -> pk_last u' = lt_next (pk_last u) e.
Proof. intros H. unfold pk_step in H. destruct e; bm H; inv_some H; reflexivity. Qed.

(* what an acknowledgement call does to the scanner *)
Lemma pk_step_call u k g u' : pk_step u (EAckCall k g) = Some u' ->
  ~ In k (pk_over u) /\
  ((aget (pk_open u) k = None /\ u' = u) \/
   (exists id, aget (pk_open u) k = Some id /\
               u' = PkSt (pk_last u) (adel (pk_open u) k) (aput (pk_busy u) g id) (pk_over u))).
Proof.
  cbn [pk_step]. destruct (nmem k (pk_over u)) eqn:E; [discriminate|]. apply nmem_false_iff in E.
  destruct (aget (pk_open u) k) as [id|]; intros H; injection H as <-; (split; [exact E|]).
  - right. eauto.
  - left. auto.
Qed.

Lemma pk_pp_call x op bu ov k g id :
  aget op k = Some id -> ~ In k ov -> pk_pp x op bu ov -> pk_pp x (adel op k) (aput bu g id) ov.
Proof.
  intros Ho Hn. destruct x; cbn [pk_pp]; try exact (fun x => x). intros [Ha Hb]. split.
  - intros k1 H. apply aget_adel_some in H. apply Ha, H.
  - intros g1. destruct (N.eq_dec g1 g) as [->|Hne].
    + rewrite aget_aput_eq. intros E. injection E as ->. apply Hn, Ha, Ho.
    + rewrite aget_aput_ne by exact Hne. apply Hb.
Qed.

Lemma pk_pp_del x op bu ov g : pk_pp x op bu ov -> pk_pp x op (adel bu g) ov.
Proof.
  destruct x; cbn [pk_pp]; try exact (fun x => x). intros [Ha Hb]. split; [exact Ha|].
  intros g1 E. apply aget_adel_some in E. eapply Hb, E.
Qed.

Lemma pk_sc_adel op ov k : pk_sc op ov -> pk_sc (adel op k) ov.
Proof.
  intros H k1 k2 id H1 H2 Hne. apply aget_adel_some in H1, H2. eapply H; [apply H1|apply H2|exact Hne].
Qed.

Lemma pk_inv_clo s u e s' u' : inv_c07 s -> pk_inv s u -> step_clo s e = Some s' -> pk_step u e = Some u' ->
  pk_inv s' u'.
Proof.
  intros (I1 & I2 & _) (Hc & Hp & Hsc) H Hu. apply step_clo_nf in H. destruct H as [H (_ & Epp & _)].
  unfold pk_inv. rewrite Epp.
  destruct H as [c g id -> Hin Hs Hk Hi -> _ _ | c g -> Hin Hs Hk Hi -> _ _ | c g id ok -> Hin Hs Hk -> _ _
                | c g st Ht Hin -> _ _ | c g He Hin Hs Hi ->].
  - (* a PUBREL-publish is acknowledged: its key is open *)
    apply pk_step_call in Hu. destruct Hu as [Hno Hu]. rewrite (proj1 Hc _ _ Hin Hk Hs) in Hu.
    destruct Hu as [[Hn _]|(id' & Ho & ->)]; [discriminate Hn|]. injection Ho as <-. cbn [pk_open pk_busy pk_over].
    split; [|split]; [|apply pk_pp_call; [apply (proj1 Hc)| |]; assumption|apply pk_sc_adel, Hsc].
    apply pk_clo_call; auto. exact (in_closure_false _ _ Hi).
  - (* another closure is called: its key is not open *)
    apply pk_step_call in Hu. destruct Hu as [_ Hu].
    rewrite (irrelevant_closed _ _ _ _ I1 Hin (or_introl Hk) Hc) in Hu.
    destruct Hu as [[_ ->]|(id' & Ho & _)]; [|discriminate Ho].
    split; [|split; assumption]. apply pk_clo_set_irr; auto. left. exact Hk.
  - (* the Delete, whatever its result *)
    cbn [pk_step] in Hu. injection Hu as <-. cbn [pk_open pk_busy pk_over].
    split; [|split]; [|apply pk_pp_del, Hp|exact Hsc].
    apply pk_clo_del; auto using clo_on_del. destruct ok; reflexivity.
  - destruct (late_tr_on _ _ _ _ _ _ Ht) as (Hon & Hst & Hst').
    destruct Ht; cbn [pk_step] in Hu; injection Hu as <-; cbn [pk_open pk_busy pk_over].
    + split; [|split; assumption]. apply pk_clo_set_irr; auto. right. exact Hst.
    + split; [|split; assumption]. apply pk_clo_set_irr; auto. right. exact Hst.
    + split; [|split]; [|apply pk_pp_del, Hp|exact Hsc]. apply pk_clo_del; auto.
  - (* a finished closure is called again or returns again *)
    destruct He as [-> | ->].
    + apply pk_step_call in Hu. destruct Hu as [_ Hu].
      assert (Hirr : irrelevant c) by (right; rewrite Hs; reflexivity).
      rewrite (irrelevant_closed _ _ _ _ I1 Hin Hirr Hc) in Hu.
      destruct Hu as [[_ ->]|(id' & Ho & _)]; [|discriminate Ho]. split; [|split]; assumption.
    + cbn [pk_step] in Hu. injection Hu as <-. cbn [pk_open pk_busy pk_over].
      split; [|split]; [|apply pk_pp_del, Hp|exact Hsc].
      apply pk_clo_adel_free; [exact (in_closure_false _ _ Hi)|exact Hc].
Qed.

Lemma pk_lookup_over (op : list (N * N)) id k ov :
  aget op k = Some id -> In k (map fst (filter (fun e => snd e =? id) op) ++ ov).
Proof.
  intros H. apply in_app_iff. left. apply aget_in in H. apply in_map_iff. exists (k, id). split; [reflexivity|].
  apply filter_In. split; [exact H|]. cbn [snd]. apply N.eqb_refl.
Qed.

Lemma pk_lookup_busy (bu : list (N * N)) id g :
  existsb (fun e => snd e =? id) bu = false -> aget bu g <> Some id.
Proof.
  intros H E. apply aget_in in E.
  assert (existsb (fun e => snd e =? id) bu = true) by (apply existsb_exists; exists (g, id); split; [exact E|apply N.eqb_refl]).
  congruence.
Qed.

Lemma pk_sc_mono op ov ov' : (forall k, In k ov -> In k ov') -> pk_sc op ov -> pk_sc op ov'.
Proof. intros Hm H k k' id H1 H2 Hne. destruct (H k k' id H1 H2 Hne); [left|right]; auto. Qed.

Lemma pk_sc_cons op ov n id :
  (forall k, aget op k = Some id -> In k ov) -> pk_sc op ov -> pk_sc ((n, id) :: op) ov.
Proof.
  intros Ha H k k' id' H1 H2 Hne.
  destruct (N.eq_dec k n) as [->|Hk]; destruct (N.eq_dec k' n) as [->|Hk'].
  - contradiction.
  - rewrite aget_cons_eq in H1. injection H1 as <-. rewrite aget_cons_ne in H2 by exact Hk'. right. apply Ha, H2.
  - rewrite aget_cons_eq in H2. injection H2 as <-. rewrite aget_cons_ne in H1 by exact Hk. left. apply Ha, H1.
  - rewrite aget_cons_ne in H1 by exact Hk. rewrite aget_cons_ne in H2 by exact Hk'. eapply H; eassumption.
Qed.

Lemma pk_inv_proc s u e s' u' g : gproc s = Some g -> ev_g e = Some g ->
  plast (pp s) (aget (pk_last u) g) -> pk_inv s u ->
  step_proc s e = Some s' -> pk_step u e = Some u' -> pk_inv s' u'.
Proof.
  intros Hg Heg HL (Hc & Hp & Hsc) H Hu.
  inv_proc H; cbn [ev_g] in Heg; injection Heg as ->; try dispatch_cases Hd; pp_cases;
    try (cbn [pk_step] in Hu; injection Hu as <-); unfold pk_inv; sfp; cbn [pk_open pk_busy pk_over pk_pp];
    try (split; [|split]; solve [assumption | exact I | apply pk_clo_app_other; [discriminate|assumption]]).
  all: try (unfold pk_step in Hu;
            match type of Hu with (if ?b then None else _) = _ => destruct b eqn:Eb; [discriminate Hu|] end;
            injection Hu as <-; cbn [pk_open pk_busy pk_over];
            split; [exact Hc|split; [|eapply pk_sc_mono; [|exact Hsc]; intros k Hk; apply in_app_iff; right; exact Hk]];
            try exact I).
  - (* PPub1W: the closure stands for a PUBACK *)
    rewrite Hpp in HL. destruct HL as (d & m' & HL). cbn [pk_step] in Hu. rewrite HL in Hu. injection Hu as <-.
    split; [|split]; [apply pk_clo_app_other; [discriminate|assumption]|exact I|assumption].
  - (* PRelLookup: the stored PUBLISH is found *)
    split; [intros k Hk; apply pk_lookup_over, Hk|intros g0; apply pk_lookup_busy, Eb].
  - (* PRelPub: the closure stands for the PUBCOMP *)
    rewrite Hpp in HL, Hp. cbn [plast] in HL. cbn [pk_step] in Hu. rewrite HL in Hu. injection Hu as <-. cbn [pk_open pk_busy pk_over].
    destruct Hp as [Ha Hb].
    split; [|split]; [apply pk_clo_app_pc; assumption|exact I|apply pk_sc_cons; assumption].
Qed.

Lemma pk_inv_done s s' u : clos s' = clos s -> pp s' = PDone -> pk_inv s u -> pk_inv s' u.
Proof. unfold pk_inv. intros -> ->. intros (H1 & _ & H3). split; [exact H1|split; [exact I|exact H3]]. Qed.

Lemma pk_inv_hstep s u e s' u' : inv_c07 s -> pk_rel s u -> step s e = Some s' -> pk_step u e = Some u' ->
  pk_inv s' u'.
Proof.
  intros Hi HR H. revert u'.
  refine (step_sweep (fun s u => inv_c07 s /\ pk_rel s u) (fun u e s' => forall u', pk_step u e = Some u' -> pk_inv s' u')
            _ _ _ _ _ _ _ _ _ _ s u e s' (conj Hi HR) H); clear s u e s' Hi HR H.
  - (* roles *) intros s u g d a c HP _ _. exact HP.
  - (* new *) intros s u [_ [_ (H1 & _ & H3)]] _ u' Hu. injection Hu as <-. split; [exact H1|split; [exact I|exact H3]].
  - (* close-req *) intros s u [_ [_ HR]] u' Hu. injection Hu as <-. exact HR.
  - (* quiescent *) intros s u [_ [_ HR]] _ u' Hu. injection Hu as <-. exact HR.
  - (* kill *) intros s u g [_ [_ HR]] _ u' Hu. injection Hu as <-. exact HR.
  - (* closure *) intros s u e s' [Hi [_ HR]] H u' Hu. eapply pk_inv_clo; eassumption.
  - (* processor *) intros s s1 u e s' g [_ [HL HR]] _ Hv Hev H u' Hu.
    apply (pk_inv_proc s1 u e s' u' g); try assumption.
    + destruct Hv as [[-> Hg]|(_ & _ & -> & _)]; [exact Hg|reflexivity].
    + exact (last_rel_view _ _ _ _ _ Hv HL).
    + destruct Hv as [[-> _]|(_ & _ & -> & _)]; exact HR.
  - (* dequeuer *) intros s u e s' g [_ [_ HR]] _ _ _ _ H u' Hu.
    assert (Hq : pk_step u e = Some u) by (apply step_deq_event in H; destruct e; try discriminate H; reflexivity).
    rewrite Hq in Hu. injection Hu as <-.
    apply step_deq_shape in H. destruct H as (se & d & dy & t1 & t2 & t3 & ->). exact HR.
  - (* acker *) intros s u e s' g [_ [_ HR]] _ _ _ _ _ H u' Hu.
    assert (Hq : pk_step u e = Some u) by (apply step_ack_event in H; destruct e; try discriminate H; reflexivity).
    rewrite Hq in Hu. injection Hu as <-.
    apply step_ack_shape in H. destruct H as (a & dy & t1 & t2 & t3 & q & ->). exact HR.
  - (* cleanup *) intros s u e s' [_ [_ HR]] _ H u' Hu.
    assert (Hq : pk_step u e = Some u).
    { apply step_cleanup_event in H. destruct e; try discriminate H; try reflexivity; destruct k; try discriminate H; reflexivity. }
    rewrite Hq in Hu. injection Hu as <-.
    destruct (step_cleanup_frame _ _ _ H) as (_ & _ & Hc & _ & _ & _ & [Hp|Hp] & _); [|eapply pk_inv_done; eassumption].
    unfold pk_inv in *. rewrite Hc, Hp. exact HR.
Qed.

Lemma pk_hstep s u e s' u' : inv_c07 s -> pk_rel s u -> step s e = Some s' -> pk_step u e = Some u' ->
  pk_rel s' u'.
Proof.
  intros Hi HR H Hu. split.
  - rewrite (pk_last_next _ _ _ Hu). apply (last_hstep _ _ _ _ (proj1 HR) H).
  - eapply pk_inv_hstep; eassumption.
Qed.

Lemma pk_rel_init : pk_rel bc_init (PkSt [] [] [] []).
Proof.
  split; [exact I|]. split; [|split; [exact I|]].
  - split; [|split]; cbn.
    + intros c id [].
    + intros c id g [].
    + intros k id E. discriminate E.
  - intros k k' id E. discriminate E.
Qed.
