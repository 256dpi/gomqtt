(* ConnProofsB2.v — C07_pubrec_after_store: a PUBREC is sent only by the processor,
   for the QoS 2 PUBLISH it received last, after that PUBLISH was saved.
   Model invariant used: nobody else ever holds a PUBREC to send (from inv_store). *)
From Coq Require Import List NArith Bool Lia.
From GM Require Import Base.Lts Codec.Packet Session.Ids Session.Store Session.StoreProofs
  Broker.Conn Broker.ConnSpec Broker.ConnBase Broker.ConnProofsB1 Broker.ConnProofsA_inv.
Import ListNotations.
Open Scope N_scope.

(* ------------------------------------------------- c07_pubrec_after_store *)

Definition pr_rel (s : bc) (t : list (N * (N * bool))) : Prop :=
  match pp s with
  | PPub2W p => exists g d m id b, gproc s = Some g /\ p = Publish d m id /\ aget t g = Some (id, b)
  | PPubrec id => exists g, gproc s = Some g /\ aget t g = Some (id, true)
  | _ => True
  end.

Definition not_pubrec (p : packet) : bool := match p with Pubrec _ => false | _ => true end.

Lemma pr_step_tx t g p a ok : not_pubrec p = true -> pr_step t (ETx g p a ok) = Some t.
Proof. destruct p; cbn [not_pubrec]; intros H; try discriminate H; reflexivity. Qed.

Lemma pr_step_rx t g p : exists t', pr_step t (ERx g p) = Some t'.
Proof. destruct p; cbn [pr_step]; try destruct (m_qos m =? 2); eexists; reflexivity. Qed.

Lemma out_ok_not_pubrec p : out_ok p = true -> not_pubrec (set_dup p) = true.
Proof. destruct p; intros H; try discriminate H; reflexivity. Qed.
Lemma is_publish_not_pubrec p : is_publish p = true -> not_pubrec p = true.
Proof. destruct p; intros H; try discriminate H; reflexivity. Qed.
Lemma is_ack_not_pubrec p : is_ack_packet p = true -> not_pubrec p = true.
Proof. destruct p; intros H; try discriminate H; reflexivity. Qed.

Lemma pr_proc s t e s' g : gproc s = Some g -> ev_g e = Some g -> pp_ok (pp s) -> pr_rel s t ->
  step_proc s e = Some s' -> exists t', pr_step t e = Some t' /\ pr_rel s' t'.
Proof.
  intros Hg Heg Hok HR H. unfold pr_rel in HR.
  inv_proc H;
    cbn [ev_g] in Heg; injection Heg as ->; unfold pr_rel;
    try (exists t; split; [reflexivity|]; sf; pp_cases; exact I).
  - (* the first packet *)
    destruct (pr_step_rx t g p0) as [t' Ht]. exists t'. split; [exact Ht|]. sf. destruct p0; exact I.
  - (* a re-sent packet comes from the outgoing store *)
    rewrite Hpp in Hok. exists t. split; [apply pr_step_tx, out_ok_not_pubrec, (all_ok_head _ _ _ Hok)|].
    sf. pp_cases; exact I.
  - (* a packet received in the main loop: a QoS 2 PUBLISH is noted *)
    destruct p0; try (cbn [dispatch_pp] in Hd; injection Hd as <-; eexists; split; [reflexivity|exact I]).
    cbn [pr_step]. apply dispatch_publish in Hd as [[-> Hq]|[[-> Hq]|[-> Hq]]]; rewrite Hq; (eexists; split; [reflexivity|]); try exact I.
    sf. exists g, dup, m, id, false. repeat split; [exact Hg|apply aget_aput_eq].
  - (* the PUBLISH is saved *)
    rewrite Hpp in HR. destruct HR as (g' & d & m & id' & b & Hg' & -> & Ha). rewrite Hg in Hg'. injection Hg' as <-.
    cbn [get_id] in Hid. injection Hid as <-.
    cbn [pr_step]. rewrite Ha, N.eqb_refl. eexists. split; [reflexivity|].
    sf. exists g. split; [exact Hg|apply aget_aput_eq].
  - exists t. split; [destruct p0; reflexivity|exact I].
  - (* PUBREC: the scanner finds the id marked as saved *)
    exists t. split; [|sf; destruct ok0; exact I].
    destruct Htx as [(id & -> & Hpp)|[(id & -> & Hpp)|[(id & -> & Hpp)|[-> Hpp]]]]; try reflexivity.
    rewrite Hpp in HR. destruct HR as (g' & Hg' & Ha). rewrite Hg in Hg'. injection Hg' as <-.
    cbn [pr_step]. rewrite Ha, N.eqb_refl. reflexivity.
Qed.

Lemma pr_hstep s t e s' : inv_store s -> pr_rel s t -> step s e = Some s' ->
  exists t', pr_step t e = Some t' /\ pr_rel s' t'.
Proof.
  intros Hi HR. refine (step_sweep (fun s t => inv_store s /\ pr_rel s t) (fun t e s' => exists t', pr_step t e = Some t' /\ pr_rel s' t')
                          _ _ _ _ _ _ _ _ _ _ s t e s' (conj Hi HR)); clear s t e s' Hi HR.
  - (* roles *) intros s t g d a c HP _ _. exact HP.
  - (* new *) intros s t _ _. exists []. split; [reflexivity|exact I].
  - (* close-req *) intros s t [_ HR]. exists t. split; [reflexivity|exact HR].
  - (* quiescent *) intros s t [_ HR] _. exists t. split; [reflexivity|exact HR].
  - (* kill *) intros s t g [_ HR] _. exists t. split; [reflexivity|exact HR].
  - (* closure *) intros s t e s' [_ HR] H. exists t. split.
    + apply step_clo_event in H. destruct e; try discriminate H; reflexivity.
    + apply step_clo_shape in H. destruct H as (se & cl & dy & q & ->). exact HR.
  - (* processor *) intros s s1 t e s' g [(_ & _ & Hok & _) HR] _ Hv Hg H. eapply (pr_proc s1); try eassumption.
    + destruct Hv as [[-> Hx]|(_ & _ & -> & _)]; [exact Hx|reflexivity].
    + destruct Hv as [[-> _]|(_ & _ & -> & _)]; exact Hok.
    + destruct Hv as [[-> _]|(Hn & _ & -> & _)]; [exact HR|]. unfold pr_rel in *; sf.
      destruct (pp s); try exact I; [destruct HR as (g' & d' & m & id & b & Hg' & _)|destruct HR as (g' & Hg' & _)]; congruence.
  - (* the dequeuer sends PUBLISH packets only *)
    intros s t e s' g [(_ & _ & _ & Hd & _) HR] _ _ _ _ H. exists t. split.
    + pose proof (step_deq_event _ _ _ H) as Hev. destruct e; try discriminate Hev; try reflexivity.
      * apply pr_step_tx, is_publish_not_pubrec, (step_deq_tx _ _ _ _ _ _ Hd H).
      * destruct d; [discriminate Hev|reflexivity].
    + apply step_deq_shape in H. destruct H as (se & d & dy & t1 & t2 & t3 & ->). exact HR.
  - (* the acker sends acknowledgements only *)
    intros s t e s' g [(_ & _ & _ & _ & Hq) HR] _ _ _ _ _ H. exists t. split.
    + pose proof (step_ack_event _ _ _ H) as Hev. destruct e; try discriminate Hev; try reflexivity.
      apply pr_step_tx, is_ack_not_pubrec, (step_ack_tx _ _ _ _ _ _ Hq H).
    + apply step_ack_shape in H. destruct H as (a & dy & t1 & t2 & t3 & q & ->). exact HR.
  - (* cleanup *) intros s t e s' [_ HR] _ H. exists t. split.
    + apply step_cleanup_event in H. destruct e; try discriminate H; reflexivity.
    + apply step_cleanup_frame in H. destruct H as (_ & _ & _ & Hg & _ & _ & [Hp|Hp] & _); unfold pr_rel in *; rewrite Hp; [rewrite Hg; exact HR|exact I].
Qed.

Theorem pubrec_after_store : forall es s, bc_run es = Some s -> c07_pubrec_after_store es = true.
Proof.
  unfold c07_pubrec_after_store.
  apply (scan_sound_inv pr_step inv_store pr_rel inv_store_init inv_store_step pr_hstep). exact I.
Qed.
