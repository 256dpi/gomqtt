(* ConnProofsC3.v — C08: c08_resend (CONNACK session-present, resend in store
   order directly after CONNACK, nothing dequeued before the resend is complete). *)
From Coq Require Import List NArith Bool Lia ZArith ZifyN ZifyBool.
From GM Require Import Base.Lts Codec.Packet Session.Ids Session.Store Session.StoreProofs
  Broker.Conn Broker.ConnSpec Broker.ConnBase Broker.ConnProofsC0 Broker.ConnProofsC1.
Import ListNotations.
Open Scope N_scope.

(* no resend in progress or announced *)
Definition re_idle (t : re_st) : Prop :=
  re_stage t = [] /\ (re_todo t = [] \/ exists g, re_todo t = [(g, [])]).

Definition R_re (s : bc) (t : re_st) : Prop :=
  match pp s with
  | PFirst | PDeny => re_stage t = [] /\ re_todo t = []
  | PAuth c | PSetup c =>
      re_stage t = [] /\ re_todo t = [] /\
      exists g, gproc s = Some g /\ aget (re_clean t) g = Some (c_clean c)
  | PConnack c r =>
      re_stage t = [] /\ re_todo t = [] /\
      exists g, gproc s = Some g /\ aget (re_clean t) g = Some (c_clean c) /\ aget (re_resumed t) g = Some r
  | PAll => re_todo t = [] /\ exists g, gproc s = Some g /\ re_stage t = [(g, 1)]
  | PResend ps => re_stage t = [] /\ exists g, gproc s = Some g /\ re_todo t = [(g, map set_dup ps)]
  | _ => re_idle t
  end.

Definition not_connack0 (p : packet) : Prop := match p with Connack _ 0 => False | _ => True end.

Lemma re_step_tx_done t g p a ok :
  match aget (re_todo t) g with Some (_ :: _) => False | _ => True end -> not_connack0 p ->
  re_step t (ETx g p a ok) = Some t.
Proof.
  intros E Hp.
  destruct p; cbn [re_step]; try (destruct (aget (re_todo t) g) as [[|q rest]|]; [reflexivity|contradiction|reflexivity]).
  destruct rc as [|pr]; [contradiction|].
  destruct (aget (re_todo t) g) as [[|q rest]|]; [reflexivity|contradiction|reflexivity].
Qed.

Lemma idle_todo t g : re_idle t -> match aget (re_todo t) g with Some (_ :: _) => False | _ => True end.
Proof. intros [_ [->|(g' & ->)]]; cbn [aget]; [exact I|]. destruct (g =? g'); exact I. Qed.

Lemma re_step_tx_idle t g p a ok : re_idle t -> not_connack0 p -> re_step t (ETx g p a ok) = Some t.
Proof. intros Hi. apply re_step_tx_done, idle_todo, Hi. Qed.

Lemma idle_of_empty t : re_stage t = [] -> re_todo t = [] -> re_idle t.
Proof. intros H1 H2. split; [exact H1|left; exact H2]. Qed.

Lemma re_not_pre s t : R_re s t -> pre_loop (pp s) = false -> re_idle t.
Proof. unfold R_re. destruct (pp s); cbn [pre_loop]; intros HR Hp; try discriminate Hp; exact HR. Qed.

Lemma re_of_idle s t : pre_loop (pp s) = false -> re_idle t -> R_re s t.
Proof. unfold R_re. destruct (pp s); cbn [pre_loop]; intros Hp HR; try discriminate Hp; exact HR. Qed.

Lemma re_frame s s' t : pp s' = pp s -> (forall g, gproc s = Some g -> gproc s' = Some g) -> R_re s t -> R_re s' t.
Proof.
  intros Ep Kp HR. unfold R_re in *. rewrite Ep. destruct (pp s); try exact HR.
  - destruct HR as (S0 & T0 & g & G & A). repeat split; try assumption. exists g. split; [apply Kp; exact G|exact A].
  - destruct HR as (S0 & T0 & g & G & A). repeat split; try assumption. exists g. split; [apply Kp; exact G|exact A].
  - destruct HR as (S0 & T0 & g & G & A). repeat split; try assumption. exists g. split; [apply Kp; exact G|exact A].
  - destruct HR as (T0 & g & G & A). split; [exact T0|]. exists g. split; [apply Kp; exact G|exact A].
  - destruct HR as (S0 & g & G & A). split; [exact S0|]. exists g. split; [apply Kp; exact G|exact A].
Qed.

Lemma cokb_not_connack0 p : cokb p = true -> not_connack0 (set_dup p).
Proof. destruct p; cbn [cokb]; try discriminate; intros _; exact I. Qed.

Lemma own_reply_not_connack0 x p : own_reply x p -> not_connack0 p.
Proof. destruct x, p; try contradiction; intros _; exact I. Qed.

Lemma re_dull t e : dull e = true -> re_step t e = Some t.
Proof. intros H. by_dull e H. Qed.

Lemma re_proc s t e s' g : INV s -> R_re s t -> ev_g e = Some g -> gproc s = Some g -> step_proc s e = Some s' ->
  exists t', re_step t e = Some t' /\ R_re s' t'.
Proof.
  intros HI HR Hg Hr H. pose proof (I_resend _ HI) as Hrs. pose proof HR as HR'. unfold R_re in HR'.
  (* in the main loop the scanner is idle, and stays so *)
  assert (Kl : forall t', re_step t e = Some t' -> (re_idle t -> re_idle t') ->
                 pre_loop (pp s) = false -> pre_loop (pp s') = false -> exists t'', re_step t e = Some t'' /\ R_re s' t'').
  { intros t' Et Hi Hp Hp'. exists t'. split; [exact Et|]. apply re_of_idle; [exact Hp'|]. apply Hi, (re_not_pre s t HR Hp). }
  destruct (step_proc_inv _ _ _ H); subst; rewrite ?Hpp in HR', Hrs; cbn [ev_g] in Hg; try injection Hg as ->.
  - (* the first packet *)
    destruct HR' as [S0 T0]. destruct p; (eexists; split; [reflexivity|]); unfold R_re; bcs; try (apply idle_of_empty; assumption).
    cbn [re_stage re_todo re_clean]. repeat split; try assumption. exists g. split; [exact Hr|apply aget_aput_eq].
  - destruct HR' as (S0 & T0 & Hc). exists t. split; [reflexivity|]. destruct r; unfold R_re; bcs; auto using idle_of_empty.
  - destruct HR' as [S0 T0]. exists t. split; [cbn [re_step]; rewrite T0; reflexivity|]. apply idle_of_empty; assumption.
  - (* Setup *)
    destruct HR' as (S0 & T0 & g' & G & A). rewrite Hr in G. injection G as <-.
    eexists. split; [reflexivity|]. unfold R_re, setup_st. cbn [re_stage re_todo re_clean re_resumed].
    destruct fresh; bcs; (repeat split; try assumption; exists g; split; [exact Hr|split; [exact A|apply aget_aput_eq]]).
  - (* Connack *)
    destruct HR' as (S0 & T0 & g' & G & A & B). rewrite Hr in G. injection G as <-.
    cbn [re_step]. rewrite A, B, Bool.eqb_reflx. eexists. split; [reflexivity|].
    destruct ok; unfold R_re; bcs; [|apply idle_of_empty; assumption].
    cbn [re_stage re_todo]. split; [exact T0|]. exists g. split; [exact Hr|rewrite S0; reflexivity].
  - (* All *)
    destruct HR' as (T0 & g' & G & S0). rewrite Hr in G. injection G as <-.
    cbn [re_step]. rewrite S0, aget_cons_eq, adel_single, T0. eexists. split; [reflexivity|].
    unfold R_re, resend_next. destruct (store_all (s_out (sess s))); bcs; cbn [re_stage re_todo map].
    + split; [reflexivity|right; exists g; reflexivity].
    + split; [reflexivity|exists g; split; [exact Hr|reflexivity]].
  - destruct HR' as (T0 & g' & G & S0). rewrite Hr in G. injection G as <-.
    cbn [re_step]. rewrite S0, aget_cons_eq, adel_single. eexists. split; [reflexivity|].
    apply idle_of_empty; [reflexivity|exact T0].
  - (* Resend: the packet is the head of the list *)
    destruct HR' as (S0 & g' & G & T0). rewrite Hr in G. injection G as <-.
    destruct Hrs as [_ Hck]. inversion Hck as [|? ? Hcp _]; subst.
    assert (E : re_step t (ETx g (set_dup p) true ok) =
                Some (ReSt (re_clean t) (re_resumed t) (re_stage t)
                           (if ok then aput (re_todo t) g (map set_dup rest) else adel (re_todo t) g))).
    { pose proof (cokb_not_connack0 _ Hcp) as Hn.
      destruct (set_dup p) eqn:Ep; cbn [re_step]; try (destruct rc; [contradiction|]); rewrite T0, aget_cons_eq; cbn [map];
        rewrite Ep, packet_eqb_refl; reflexivity. }
    rewrite E, T0. cbn [map]. eexists. split; [reflexivity|].
    destruct ok; [rewrite aput_single|rewrite adel_single]; unfold R_re, resend_next; [destruct rest|]; bcs; cbn [re_stage re_todo map].
    + split; [exact S0|right; exists g; reflexivity].
    + split; [exact S0|exists g; split; [exact Hr|reflexivity]].
    + apply idle_of_empty; [exact S0|reflexivity].
  - (* Restore: nothing is left to re-send *)
    exists t. split; [|destruct ok; exact HR'].
    cbn [re_step]. pose proof (idle_todo t g HR') as E. destruct (aget (re_todo t) g) as [[|q r]|]; [reflexivity|contradiction|reflexivity].
  - (* a packet received in the main loop *)
    pose proof (rx_not_pre _ _ Hx) as Hnp.
    destruct p; (eapply Kl; [reflexivity|exact (fun x => x)|rewrite Hpp; reflexivity|exact Hnp]).
  - eapply Kl; [reflexivity|exact (fun x => x)|rewrite Hpp; reflexivity|destruct ok; reflexivity].
  - eapply Kl; [reflexivity|exact (fun x => x)|rewrite Hpp; reflexivity|destruct ok; reflexivity].
  - eapply Kl; [apply re_step_tx_idle; [exact HR'|exact I]|exact (fun x => x)|rewrite Hpp; reflexivity|destruct ok; reflexivity].
  - assert (Hnp : pre_loop (pp s) = false) by (destruct (pp s); try contradiction; reflexivity).
    eapply Kl; [apply re_step_tx_idle; [apply (re_not_pre _ _ HR Hnp)|eapply own_reply_not_connack0, Hp]
               |exact (fun x => x)|exact Hnp|destruct ok; reflexivity].
  - eapply Kl; [reflexivity|exact (fun x => x)|apply loop_not_pre, Hpp|reflexivity].
  - (* a dull event: the processor is in the main loop afterwards, and was idle before *)
    exists t. split; [apply re_dull, He|]. apply re_of_idle; [apply loop_not_pre, Hx|].
    destruct Hpp as [Hl|[Hf|(c & Hs)]].
    + apply (re_not_pre _ _ HR), loop_not_pre, Hl.
    + rewrite Hf in HR'. apply idle_of_empty; apply HR'.
    + rewrite Hs in HR'. apply idle_of_empty; apply HR'.
Qed.

Lemma re_busy_idle t : re_idle t -> re_busy t = false.
Proof.
  intros [Hs Ht]. unfold re_busy. rewrite Hs. destruct Ht as [->|(g & ->)]; reflexivity.
Qed.

(* the dequeuer runs in the main loop: the scanner is idle, the dequeuer's sends are no CONNACK *)
Lemma re_deq s t e s' : INV s -> R_re s t -> step_deq s e = Some s' ->
  exists t', re_step t e = Some t' /\ R_re s' t'.
Proof.
  intros HI HR H. pose proof (re_not_pre s t HR (deq_not_pre _ _ _ HI H)) as Hidle.
  destruct (step_deq_proc_view _ _ _ H (I_shape _ HI)) as (Ep & Eg & _).
  exists t. split; [|apply (re_frame s); [exact Ep|intros g G; rewrite Eg; exact G|exact HR]].
  destruct (step_deq_inv _ _ _ (I_shape _ HI) H); subst; try reflexivity.
  - cbn [re_step]. rewrite (re_busy_idle _ Hidle). reflexivity.
  - apply re_step_tx_idle; [exact Hidle|exact I].
Qed.

Lemma re_step_ok s t e s' : INV s -> R_re s t -> step s e = Some s' ->
  exists t', re_step t e = Some t' /\ R_re s' t'.
Proof.
  apply (sweep_pd1 re_step INV R_re (fun _ H => H) INV_learned).
  - intros s0 s1 t0 Hs. apply re_frame; [apply (sp_pp _ _ Hs)|]. intros g G. rewrite (sp_gproc _ _ Hs). exact G.
  - intros s0 s1 t0 _ Hl. destruct Hl as (p & d & a & c & -> & Kp & _). apply re_frame; [reflexivity|exact Kp].
  - intros s0 s1 t0 _ Hf HR. apply re_of_idle; [rewrite (fz_pp _ _ Hf); reflexivity|]. apply (re_not_pre s0 t0 HR).
    pose proof (fz_stop _ _ Hf) as Hst. unfold all_stopped, proc_can_stop in Hst.
    destruct (pp s0); cbn [pre_loop]; try reflexivity; discriminate Hst.
  - intros s0 t0 e0 _ _ _ _. apply re_dull.
  - (* the acker runs in the main loop *)
    intros s0 t0 g p ok HI HR Ha Hk. apply re_step_tx_idle; [|destruct p; try discriminate Hk; exact I].
    apply (re_not_pre s0 t0 HR). destruct (pre_loop (pp s0)) eqn:Ep; [|reflexivity].
    destruct (I_pre _ HI Ep) as [_ Hoff]. rewrite Hoff in Ha. discriminate Ha.
  - intros s0 t0 _ _. eexists. split; [reflexivity|]. split; reflexivity.
  - intros s0 t0 e0 s1 g. apply (re_proc s0 t0 e0 s1 g).
  - intros s0 t0 e0 s1 g HI HR _ _ _. apply re_deq; assumption.
Qed.

Theorem c08_resend_holds : forall es s, bc_run es = Some s -> c08_resend es = true.
Proof.
  apply (scan_sound_inv re_step INV R_re INV_init INV_step re_step_ok).
  unfold R_re. cbn. split; [reflexivity|left; reflexivity].
Qed.
