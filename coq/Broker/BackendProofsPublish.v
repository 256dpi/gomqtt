(* BackendProofsPublish.v — well-formed states, and the Publish step against the
   clauses targets_ok / live_copy_ok of BackendSpec.v. *)
From Coq Require Import List NArith Bool Lia.
From Coq.Strings Require Import Byte.
From GM Require Import Codec.Packet Topic.MatchSpec Broker.Backend Broker.BackendSpec Broker.BackendProofs.
Import ListNotations.
Open Scope N_scope.

(* the three Go maps are maps *)
Definition wf (st : state) : Prop :=
  NoDup (map fst (st_temps st)) /\ NoDup (map fst (st_stored st)) /\ NoDup (map fst (st_retained st)).

Lemma in_sessions st k s :
  In (k, s) (sessions st) <->
  (exists c, k = KTemp c /\ In (c, s) (st_temps st)) \/ (exists i, k = KStored i /\ In (i, s) (st_stored st)).
Proof.
  unfold sessions. rewrite in_app_iff, !in_map_iff. split.
  - intros [[[c s'] [E H]]|[[i s'] [E H]]]; cbn [fst snd] in E; injection E as <- <-; [left; exists c|right; exists i]; auto.
  - intros [[c [-> H]]|[i [-> H]]]; [left; exists (c, s)|right; exists (i, s)]; auto.
Qed.

Lemma sessions_get st k s : wf st -> In (k, s) (sessions st) -> get_session st k = Some s.
Proof.
  intros (Wt & Ws & _) H. apply in_sessions in H as [[c [-> H]]|[i [-> H]]]; cbn [get_session].
  - apply (In_alookup N.eqb N.eqb_eq); assumption.
  - apply (In_alookup bytes_eqb bytes_eqb_eq); assumption.
Qed.

Lemma get_sessions st k s : get_session st k = Some s -> In (k, s) (sessions st).
Proof.
  destruct k as [c|i]; cbn [get_session]; intros H; apply in_sessions.
  - left; exists c; split; [reflexivity|apply (alookup_In N.eqb N.eqb_eq); exact H].
  - right; exists i; split; [reflexivity|apply (alookup_In bytes_eqb bytes_eqb_eq); exact H].
Qed.

Lemma existsb_map {A B} (f : B -> bool) (g : A -> B) l : existsb f (map g l) = existsb (fun x => f (g x)) l.
Proof. induction l as [|x l IH]; cbn [map existsb]; [reflexivity|rewrite IH; reflexivity]. Qed.

Lemma existsb_ext' {A} (f g : A -> bool) l : (forall x, In x l -> f x = g x) -> existsb f l = existsb g l.
Proof.
  induction l as [|x l IH]; cbn [existsb]; intros H; [reflexivity|].
  rewrite (H x (or_introl eq_refl)), IH; [reflexivity|intros y Hy; apply H; right; exact Hy].
Qed.

Lemma existsb_sessions st (p : session -> bool) :
  existsb p (map snd (st_temps st)) || existsb p (map snd (st_stored st)) =
  existsb (fun e => p (snd e)) (sessions st).
Proof.
  unfold sessions. rewrite existsb_app, !existsb_map. cbn [snd]. reflexivity.
Qed.

(* ------------------------------------------------------------------ one session under Publish *)
Lemma enqueue_gained m s : gained m s (enqueue m s) = true.
Proof.
  unfold gained, enqueue, queue_of, live_copy. destruct (use_temp m) eqn:E; cbn [s_tq s_sq]; rewrite ?E; apply msgs_eqb_refl.
Qed.

Lemma enqueue_frame m s :
  s_subs (enqueue m s) = s_subs s /\ other_queue m (enqueue m s) = other_queue m s /\ s_act (enqueue m s) = s_act s.
Proof. unfold enqueue, other_queue. destruct (use_temp m); cbn; auto. Qed.

Lemma kept_refl m s : kept m s s = true.
Proof. apply msgs_eqb_refl. Qed.

Lemma deliver_cases err got k a m s : deliver err got k a m s = s \/ deliver err got k a m s = enqueue m s.
Proof. unfold deliver. destruct a; auto. destruct err; auto. destruct (mem_key k got); auto. Qed.

Lemma deliver_subs err got k a m s : s_subs (deliver err got k a m s) = s_subs s.
Proof. destruct (deliver_cases err got k a m s) as [-> | ->]; [reflexivity|apply enqueue_frame]. Qed.

Lemma deliver_act err got k a m s : s_act (deliver err got k a m s) = s_act s.
Proof. destruct (deliver_cases err got k a m s) as [-> | ->]; [reflexivity|apply enqueue_frame]. Qed.

Lemma classify_cases st c m s :
  name_ok (m_topic m) = true ->
  let full := is_full (st_cap st) (queue_of m s) in
  classify st c m s =
    if has_match (s_subs s) (m_topic m) then
      match s_act s with
      | None => if full then ADrop else AEnq
      | Some c' => if c' =? c then (if full then (if mem_n c (st_dying st) then ASkip else AErr) else AEnq)
                   else if full then (if mem_n c' (st_dying st) then ASkip else ABlock)
                   else AEnq
      end
    else ANone.
Proof.
  intros Hn. cbv zeta. unfold classify. rewrite <- (pick_sub_has_match _ _ Hn).
  destruct (pick_sub (s_subs s) (m_topic m)); reflexivity.
Qed.

Lemma is_block_classify st c m s :
  name_ok (m_topic m) = true ->
  is_block (classify st c m s) =
  has_match (s_subs s) (m_topic m) &&
  match s_act s with Some c' => negb (c' =? c) && negb (mem_n c' (st_dying st)) | None => false end &&
  is_full (st_cap st) (queue_of m s).
Proof.
  intros Hn. rewrite (classify_cases st c m s Hn).
  destruct (has_match (s_subs s) (m_topic m)); [|reflexivity].
  destruct (s_act s) as [c'|]; cbn [andb].
  - destruct (c' =? c); cbn [negb andb]; [destruct (is_full _ _); [destruct (mem_n c (st_dying st))|]; reflexivity|].
    destruct (is_full _ _); [destruct (mem_n c' (st_dying st))|]; cbn; rewrite ?andb_false_r; reflexivity.
  - destruct (is_full _ _); reflexivity.
Qed.

Definition pub_err (st : state) (c : conn) (m : message) : bool :=
  existsb is_err (map (fun e => classify st c m (snd e)) (st_temps st)) ||
  existsb is_err (map (fun e => classify st c m (snd e)) (st_stored st)).
Definition pub_blk (st : state) (c : conn) (m : message) : bool :=
  existsb is_block (map (fun e => classify st c m (snd e)) (st_temps st)) ||
  existsb is_block (map (fun e => classify st c m (snd e)) (st_stored st)).
(* the call does not go through: refused by the pre-check, or waiting *)
Definition pub_stuck (st : state) (c : conn) (m : message) : bool :=
  own_refused st c m || (negb (pub_err st c m) && pub_blk st c m).

Lemma own_refused_own_full st c m : name_ok (m_topic m) = true -> own_refused st c m = own_full st c m.
Proof.
  intros Hn. unfold own_refused, own_full. f_equal. destruct (session_of st c) as [[k s]|]; [|reflexivity].
  rewrite <- (pick_sub_has_match _ _ Hn). destruct (pick_sub (s_subs s) (m_topic m)); reflexivity.
Qed.

Lemma pub_blk_other_full st c m : name_ok (m_topic m) = true -> pub_blk st c m = other_full st c m.
Proof.
  intros Hn. unfold pub_blk, other_full, sessions. rewrite existsb_app, !existsb_map. cbn [snd].
  f_equal; apply existsb_ext'; intros x _; apply is_block_classify; exact Hn.
Qed.

(* a session names a connection as active only if it is that connection's session (holds in every reachable
   state: BackendOwn.v) *)
Definition OwnOk (st : state) : Prop :=
  forall k s c, get_session st k = Some s -> s_act s = Some c -> session_of st c = Some (k, s).

Lemma classify_exists (f : action -> bool) st c m :
  existsb f (map (fun e => classify st c m (snd e)) (st_temps st)) ||
  existsb f (map (fun e => classify st c m (snd e)) (st_stored st)) = true <->
  exists k s, In (k, s) (sessions st) /\ f (classify st c m s) = true.
Proof.
  rewrite orb_true_iff, !existsb_map, !existsb_exists. split.
  - intros [[[x s] [Hin H]]|[[x s] [Hin H]]]; [exists (KTemp x), s|exists (KStored x), s]; (split; [apply in_sessions|exact H]);
      [left|right]; exists x; auto.
  - intros (k & s & Hin & H). apply in_sessions in Hin as [[x [-> Hin]]|[x [-> Hin]]]; [left|right]; exists (x, s); auto.
Qed.

Lemma pub_err_false_session st c m k s :
  pub_err st c m = false -> In (k, s) (sessions st) -> is_err (classify st c m s) = false.
Proof.
  intros H Hin. destruct (is_err (classify st c m s)) eqn:E; [|reflexivity].
  rewrite <- H. symmetry. apply (proj2 (classify_exists is_err st c m)). exists k, s; auto.
Qed.

Lemma pub_blk_false_session st c m k s :
  pub_blk st c m = false -> In (k, s) (sessions st) -> is_block (classify st c m s) = false.
Proof.
  intros H Hin. destruct (is_block (classify st c m s)) eqn:E; [|reflexivity].
  rewrite <- H. symmetry. apply (proj2 (classify_exists is_block st c m)). exists k, s; auto.
Qed.

(* hence, once the pre-check has passed, no own full queue is met during the fan-out *)
Lemma no_midway st c m : wf st -> OwnOk st -> own_refused st c m = false -> pub_err st c m = false.
Proof.
  intros W O R. destruct (pub_err st c m) eqn:E; [|reflexivity]. exfalso.
  apply (proj1 (classify_exists is_err st c m)) in E as (k & s & Hin & He). pose proof (sessions_get st k s W Hin) as G.
  unfold classify in He. destruct (pick_sub (s_subs s) (m_topic m)) as [x|] eqn:P; [|discriminate].
  destruct (s_act s) as [c'|] eqn:A; [|destruct (is_full _ _); discriminate].
  destruct (c' =? c) eqn:Ec.
  - apply N.eqb_eq in Ec; subst c'. destruct (is_full (st_cap st) (queue_of m s)) eqn:F; [|discriminate].
    destruct (mem_n c (st_dying st)) eqn:D; [discriminate|].
    unfold own_refused in R. rewrite D, (O k s c G A), P, F in R. discriminate.
  - destruct (is_full _ _); [destruct (mem_n c' (st_dying st))|]; discriminate.
Qed.

Lemma pub_through st c m :
  wf st -> OwnOk st -> pub_stuck st c m = false ->
  own_refused st c m = false /\ pub_err st c m = false /\ pub_blk st c m = false.
Proof.
  intros W O H. unfold pub_stuck in H. apply orb_false_iff in H as [R Hb].
  pose proof (no_midway st c m W O R) as Herr. rewrite Herr in Hb. auto.
Qed.

Lemma target_same st c m r s :
  (match r with ROk => has_match (s_subs s) (m_topic m) = false | _ => True end) ->
  target_ok st c m r s s = true.
Proof.
  intros H. unfold target_ok. rewrite subs_eqb_refl, msgs_eqb_refl, n_opt_eqb_refl, kept_refl. cbn [andb orb].
  destruct (has_match (s_subs s) (m_topic m)); [|reflexivity].
  destruct r; try reflexivity. discriminate H.
Qed.

(* the session after a Publish that returned nil *)
Lemma target_deliver st c m got k s :
  name_ok (m_topic m) = true ->
  is_err (classify st c m s) = false -> is_block (classify st c m s) = false ->
  target_ok st c m ROk s (deliver false got k (classify st c m s) m s) = true.
Proof.
  intros Hn He Hb. unfold target_ok.
  assert (Hframe : forall s', (s' = s \/ s' = enqueue m s) ->
     subs_eqb (s_subs s) (s_subs s') && msgs_eqb (other_queue m s) (other_queue m s') &&
     option_eqb N.eqb (s_act s) (s_act s') = true).
  { intros s' [->| ->].
    - rewrite subs_eqb_refl, msgs_eqb_refl, n_opt_eqb_refl; reflexivity.
    - destruct (enqueue_frame m s) as (E1 & E2 & E3). rewrite E1, E2, E3.
      rewrite subs_eqb_refl, msgs_eqb_refl, n_opt_eqb_refl; reflexivity. }
  rewrite (Hframe _ (deliver_cases false got k _ m s)). cbn [andb].
  rewrite (classify_cases st c m s Hn) in *.
  destruct (has_match (s_subs s) (m_topic m)); [|cbn [deliver]; apply kept_refl].
  set (full := is_full (st_cap st) (queue_of m s)) in *.
  destruct (s_act s) as [c'|].
  - destruct (c' =? c) eqn:Ec.
    + apply N.eqb_eq in Ec; subst c'. destruct full.
      * destruct (mem_n c (st_dying st)); cbn [is_err deliver andb] in *; [apply kept_refl|discriminate].
      * rewrite andb_false_r. cbn [deliver]. apply enqueue_gained.
    + destruct full.
      * destruct (mem_n c' (st_dying st)); cbn [is_block deliver andb] in *; [apply kept_refl|discriminate].
      * rewrite andb_false_r. cbn [deliver]. apply enqueue_gained.
  - destruct full; cbn [deliver]; [apply kept_refl|apply enqueue_gained].
Qed.

(* ------------------------------------------------------------------ the Publish step *)
Lemma publish_unfold st c m got :
  publish st c m got =
  if pub_stuck st c m then ((if own_refused st c m then RQueueFull else RBlocked), st)
  else ((if pub_err st c m then RQueueFull else ROk),
        St (st_cap st)
           (map (fun e => (fst e, deliver (pub_err st c m) got (KStored (fst e)) (classify st c m (snd e)) m (snd e))) (st_stored st))
           (map (fun e => (fst e, deliver (pub_err st c m) got (KTemp (fst e)) (classify st c m (snd e)) m (snd e))) (st_temps st))
           (st_active st) (retain_update m (st_retained st)) (st_closing st) (st_sess st) (st_cid st)
           (st_dying st) (st_closed st) (st_term st) (st_pending st)).
Proof.
  unfold publish, pub_stuck. destruct (own_refused st c m); [reflexivity|]. cbn [orb]. reflexivity.
Qed.

Lemma get_session_published st c m got k :
  let st' := snd (publish st c m got) in
  pub_stuck st c m = false ->
  get_session st' k =
  option_map (fun s => deliver (pub_err st c m) got k (classify st c m s) m s) (get_session st k).
Proof.
  intros st' Hnb. unfold st'. rewrite publish_unfold, Hnb. cbn [snd].
  destruct k as [x|x]; cbn [get_session st_temps st_stored].
  - exact (alookup_map N.eqb N.eqb_eq
            (fun key s => deliver (pub_err st c m) got (KTemp key) (classify st c m s) m s) x (st_temps st)).
  - exact (alookup_map bytes_eqb bytes_eqb_eq
            (fun key s => deliver (pub_err st c m) got (KStored key) (classify st c m s) m s) x (st_stored st)).
Qed.

Lemma get_session_published_some st c m got k s' :
  get_session (snd (publish st c m got)) k = Some s' -> is_some (get_session st k) = true.
Proof.
  rewrite publish_unfold. destruct (pub_stuck st c m) eqn:Hnb; cbn [snd].
  - intros ->; reflexivity.
  - pose proof (get_session_published st c m got k Hnb) as X. cbv zeta in X.
    rewrite publish_unfold, Hnb in X; cbn [snd] in X. rewrite X.
    destruct (get_session st k); [reflexivity|discriminate].
Qed.

(* a Publish that returns ErrQueueFull was refused by the pre-check and has changed nothing *)
Lemma publish_refused st c m got :
  wf st -> OwnOk st -> fst (publish st c m got) = RQueueFull ->
  own_refused st c m = true /\ snd (publish st c m got) = st.
Proof.
  intros W O H. rewrite publish_unfold in *. unfold pub_stuck in *. destruct (own_refused st c m) eqn:R.
  - cbn [orb snd]. split; reflexivity.
  - rewrite (no_midway st c m W O R) in *. cbn [orb negb andb] in H. destruct (pub_blk st c m); discriminate.
Qed.

Theorem step_targets_ok st o : wf st -> OwnOk st -> let (r, st') := step st o in targets_ok st o r st' = true.
Proof.
  intros W O. destruct o as [| | | | |c m got| | |]; try (destruct (step st _); reflexivity). cbn [step].
  destruct (publish st c m got) as [r st'] eqn:E. cbn [targets_ok].
  destruct (name_ok (m_topic m)) eqn:Hn; [|reflexivity].
  assert (Est : st' = snd (publish st c m got)) by (rewrite E; reflexivity).
  rewrite publish_unfold in E.
  destruct (pub_stuck st c m) eqn:Hnb.
  - (* refused or waiting: nothing has changed *)
    injection E as <- <-. rewrite !andb_true_iff. split; [split|].
    + apply forallb_forall. intros [k s] Hin. cbn [fst snd]. rewrite (sessions_get st k s W Hin).
      apply target_same. destruct (own_refused st c m); exact I.
    + apply forallb_forall. intros [k s] Hin. cbn [fst]. rewrite (sessions_get st k s W Hin). reflexivity.
    + destruct (own_refused st c m) eqn:R.
      * rewrite <- (own_refused_own_full st c m Hn). exact R.
      * rewrite <- (pub_blk_other_full st c m Hn). unfold pub_stuck in Hnb. rewrite R, (no_midway st c m W O R) in Hnb. exact Hnb.
  - destruct (pub_through st c m W O Hnb) as (R & Herr & Hb). rewrite Herr in *.
    injection E as <- _. rewrite !andb_true_iff. split; [split|].
    + apply forallb_forall. intros [k s] Hin. cbn [fst snd].
      rewrite Est, (get_session_published st c m got k Hnb), (sessions_get st k s W Hin), Herr. cbn [option_map].
      apply (target_deliver st c m got k s Hn);
        [exact (pub_err_false_session st c m k s Herr Hin)|exact (pub_blk_false_session st c m k s Hb Hin)].
    + apply forallb_forall. intros [k s'] Hin. cbn [fst]. rewrite Est, publish_unfold, Hnb in Hin. cbn [snd] in Hin.
      apply in_sessions in Hin as [[x [-> Hin]]|[x [-> Hin]]]; cbn [st_temps st_stored get_session] in *.
      * apply in_map_iff in Hin as [[x0 s0] [Ex Hin]]. cbn [fst snd] in Ex. injection Ex as -> _.
        destruct W as (Wt & _). rewrite (In_alookup N.eqb N.eqb_eq x s0 _ Wt Hin); reflexivity.
      * apply in_map_iff in Hin as [[x0 s0] [Ex Hin]]. cbn [fst snd] in Ex. injection Ex as -> _.
        destruct W as (_ & Ws & _). rewrite (In_alookup bytes_eqb bytes_eqb_eq x s0 _ Ws Hin); reflexivity.
    + rewrite <- (own_refused_own_full st c m Hn), <- (pub_blk_other_full st c m Hn), R, Hb. split; reflexivity.
Qed.
