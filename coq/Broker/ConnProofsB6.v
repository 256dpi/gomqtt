(* ConnProofsB6.v — C07 exactly-once, part 3: c07_single_ack holds of every accepted
   trace on which the backend acknowledges promptly (prompt_acks). *)
From Coq Require Import List NArith Bool Lia.
From GM Require Import Base.Lts Codec.Packet Session.Ids Session.Store Session.StoreProofs
  Broker.Conn Broker.ConnSpec Broker.ConnBase Broker.ConnProofsB1 Broker.ConnProofsB3
  Broker.ConnProofsB4 Broker.ConnProofsB5.
Import ListNotations.
Open Scope N_scope.

(* the relation between closure table / incoming store and the scanner, in four parts *)
Definition QA (l : list closure) (rel : list (N * N)) : Prop :=
  (forall c id, In c l -> c_kind c = KPubcomp id -> aget rel (c_k c) = Some id) /\
  (forall k id, aget rel k = Some id -> exists c, In c l /\ c_k c = k /\ c_kind c = KPubcomp id).
Definition QB (l : list closure) (done : list N) : Prop :=
  forall c id, In c l -> c_kind c = KPubcomp id -> c_stat c <> CReg -> In (c_k c) done.
Definition QC (l : list closure) (sin : store) (acked : list N) : Prop :=
  forall id, In id acked ->
    store_lookup sin id = None \/ exists c g, In c l /\ c_kind c = KPubcomp id /\ c_stat c = CDel g.
Definition QD (l : list closure) (over acked : list N) : Prop :=
  forall c id, In c l -> c_kind c = KPubcomp id -> c_stat c = CReg -> ~ In (c_k c) over -> ~ In id acked.

(* --- updates of one closure's status --- *)

Lemma clo_set_back l k st c' : NoDup (ckeys l) -> In c' (clo_set l k st) ->
  exists c0, In c0 l /\ c_k c0 = c_k c' /\ c_kind c0 = c_kind c' /\
             ((c' = c0 /\ c_k c0 <> k) \/ (c_k c0 = k /\ c_stat c' = st)).
Proof.
  intros Hnd H. apply (in_clo_set _ _ _ _ Hnd) in H. destruct H as [[H Hne]|(x & Hx & Kx & ->)].
  - exists c'. repeat split; auto.
  - exists x. cbn [c_k c_kind c_stat]. repeat split; auto.
Qed.

Lemma clo_set_fwd l k st c0 : NoDup (ckeys l) -> In c0 l ->
  exists c', In c' (clo_set l k st) /\ c_k c' = c_k c0 /\ c_kind c' = c_kind c0 /\
             ((c' = c0 /\ c_k c0 <> k) \/ (c_k c0 = k /\ c_stat c' = st)).
Proof.
  intros Hnd H. destruct (N.eq_dec (c_k c0) k) as [E|E].
  - exists (Clo k (c_conn c0) (c_kind c0) st). cbn [c_k c_kind c_stat].
    split; [apply clo_set_in_same; assumption|]. repeat split; auto.
  - exists c0. split; [apply clo_set_in_other; assumption|]. repeat split; auto.
Qed.

Lemma QA_set l k st rel : NoDup (ckeys l) -> QA l rel -> QA (clo_set l k st) rel.
Proof.
  intros Hnd [A1 A2]. split.
  - intros c' id H Hk. destruct (clo_set_back _ _ _ _ Hnd H) as (c0 & H0 & K0 & Kd0 & _).
    rewrite <- K0. apply A1; [exact H0|congruence].
  - intros k1 id H. destruct (A2 k1 id H) as (c0 & H0 & K0 & Kd0).
    destruct (clo_set_fwd _ k st _ Hnd H0) as (c' & H' & K' & Kd' & _).
    exists c'. repeat split; [exact H'|congruence|congruence].
Qed.

Lemma QB_set l c st done : NoDup (ckeys l) -> In c l ->
  (forall id, c_kind c = KPubcomp id -> st <> CReg -> In (c_k c) done) ->
  QB l done -> QB (clo_set l (c_k c) st) done.
Proof.
  intros Hnd Hin Hc B c' id H Hk Hs. destruct (clo_set_back _ _ _ _ Hnd H) as (c0 & H0 & K0 & Kd0 & [[-> _]|[E Es]]).
  - eapply B; eassumption.
  - assert (c0 = c) by (eapply ckeys_inj; eassumption). subst c0. rewrite <- K0.
    apply (Hc id); [congruence|]. rewrite <- Es. exact Hs.
Qed.

Lemma QC_set l c st sin acked : NoDup (ckeys l) -> In c l ->
  (forall id g, c_kind c = KPubcomp id -> c_stat c = CDel g -> In id acked ->
                store_lookup sin id = None \/ exists g', st = CDel g') ->
  QC l sin acked -> QC (clo_set l (c_k c) st) sin acked.
Proof.
  intros Hnd Hin Hc C id Hid. destruct (C id Hid) as [Hn|(c1 & g & H1 & K1 & S1)]; [left; exact Hn|].
  destruct (N.eq_dec (c_k c1) (c_k c)) as [E|E].
  - assert (c1 = c) by (eapply ckeys_inj; eassumption). subst c1.
    destruct (Hc id g K1 S1 Hid) as [Hn|(g' & ->)]; [left; exact Hn|].
    right. exists (Clo (c_k c) (c_conn c) (c_kind c) (CDel g')), g'. cbn [c_kind c_stat].
    split; [apply clo_set_in_same; auto|]. split; [exact K1|reflexivity].
  - right. exists c1, g. split; [apply clo_set_in_other; assumption|]. split; assumption.
Qed.

Lemma QD_set l c st over acked : NoDup (ckeys l) -> In c l -> st <> CReg ->
  QD l over acked -> QD (clo_set l (c_k c) st) over acked.
Proof.
  intros Hnd Hin Hst D c' id H Hk Hs. destruct (clo_set_back _ _ _ _ Hnd H) as (c0 & H0 & K0 & Kd0 & [[-> _]|[E Es]]).
  - eapply D; eassumption.
  - rewrite Es in Hs. contradiction.
Qed.

(* --- a registered closure is appended --- *)

Lemma QA_app_other l k n a rel : (forall id, a <> KPubcomp id) -> QA l rel -> QA (l ++ [Clo k n a CReg]) rel.
Proof.
  intros Ha [A1 A2]. split.
  - intros c id H Hk. apply in_app_iff in H. cbn [In] in H. destruct H as [H|[<-|[]]]; [eapply A1; eassumption|].
    exfalso. eapply Ha, Hk.
  - intros k1 id H. destruct (A2 k1 id H) as (c0 & H0 & R). exists c0. split; [apply in_app_iff; left; exact H0|exact R].
Qed.

Lemma QA_app_pc l k n id rel : clo_find l k = None -> QA l rel ->
  QA (l ++ [Clo k n (KPubcomp id) CReg]) ((k, id) :: rel).
Proof.
  intros Hf [A1 A2]. split.
  - intros c id' H Hk. apply in_app_iff in H. cbn [In] in H. destruct H as [H|[<-|[]]].
    + rewrite aget_cons_ne; [eapply A1; eassumption|]. eapply clo_find_none; eassumption.
    + cbn [c_kind c_k] in *. injection Hk as <-. apply aget_cons_eq.
  - intros k1 id' H. destruct (N.eq_dec k1 k) as [->|Hne].
    + rewrite aget_cons_eq in H. injection H as <-. eexists. split; [apply in_app_iff; right; left; reflexivity|].
      split; reflexivity.
    + rewrite aget_cons_ne in H by exact Hne. destruct (A2 k1 id' H) as (c0 & H0 & R).
      exists c0. split; [apply in_app_iff; left; exact H0|exact R].
Qed.

Lemma QB_app l k n a done : QB l done -> QB (l ++ [Clo k n a CReg]) done.
Proof.
  intros B c id H Hk Hs. apply in_app_iff in H. cbn [In] in H. destruct H as [H|[<-|[]]]; [eapply B; eassumption|].
  cbn [c_stat] in Hs. contradiction.
Qed.

Lemma QC_app l x sin acked : QC l sin acked -> QC (l ++ [x]) sin acked.
Proof.
  intros C id Hid. destruct (C id Hid) as [Hn|(c1 & g & H1 & R)]; [left; exact Hn|].
  right. exists c1, g. split; [apply in_app_iff; left; exact H1|exact R].
Qed.

Lemma QD_app_other l k n a over acked : (forall id, a <> KPubcomp id) -> QD l over acked ->
  QD (l ++ [Clo k n a CReg]) over acked.
Proof.
  intros Ha D c id H Hk. apply in_app_iff in H. cbn [In] in H. destruct H as [H|[<-|[]]]; [eapply D; eassumption|].
  exfalso. eapply Ha, Hk.
Qed.

Lemma QD_app_pc l k n id over acked : ~ In id acked -> QD l over acked ->
  QD (l ++ [Clo k n (KPubcomp id) CReg]) over acked.
Proof.
  intros Hid D c id' H Hk. apply in_app_iff in H. cbn [In] in H. destruct H as [H|[<-|[]]]; [eapply D; eassumption|].
  cbn [c_kind] in Hk. injection Hk as <-. intros _ _. exact Hid.
Qed.

(* --- the scanner or the store change --- *)

Lemma QB_mono l done done' : (forall k, In k done -> In k done') -> QB l done -> QB l done'.
Proof. intros Hm B c id H Hk Hs. apply Hm. eapply B; eassumption. Qed.

Lemma QC_sub l sin acked acked' : (forall x, In x acked' -> In x acked) -> QC l sin acked -> QC l sin acked'.
Proof. intros Hm C id Hid. apply C, Hm, Hid. Qed.

Lemma QC_delete l sin id acked : NoDup (keys sin) -> QC l sin acked -> QC l (store_delete sin id) acked.
Proof.
  intros Hk C id' Hid. rewrite lookup_delete by exact Hk. destruct (id' =? id); [left; reflexivity|]. apply C, Hid.
Qed.

Lemma QC_save l sin d m id acked : NoDup acked -> QC l sin acked ->
  QC l (store_save sin (Publish d m id)) (nremove1 id acked).
Proof.
  intros Hnd C id' Hid. destruct (nodup_nremove1 id acked Hnd) as [_ N2].
  unfold store_save. cbn [get_id]. rewrite lookup_put.
  destruct (id' =? id) eqn:E; [apply N.eqb_eq in E; subst; contradiction|].
  apply C. eapply in_nremove1, Hid.
Qed.

Lemma QC_nil l acked : QC l [] acked.
Proof. intros id _. left. reflexivity. Qed.

Lemma QD_sub l over acked acked' : (forall x, In x acked' -> In x acked) -> QD l over acked -> QD l over acked'.
Proof. intros Hm D c id H Hk Hs Ho Hid. eapply D; eauto. Qed.

Lemma QD_over l over over' acked : (forall k, In k over -> In k over') -> QD l over acked -> QD l over' acked.
Proof. intros Hm D c id H Hk Hs Ho. eapply D; eauto. Qed.

Lemma QC_call l c g id sin acked : NoDup (ckeys l) -> In c l -> c_kind c = KPubcomp id ->
  QC l sin acked -> QC (clo_set l (c_k c) (CDel g)) sin (id :: acked).
Proof.
  intros Hnd Hin Hk C id' [<-|Hid].
  - right. exists (Clo (c_k c) (c_conn c) (c_kind c) (CDel g)), g. cbn [c_kind c_stat].
    split; [apply clo_set_in_same; auto|]. split; [exact Hk|reflexivity].
  - destruct (C id' Hid) as [Hn|(c1 & g1 & H1 & K1 & S1)]; [left; exact Hn|]. right.
    destruct (N.eq_dec (c_k c1) (c_k c)) as [E|E].
    + assert (c1 = c) by (eapply ckeys_inj; eassumption). subst c1.
      exists (Clo (c_k c) (c_conn c) (c_kind c) (CDel g)), g. cbn [c_kind c_stat].
      split; [apply clo_set_in_same; auto|]. split; [exact K1|reflexivity].
    + exists c1, g1. split; [apply clo_set_in_other; assumption|]. split; assumption.
Qed.

Lemma QD_call l c g id over acked : NoDup (ckeys l) -> In c l ->
  (forall c', In c' l -> c_kind c' = KPubcomp id -> c_stat c' = CReg -> ~ In (c_k c') over -> c_k c' = c_k c) ->
  QD l over acked -> QD (clo_set l (c_k c) (CDel g)) over (id :: acked).
Proof.
  intros Hnd Hin Hu D c' id' H Hk Hs Ho.
  destruct (clo_set_back _ _ _ _ Hnd H) as (c0 & H0 & K0 & Kd0 & [[-> Hne]|[E Es]]).
  - intros [<-|Hid]; [apply Hne; eapply Hu; eassumption|]. revert Hid. eapply D; eassumption.
  - rewrite Es in Hs. discriminate Hs.
Qed.

Lemma pk_over_mono u e u' : pk_step u e = Some u' -> forall k, In k (pk_over u) -> In k (pk_over u').
Proof.
  intros H k Hk. unfold pk_step in H. destruct e; bm H; inv_some H; cbn [pk_over]; try exact Hk.
  apply in_app_iff. right. exact Hk.
Qed.

(* ------------------------------------------------------------ the invariant *)

Definition q3_pp (x : ppc) (acked : list N) : Prop :=
  match x with
  | PRelPub id _ => ~ In id acked
  | PPub2W p => exists d m id, p = Publish d m id
  | _ => True
  end.

Definition q3_tab (l : list closure) (sin : store) (v : q3_st) (over : list N) : Prop :=
  NoDup (q3_acked v) /\ QA l (q3_rel v) /\ QB l (q3_done v) /\ QC l sin (q3_acked v) /\ QD l over (q3_acked v).

Definition q3_inv (s : bc) (v : q3_st) (u : pk_st) : Prop :=
  q3_tab (clos s) (s_in (sess s)) v (pk_over u) /\ q3_pp (pp s) (q3_acked v).

Definition q3_relt (s : bc) (v : q3_st) (u : pk_st) : Prop := last_rel s (q3_last v) /\ q3_inv s v u.

Lemma q3_last_next v e v' : q3_step v e = Some v' -> q3_last v' = lt_next (q3_last v) e.
Proof. intros H. unfold q3_step in H. destruct e; bm H; inv_some H; reflexivity. Qed.

Lemma q3_tab_over l sin v over over' : (forall k, In k over -> In k over') -> q3_tab l sin v over -> q3_tab l sin v over'.
Proof. intros Hm (H1 & H2 & H3 & H4 & H5). repeat split; try assumption; try apply H2. eapply QD_over; eassumption. Qed.

Lemma q3_tab_set l c st sin v over : NoDup (ckeys l) -> In c l -> st <> CReg ->
  (forall id, c_kind c = KPubcomp id -> In (c_k c) (q3_done v)) ->
  (forall id g, c_kind c = KPubcomp id -> c_stat c = CDel g -> In id (q3_acked v) ->
                store_lookup sin id = None \/ exists g', st = CDel g') ->
  q3_tab l sin v over -> q3_tab (clo_set l (c_k c) st) sin v over.
Proof.
  intros Hnd Hin Hst Hb Hc (H1 & H2 & H3 & H4 & H5).
  split; [exact H1|]. split; [apply QA_set; assumption|]. split; [|split].
  - apply QB_set; eauto.
  - apply QC_set; auto.
  - apply QD_set; auto.
Qed.

(* an update of a closure that is not a waiting or deleting PUBREL-publish closure, before and after *)
Lemma q3_tab_set_irr l c st sin v over : NoDup (ckeys l) -> In c l -> irrelevant c -> st <> CReg ->
  q3_tab l sin v over -> q3_tab (clo_set l (c_k c) st) sin v over.
Proof.
  intros Hnd Hin Hirr Hst Ht. pose proof Ht as (_ & _ & H3 & _). apply q3_tab_set; auto.
  - intros id Hk. destruct Hirr as [Hi|Hi]; [exfalso; eapply Hi, Hk|].
    eapply H3; [exact Hin|exact Hk|]. intros E. rewrite E in Hi. discriminate Hi.
  - intros id g Hk Hs _. destruct Hirr as [Hi|Hi]; [exfalso; eapply Hi, Hk|].
    rewrite Hs in Hi. discriminate Hi.
Qed.

Lemma q3_call_quiet l sin v over c g : NoDup (ckeys l) -> In c l -> q3_tab l sin v over ->
  (forall id, c_kind c = KPubcomp id -> c_stat c <> CReg) ->
  q3_step v (EAckCall (c_k c) g) = Some v.
Proof.
  intros Hnd Hin (_ & [_ A2] & B & _) Hc. cbn [q3_step].
  destruct (nmem (c_k c) (q3_done v)) eqn:Ed; [reflexivity|].
  destruct (aget (q3_rel v) (c_k c)) as [id|] eqn:Er; [exfalso|reflexivity].
  destruct (A2 _ _ Er) as (c1 & H1 & K1 & Kd1).
  assert (c1 = c) by (eapply ckeys_inj; eassumption). subst c1.
  apply nmem_false_iff in Ed. apply Ed. eapply B; [exact Hin|exact Kd1|]. eapply Hc, Kd1.
Qed.

Lemma q3_inv_clo s v u e s' u' : inv_c07 s -> pk_inv s u -> q3_inv s v u ->
  step_clo s e = Some s' -> pk_step u e = Some u' ->
  exists v', q3_step v e = Some v' /\ q3_inv s' v' u'.
Proof.
  intros (I1 & I2 & I3) (Hc & Hp & Hsc) [Ht Hq] H Hu.
  pose proof (pk_over_mono _ _ _ Hu) as Hov.
  apply step_clo_nf in H. destruct H as [H (_ & Epp & _)]. unfold q3_inv. rewrite Epp.
  destruct H as [c g id -> Hin Hst Hk Hi -> -> _ | c g -> Hin Hst Hk Hi -> -> _ | c g id ok -> Hin Hst Hk -> -> _
                | c g st Hl Hin -> -> _ | c g He Hin Hst Hi ->].
  - (* the backend acknowledges a PUBREL-publish *)
    apply pk_step_call in Hu. destruct Hu as [Hno Hu'].
    assert (Eov : pk_over u' = pk_over u) by (destruct Hu' as [[_ ->]|(id' & _ & ->)]; reflexivity).
    rewrite Eov. cbn [q3_step]. destruct (nmem (c_k c) (q3_done v)) eqn:Ed.
    + exists v. split; [reflexivity|]. apply nmem_true_iff in Ed. split; [|exact Hq].
      apply q3_tab_set; auto; [discriminate|]. intros id0 g0 _ E. rewrite Hst in E. discriminate E.
    + destruct Ht as (T1 & T2 & T3 & T4 & T5). rewrite (proj1 T2 _ _ Hin Hk).
      assert (Hna : ~ In id (q3_acked v)) by (eapply T5; eassumption).
      pose proof Hna as Hna'. apply nmem_false_iff in Hna'. rewrite Hna'.
      eexists. split; [reflexivity|]. unfold q3_tab. cbn [q3_acked q3_rel q3_done].
      split; [split; [constructor; assumption|split; [apply QA_set; assumption|split; [|split]]]|].
      * apply QB_set; auto; [intros; left; reflexivity|]. eapply QB_mono; [|exact T3]. intros k Hk'. right. exact Hk'.
      * apply QC_call; assumption.
      * apply QD_call; auto. intros c' H' K' S' O'.
        destruct (N.eq_dec (c_k c') (c_k c)) as [E|E]; [exact E|exfalso].
        destruct Hc as (P1 & _). destruct (Hsc _ _ _ (P1 _ _ H' K' S') (P1 _ _ Hin Hk Hst) E); contradiction.
      * destruct (pp s) eqn:Ex; cbn [q3_pp pk_pp] in *; try exact I; try exact Hq.
        intros [E|Hin']; [|exact (Hq Hin')]. subst id0. apply Hno. destruct Hp as [Ha _]. apply Ha.
        destruct Hc as (P1 & _). eapply P1; eassumption.
  - (* another closure is invoked *)
    exists v. split; [eapply q3_call_quiet; eauto; intros id E; exfalso; eapply Hk, E|]. split; [|exact Hq].
    eapply q3_tab_over; [exact Hov|]. apply q3_tab_set_irr; auto; [left; exact Hk|discriminate].
  - (* the Delete: the closure's key was entered in done when it was called *)
    destruct Ht as (T1 & T2 & T3 & T4 & T5).
    assert (Hd : forall id0, c_kind c = KPubcomp id0 -> In (c_k c) (q3_done v)).
    { intros id0 Hk0. eapply T3; [exact Hin|exact Hk0|]. rewrite Hst. discriminate. }
    destruct ok.
    + (* the handshake is released *)
      exists v. split; [reflexivity|]. split; [|exact Hq]. eapply q3_tab_over; [exact Hov|].
      apply q3_tab_set; auto; [discriminate| |].
      * intros id0 g0 Hk0 _ _. left. rewrite Hk in Hk0. injection Hk0 as <-.
        rewrite lookup_delete by exact I3. rewrite N.eqb_refl. reflexivity.
      * split; [exact T1|]. split; [exact T2|]. split; [exact T3|]. split; [apply QC_delete; assumption|exact T5].
    + (* the release fails: the scanner forgets the acknowledgement *)
      eexists. split; [reflexivity|]. cbn [q3_acked]. destruct (nodup_nremove1 id _ T1) as [N1 N2].
      assert (Hsub : forall x, In x (nremove1 id (q3_acked v)) -> In x (q3_acked v)) by (intros x Hx; eapply in_nremove1, Hx).
      split.
      * eapply q3_tab_over; [exact Hov|]. apply q3_tab_set; auto; [discriminate| |].
        -- intros id0 g0 Hk0 _ Hin0. rewrite Hk in Hk0. injection Hk0 as <-. contradiction.
        -- split; [exact N1|]. split; [exact T2|]. split; [exact T3|]. split; [eapply QC_sub|eapply QD_sub]; eassumption.
      * destruct (pp s); cbn [q3_pp] in *; try exact I; try exact Hq. intros Hx. apply Hq, Hsub, Hx.
  - destruct (late_tr_on _ _ _ _ _ _ Hl) as (_ & Hidle & Hst).
    exists v. split; [destruct Hl; reflexivity|]. split; [|exact Hq]. eapply q3_tab_over; [exact Hov|].
    apply q3_tab_set_irr; auto; [right; exact Hidle|apply idle_not_reg, Hst].
  - (* a finished closure is invoked or returns again *)
    exists v. split; [|split; [eapply q3_tab_over; eassumption|exact Hq]].
    destruct He as [-> | ->]; [|reflexivity]. eapply q3_call_quiet; eauto. intros id _. rewrite Hst. discriminate.
Qed.

Lemma q3_tab_app_other l k n a sin v over : (forall id, a <> KPubcomp id) ->
  q3_tab l sin v over -> q3_tab (l ++ [Clo k n a CReg]) sin v over.
Proof.
  intros Ha (T1 & T2 & T3 & T4 & T5). split; [exact T1|]. split; [apply QA_app_other; assumption|].
  split; [apply QB_app, T3|]. split; [apply QC_app, T4|apply QD_app_other; assumption].
Qed.

Lemma q3_tab_app_pc l k n id sin v over x : clo_find l k = None -> ~ In id (q3_acked v) ->
  q3_tab l sin v over ->
  q3_tab (l ++ [Clo k n (KPubcomp id) CReg]) sin (Q3St x ((k, id) :: q3_rel v) (q3_acked v) (q3_done v)) over.
Proof.
  intros Hf Hid (T1 & T2 & T3 & T4 & T5). split; [exact T1|]. split; [apply QA_app_pc; assumption|].
  split; [apply QB_app, T3|]. split; [apply QC_app, T4|apply QD_app_pc; assumption].
Qed.

Lemma q3_tab_save l sin v over x d m id : q3_tab l sin v over ->
  q3_tab l (store_save sin (Publish d m id)) (Q3St x (q3_rel v) (nremove1 id (q3_acked v)) (q3_done v)) over.
Proof.
  intros (T1 & T2 & T3 & T4 & T5). destruct (nodup_nremove1 id _ T1) as [N1 N2].
  split; [exact N1|]. split; [exact T2|]. split; [exact T3|]. split; [apply QC_save; assumption|].
  eapply QD_sub; [|exact T5]. intros y Hy. eapply in_nremove1, Hy.
Qed.

Lemma q3_tab_nil l sin v over : q3_tab l sin v over -> q3_tab l [] v over.
Proof. intros (T1 & T2 & T3 & T4 & T5). repeat split; try assumption; try apply T2. apply QC_nil. Qed.

Lemma q3_inv_proc s v u e s' u' g : gproc s = Some g -> ev_g e = Some g ->
  plast (pp s) (aget (q3_last v) g) -> pk_inv s u -> q3_inv s v u ->
  step_proc s e = Some s' -> pk_step u e = Some u' ->
  exists v', q3_step v e = Some v' /\ q3_inv s' v' u'.
Proof.
  intros Hg Heg HL (Hc & Hp & Hsc) [Ht Hq] H Hu.
  pose proof (pk_over_mono _ _ _ Hu) as Hov.
  apply (q3_tab_over _ _ _ _ _ Hov) in Ht.
  inv_proc H; cbn [ev_g] in Heg; injection Heg as ->; try dispatch_cases Hd; pp_cases;
    try (eexists; split; [reflexivity|]; unfold q3_inv; sfp; cbn [q3_pp];
         split; [first [exact Ht | apply q3_tab_app_other; [discriminate|exact Ht]]
                |solve [exact I | exact Hq | eauto]]).
  - (* ESetup, fresh session *)
    eexists; split; [reflexivity|]. unfold q3_inv; sfp. cbn [session_new s_in q3_pp]. split; [|exact I].
    eapply q3_tab_nil, Ht.
  - (* PPub1W *)
    rewrite Hpp in HL. destruct HL as (d & m' & HL). exists v. split; [cbn [q3_step]; rewrite HL; reflexivity|].
    unfold q3_inv; sfp. split; [apply q3_tab_app_other; [discriminate|exact Ht]|exact I].
  - (* PPub2W, saved *)
    rewrite Hpp in Hq. destruct Hq as (d & m & id & ->). cbn [get_id] in Hid. injection Hid as <-.
    eexists. split; [reflexivity|]. unfold q3_inv; sfp. cbn [q3_acked q3_pp sess_with s_in].
    split; [apply q3_tab_save, Ht|exact I].
  - (* PPub2W, save failed *)
    exists v. split; [destruct p0; reflexivity|]. unfold q3_inv; sfp. split; [exact Ht|exact I].
  - (* PRelLookup, found: no acknowledged publish of this handshake is left *)
    exists v. split; [reflexivity|]. unfold q3_inv; sfp. split; [exact Ht|]. cbn [q3_pp].
    intros Hin. destruct Ht as (_ & _ & _ & T4 & _). destruct (T4 _ Hin) as [Hn|(c1 & g1 & H1 & K1 & S1)].
    + rewrite Hn in Elk. discriminate Elk.
    + unfold pk_step in Hu.
      match type of Hu with (if ?b then None else _) = _ => destruct b eqn:Eb; [discriminate Hu|] end.
      destruct Hc as (_ & P2 & _). apply (pk_lookup_busy _ _ g1 Eb). eapply P2; eassumption.
  - (* PRelPub *)
    rewrite Hpp in HL, Hq. cbn [plast] in HL. cbn [q3_pp] in Hq. eexists. split; [cbn [q3_step]; rewrite HL; reflexivity|].
    unfold q3_inv; sfp. cbn [q3_acked q3_pp]. split; [|exact I]. apply q3_tab_app_pc; assumption.
Qed.

Lemma q3_inv_over s v u u' : (forall k, In k (pk_over u) -> In k (pk_over u')) -> q3_inv s v u -> q3_inv s v u'.
Proof. intros Hm [H1 H2]. split; [eapply q3_tab_over; eassumption|exact H2]. Qed.

Lemma q3_inv_hstep s v u e s' u' : inv_c07 s -> pk_inv s u -> q3_relt s v u ->
  step s e = Some s' -> pk_step u e = Some u' ->
  exists v', q3_step v e = Some v' /\ q3_inv s' v' u'.
Proof.
  intros Hi Hpk HR H. revert u'.
  refine (step_sweep (fun s v => inv_c07 s /\ pk_inv s u /\ q3_relt s v u)
            (fun v e s' => forall u', pk_step u e = Some u' -> exists v', q3_step v e = Some v' /\ q3_inv s' v' u')
            _ _ _ _ _ _ _ _ _ _ s v e s' (conj Hi (conj Hpk HR)) H); clear s v e s' Hi Hpk HR H.
  - (* roles *) intros s v g d a c HP _ _. exact HP.
  - (* new *) intros s v (_ & _ & _ & [H1 _]) _ u' Hu. injection Hu as <-. eexists. split; [reflexivity|]. split; [exact H1|exact I].
  - (* close-req *) intros s v (_ & _ & _ & HR) u' Hu. injection Hu as <-. exists v. split; [reflexivity|exact HR].
  - (* quiescent *) intros s v (_ & _ & _ & HR) _ u' Hu. injection Hu as <-. exists v. split; [reflexivity|exact HR].
  - (* kill *) intros s v g (_ & _ & _ & HR) _ u' Hu. injection Hu as <-. exists v. split; [reflexivity|exact HR].
  - (* closure *) intros s v e s' (Hi & Hpk & _ & HR) H u' Hu. eapply q3_inv_clo; eassumption.
  - (* processor *) intros s s1 v e s' g (_ & Hpk & HL & HR) _ Hv Hev H u' Hu. apply (q3_inv_proc s1 v u e s' u' g); try assumption.
    + destruct Hv as [[-> Hg]|(_ & _ & -> & _)]; [exact Hg|reflexivity].
    + exact (last_rel_view _ _ _ _ _ Hv HL).
    + destruct Hv as [[-> _]|(_ & _ & -> & _)]; exact Hpk.
    + destruct Hv as [[-> _]|(_ & _ & -> & _)]; exact HR.
  - (* dequeuer *) intros s v e s' g (_ & _ & _ & HR) _ _ _ _ H u' Hu. exists v. split.
    + apply step_deq_event in H. destruct e; try discriminate H; try reflexivity. destruct d; [discriminate H|reflexivity].
    + apply (q3_inv_over _ _ u _ (pk_over_mono _ _ _ Hu)).
      destruct (step_deq_frame _ _ _ H) as (Hs & Hc & Hp & _). unfold q3_inv in *. rewrite Hs, Hc, Hp. exact HR.
  - (* acker *) intros s v e s' g (_ & _ & _ & HR) _ _ _ _ _ H u' Hu. exists v. split.
    + apply step_ack_event in H. destruct e; try discriminate H; reflexivity.
    + apply (q3_inv_over _ _ u _ (pk_over_mono _ _ _ Hu)).
      apply step_ack_shape in H. destruct H as (a & dy & t1 & t2 & t3 & q & ->). exact HR.
  - (* cleanup *) intros s v e s' (_ & _ & _ & [Ht Hq]) _ H u' Hu. exists v. split.
    + apply step_cleanup_event in H. destruct e; try discriminate H; try reflexivity; destruct k; try discriminate H; reflexivity.
    + apply (q3_inv_over _ _ u _ (pk_over_mono _ _ _ Hu)).
      destruct (step_cleanup_frame _ _ _ H) as (_ & Es & Ec & _ & _ & _ & [Hp|Hp] & _); unfold q3_inv; rewrite Es, Ec, Hp;
        (split; [exact Ht|]); [exact Hq|exact I].
Qed.

Definition q3_R (s : bc) (v : q3_st) (u : pk_st) : Prop := inv_c07 s /\ pk_rel s u /\ q3_relt s v u.

Lemma q3_hstep s v u e s' u' : q3_R s v u -> step s e = Some s' -> pk_step u e = Some u' ->
  exists v', q3_step v e = Some v' /\ q3_R s' v' u'.
Proof.
  intros (Hi & Hpk & Hq) H Hu.
  destruct (q3_inv_hstep _ _ _ _ _ _ Hi (proj2 Hpk) Hq H Hu) as (v' & Ev & Hq').
  exists v'. split; [exact Ev|]. split; [eapply inv_c07_step; eassumption|]. split.
  - eapply pk_hstep; eassumption.
  - split; [|exact Hq']. rewrite (q3_last_next _ _ _ Ev). apply (last_hstep _ _ _ _ (proj1 Hq) H).
Qed.

Theorem single_ack_partial : forall es s,
  bc_run es = Some s -> prompt_acks es = true -> c07_single_ack es = true.
Proof.
  unfold prompt_acks, c07_single_ack.
  apply (scan_sound2 q3_step pk_step q3_R q3_hstep).
  split; [exact inv_c07_init|]. split; [exact pk_rel_init|].
  split; [exact I|]. split; [|exact I].
  split; [constructor|]. split; [split|split; [|split]].
  - intros c id [].
  - intros k id E. discriminate E.
  - intros c id [].
  - intros id [].
  - intros c id [].
Qed.
