(* ConnProofsA_gate.v — C20_gate: on every trace the model accepts, nothing is done
   on the connection's behalf before an accepted CONNECT. *)
From Coq Require Import List NArith Bool Lia.
From GM Require Import Base.Lts Codec.Packet Session.Ids Session.Store
  Broker.Conn Broker.ConnSpec Broker.ConnBase Broker.ConnProofsA_lib Broker.ConnProofsA_inv.
Import ListNotations.
Open Scope N_scope.

(* which control point of the processor corresponds to which stage of the scanner *)
Definition gate_R (s : bc) (t : stage) : Prop :=
  match t with
  | SAcc => True
  | S0 => ph s = Connecting /\ pp s = PFirst
  | SConn => ph s = Connecting /\ exists c, pp s = PAuth c
  | SDeny false => ph s = Connecting /\ pp s = PDeny
  | SDeny true | SBad => ph s = Connecting /\ dead_pp (pp s) = true
  end.

(* events the scanner ignores in every stage *)
Definition gate_neutral (e : event) : bool :=
  match e with
  | ENewConn | ERx _ _ | ERxErr _ | EAuth _ _ => false
  | _ => negb (is_effect e)
  end.

Lemma clo_event_neutral e : clo_event e = true -> gate_neutral e = true.
Proof. destruct e; cbn; intros H; try discriminate H; reflexivity. Qed.

(* gate_R only looks at ph and pp *)
Lemma gate_R_ext s s' t : ph s' = ph s -> pp s' = pp s -> gate_R s t -> gate_R s' t.
Proof. intros H1 H2. unfold gate_R. rewrite H1, H2. auto. Qed.

(* the two ways a step leaves the stage alone: the scanner ignores the event, or the
   CONNECT has been accepted *)
Lemma gate_stay s' t e : gate_neutral e = true -> gate_R s' t -> exists t', gate_step t e = Some t' /\ gate_R s' t'.
Proof. intros He HR. exists t. split; [|exact HR]. destruct t as [| |[|]| |]; destruct e; try discriminate He; reflexivity. Qed.

Lemma gate_accepted s' e : e <> ENewConn -> exists t', gate_step SAcc e = Some t' /\ gate_R s' t'.
Proof. intros He. exists SAcc. split; [|exact I]. destruct e; try reflexivity. contradiction. Qed.

Lemma gate_early s t : inv_phase s -> gate_R s t -> t = SAcc \/ (ph s = Connecting /\ dp s = DOff /\ ap s = AOff).
Proof.
  intros [Hi _] HR. destruct t as [| |[|]| |]; cbn [gate_R] in HR; [| | | |left; reflexivity|];
    destruct HR as [Hph _]; destruct (Hi Hph) as (_ & Hd & Ha & _); auto.
Qed.

(* before authentication the cleanup can only close *)
Lemma cleanup_connecting s e s' : inv_phase s -> ph s = Connecting -> step_cleanup s e = Some s' ->
  e = EClosed /\ ph s' = ph s /\ pp s' = pp s.
Proof.
  intros [Hi _] Hph H. destruct (Hi Hph) as (Hpre & _ & _ & _ & Hl).
  destruct (step_cleanup_cases _ _ _ H) as
    [g m _ _ _ Hc|g ok _ _ _ Hc| -> _ Hst _ ->|g ok _ El|g _ El|g ok _ El|g _ El| _ El].
  1,2: rewrite Hph in Hc; discriminate Hc.
  2-6: destruct Hl as [Hl|Hl]; rewrite Hl in El; discriminate El.
  (* a processor that can stop at a control point before Setup is gone already: freezing it changes nothing *)
  apply andb_true_iff in Hst as [Hst _]. apply andb_true_iff in Hst as [Hst _]. unfold proc_can_stop in Hst. sf.
  destruct (pp s); try discriminate Hpre; try discriminate Hst; auto.
Qed.

(* the scanner computes the stage; the new control point belongs to it *)
Local Ltac arrive := (eexists; split; [reflexivity|]); cbn [gate_R]; sf; eauto.

Lemma gate_step_lemma s t e s' :
  inv_phase s -> gate_R s t -> step s e = Some s' -> exists t', gate_step t e = Some t' /\ gate_R s' t'.
Proof.
  intros Hi HR. refine (step_sweep (fun s t => inv_phase s /\ gate_R s t) (fun t e s' => exists t', gate_step t e = Some t' /\ gate_R s' t')
                          _ _ _ _ _ _ _ _ _ _ s t e s' (conj Hi HR)); clear s t e s' Hi HR.
  - (* roles *) intros s t g d a c HP _ _. exact HP.
  - (* new *) intros s t _ _. exists S0. split; [reflexivity|]. cbn [gate_R]; sf. auto.
  - (* close-req *) intros s t [_ HR]. apply gate_stay; [reflexivity|exact HR].
  - (* quiescent *) intros s t [_ HR] _. apply gate_stay; [reflexivity|exact HR].
  - (* kill *) intros s t g [_ HR] _. apply gate_stay; [reflexivity|exact HR].
  - (* closure *) intros s t e s' [_ HR] Hc. apply gate_stay; [apply clo_event_neutral, (step_clo_event _ _ _ Hc)|].
    destruct (step_clo_shape _ _ _ Hc) as (se & cl & dy & q & ->). exact HR.
  - (* processor: the stage says where it stands ([Hst]); [inv_proc] gives its steps, each with
       the control point it starts at ([Hpp]), and those that start elsewhere are discarded *)
    intros s s1 t e s' g [_ HR] _ Hv Hg Hp.
    assert (HR1 : gate_R s1 t) by (destruct Hv as [[-> _]|(_ & _ & -> & _)]; exact HR). clear HR Hv s. rename s1 into s.
    destruct t as [| |[|]| |]; cbn [gate_R] in HR1; [| | | |clear HR1|]; try destruct HR1 as [Hph Hst].
    + (* at PFirst: a CONNECT leads on, any other packet or a receive error is fatal *)
      inv_proc Hp; pp_split; try congruence; [destruct p0|]; arrive.
    + (* at PAuth: the backend's answer decides *)
      destruct Hst as [c Hst]. inv_proc Hp; pp_split; try congruence. destruct r0; arrive.
    + (* on its way out after the CONNACK(5): it logs and closes, which the scanner ignores *)
      destruct (step_proc_dead _ _ _ Hst Hp) as [(g0 & k & -> & ->)|(g0 & -> & ->)]; arrive.
    + (* at PDeny: the CONNACK(5) is sent *)
      inv_proc Hp; pp_split; try congruence. arrive.
    + (* accepted *) apply gate_accepted. intros ->. discriminate Hg.
    + (* on its way out *)
      destruct (step_proc_dead _ _ _ Hst Hp) as [(g0 & k & -> & ->)|(g0 & -> & ->)]; arrive.
  - (* dequeuer: not started before authentication *)
    intros s t e s' g [Hi HR] _ Hg _ _ Hp. destruct (gate_early s t Hi HR) as [->|(_ & Hd & _)].
    + apply gate_accepted. intros ->. discriminate Hg.
    + rewrite (step_deq_off _ _ (or_introl Hd)) in Hp. discriminate Hp.
  - (* acker: not started before authentication *)
    intros s t e s' g [Hi HR] _ Hg _ _ _ Hp. destruct (gate_early s t Hi HR) as [->|(_ & _ & Ha)].
    + apply gate_accepted. intros ->. discriminate Hg.
    + rewrite (step_ack_off _ _ (or_introl Ha)) in Hp. discriminate Hp.
  - (* cleanup *)
    intros s t e s' [Hi HR] _ Hp. destruct (gate_early s t Hi HR) as [->|(Hph & _)].
    + apply gate_accepted. intros ->. apply step_cleanup_event in Hp. discriminate Hp.
    + destruct (cleanup_connecting _ _ _ Hi Hph Hp) as (-> & F1 & F2).
      apply gate_stay; [reflexivity|exact (gate_R_ext _ _ _ F1 F2 HR)].
Qed.

Theorem c20_gate_holds : forall es s, bc_run es = Some s -> c20_gate es = true.
Proof.
  unfold c20_gate.
  apply (scan_sound_inv gate_step inv_phase gate_R inv_phase_init inv_phase_step gate_step_lemma).
  cbn. auto.
Qed.
