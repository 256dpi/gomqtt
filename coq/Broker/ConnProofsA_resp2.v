(* ConnProofsA_resp2.v — C20_responses (also C07's "acks only for invoked
   closures"): the relation between the model state and the scanner rs_step, in
   two independent parts: the closure/ack-queue bookkeeping (clo_R) and the
   processor's last received packet (last_R). *)
From Coq Require Import List NArith Bool Lia.
From GM Require Import Base.Lts Codec.Packet Session.Ids Session.Store Session.StoreProofs
  Broker.Conn Broker.ConnSpec Broker.ConnBase Broker.ConnProofsA_lib Broker.ConnProofsA_inv
  Broker.ConnProofsA_sc Broker.ConnProofsA_resp1.
Import ListNotations.
Open Scope N_scope.

(* ========================================================= closure bookkeeping *)

Definition is_mid (st : cstat) : bool :=
  match st with CDel _ | CDieLog _ | CDieClose _ => true | _ => false end.
Definition is_reg (st : cstat) : bool := match st with CReg => true | _ => false end.

(* closures of connection cn that were invoked but have not queued their packet *)
Definition midf (cn : N) (p : packet) (c : closure) : bool :=
  (c_conn c =? cn) && is_mid (c_stat c) && packet_eqb p (ack_packet (c_kind c)).
(* invoked closures of connection cn standing for p whose packet the scanner still expects *)
Definition invf (rclo : list (N * (N * packet))) (cn : N) (p : packet) (k : N) : bool :=
  match aget rclo k with Some (c, q) => (c =? cn) && packet_eqb p q | None => false end.

Definition tab_R (cl : list closure) (rclo : list (N * (N * packet))) (rdone : list N) : Prop :=
  forall k, match clo_find cl k with
            | None => aget rclo k = None
            | Some c => aget rclo k = Some (c_conn c, ack_packet (c_kind c)) /\
                        nmem k rdone = negb (is_reg (c_stat c))
            end.

Definition clo_R (cn : N) (cl : list closure) (q : list packet) (dy : bool) (l : lpc)
                 (rclo : list (N * (N * packet))) (rinv rdone : list N) : Prop :=
  tab_R cl rclo rdone /\
  (forall k, In k rinv -> aget rclo k <> None) /\
  (forall k, nmem k rdone = true -> aget rclo k <> None) /\
  (forall p, (flen (packet_eqb p) q + flen (midf cn p) cl <= flen (invf rclo cn p) rinv)%nat) /\
  (dy = false -> l <> LEnd ->
   forall p, (flen (invf rclo cn p) rinv <= flen (packet_eqb p) q + flen (midf cn p) cl)%nat).

Lemma nmem_in k l : nmem k l = true <-> In k l.
Proof. apply nmem_true_iff. Qed.

(* no closure of connection cn is known to the scanner: nothing is expected *)
Lemma invf_none_of_conn cl rclo rdone cn rinv p :
  tab_R cl rclo rdone -> (forall k, In k rinv -> aget rclo k <> None) ->
  (forall n, In n (map c_conn cl) -> n <> cn) ->
  flen (invf rclo cn p) rinv = 0%nat.
Proof.
  intros HB HH Hno. apply flen_all_false. intros k Hk. unfold invf.
  specialize (HB k). specialize (HH k Hk).
  destruct (clo_find cl k) as [c|] eqn:E; [|rewrite HB in HH; contradiction].
  destruct HB as [HB _]. rewrite HB. apply clo_find_in in E as [E _].
  assert (Hx : c_conn c <> cn) by (apply Hno, in_map, E).
  apply N.eqb_neq in Hx. rewrite Hx. reflexivity.
Qed.

Lemma midf_none_of_conn cl cn p : (forall n, In n (map c_conn cl) -> n <> cn) -> flen (midf cn p) cl = 0%nat.
Proof.
  intros Hno. apply flen_all_false. intros c Hc. unfold midf.
  assert (Hx : c_conn c <> cn) by (apply Hno, in_map, Hc). apply N.eqb_neq in Hx. rewrite Hx. reflexivity.
Qed.

(* a new connection *)
Lemma clo_R_new cn cl q dy l rclo rinv rdone :
  clo_R cn cl q dy l rclo rinv rdone -> (forall n, In n (map c_conn cl) -> n <= cn) ->
  clo_R (cn + 1) cl [] false LNone rclo rinv rdone.
Proof.
  intros (HB & HH & HI & HL & HU) Hle.
  assert (Hno : forall n, In n (map c_conn cl) -> n <> cn + 1) by (intros n Hn; specialize (Hle n Hn); lia).
  split; [exact HB|]. split; [exact HH|]. split; [exact HI|].
  split; intros; rewrite (invf_none_of_conn _ _ _ _ _ _ HB HH Hno), (midf_none_of_conn _ _ _ Hno); cbn; lia.
Qed.

(* the ack queue is emptied while the connection has no closures (Setup) *)
Lemma clo_R_reset cn cl q dy l rclo rinv rdone :
  clo_R cn cl q dy l rclo rinv rdone -> (forall n, In n (map c_conn cl) -> n <> cn) ->
  clo_R cn cl [] dy l rclo rinv rdone.
Proof.
  intros (HB & HH & HI & HL & HU) Hno.
  split; [exact HB|]. split; [exact HH|]. split; [exact HI|].
  split; intros; rewrite (invf_none_of_conn _ _ _ _ _ _ HB HH Hno), (midf_none_of_conn _ _ _ Hno); cbn; lia.
Qed.

(* dying and lp only matter for the upper bound *)
Lemma clo_R_weaken cn cl q dy l dy' l' rclo rinv rdone :
  clo_R cn cl q dy l rclo rinv rdone -> (dy' = false -> dy = false) -> (l' <> LEnd -> l <> LEnd) ->
  clo_R cn cl q dy' l' rclo rinv rdone.
Proof.
  intros (HB & HH & HI & HL & HU) H1 H2. repeat split; try assumption. intros Hd Hl. apply HU; auto.
Qed.

(* registering a fresh closure *)
Lemma clo_R_reg cn cl q dy l rclo rinv rdone k a :
  clo_R cn cl q dy l rclo rinv rdone -> clo_find cl k = None ->
  clo_R cn (cl ++ [Clo k cn a CReg]) q dy l ((k, (cn, ack_packet a)) :: rclo) rinv rdone.
Proof.
  intros (HB & HH & HI & HL & HU) Hk.
  assert (Hnone : aget rclo k = None) by (specialize (HB k); rewrite Hk in HB; exact HB).
  assert (Hinv : forall p, flen (invf ((k, (cn, ack_packet a)) :: rclo) cn p) rinv = flen (invf rclo cn p) rinv).
  { intros p. apply flen_ext. intros x Hx. unfold invf. rewrite aget_cons_ne; [reflexivity|].
    intros ->. apply (HH k Hx). exact Hnone. }
  assert (Hmid : forall p, flen (midf cn p) (cl ++ [Clo k cn a CReg]) = flen (midf cn p) cl).
  { intros p. rewrite flen_app, flen_cons, flen_nil. unfold midf at 2. cbn [c_stat is_mid].
    rewrite andb_false_r. cbn. lia. }
  split.
  { intros k'. rewrite clo_find_app. specialize (HB k'). destruct (clo_find cl k') as [c|] eqn:E.
    - assert (Hne : k' <> k) by (intros ->; rewrite Hk in E; discriminate E).
      rewrite aget_cons_ne; [exact HB|exact Hne].
    - cbn [c_k]. destruct (k =? k') eqn:Ek.
      + apply N.eqb_eq in Ek. subst k'. rewrite aget_cons_eq. cbn [c_conn c_kind c_stat is_reg negb]. split; [reflexivity|].
        destruct (nmem k rdone) eqn:Ed; [|reflexivity]. exfalso. apply (HI k Ed). exact Hnone.
      + apply N.eqb_neq in Ek. rewrite aget_cons_ne; [exact HB|congruence]. }
  split.
  { intros k' Hk'. destruct (N.eq_dec k' k) as [->|Hne]; [rewrite aget_cons_eq; discriminate|].
    rewrite aget_cons_ne; [apply HH, Hk'|exact Hne]. }
  split.
  { intros k' Hk'. destruct (N.eq_dec k' k) as [->|Hne]; [rewrite aget_cons_eq; discriminate|].
    rewrite aget_cons_ne; [apply HI, Hk'|exact Hne]. }
  split.
  - intros p. rewrite Hinv, Hmid. apply HL.
  - intros Hd Hl p. rewrite Hinv, Hmid. apply HU; assumption.
Qed.

(* ------------------------------------------------ a closure changes its status *)

Lemma tab_R_set cl rclo rdone k c st' :
  tab_R cl rclo rdone -> clo_find cl k = Some c -> is_reg st' = false ->
  tab_R (clo_set cl k st') rclo (if is_reg (c_stat c) then k :: rdone else rdone).
Proof.
  intros HB Hk Hst k'. destruct (N.eq_dec k' k) as [->|Hne].
  - rewrite (clo_find_set_eq _ _ _ _ Hk). specialize (HB k). rewrite Hk in HB. destruct HB as [HB1 HB2].
    cbn [with_stat c_conn c_kind c_stat]. split; [exact HB1|]. rewrite Hst. cbn [negb].
    destruct (is_reg (c_stat c)); [rewrite nmem_cons, N.eqb_refl; reflexivity|exact HB2].
  - rewrite (clo_find_set_ne _ _ _ _ Hne). specialize (HB k'). destruct (clo_find cl k') as [c'|]; [|exact HB].
    destruct HB as [HB1 HB2]. split; [exact HB1|]. destruct (is_reg (c_stat c)); [|exact HB2].
    rewrite nmem_cons. apply N.eqb_neq in Hne. rewrite Hne. exact HB2.
Qed.

Lemma mid_set cn p cl k c st' : clo_find cl k = Some c ->
  (flen (midf cn p) (clo_set cl k st') + b2n ((c_conn c =? cn) && is_mid (c_stat c) && packet_eqb p (ack_packet (c_kind c)))
   = flen (midf cn p) cl + b2n ((c_conn c =? cn) && is_mid st' && packet_eqb p (ack_packet (c_kind c))))%nat.
Proof. intros Hk. exact (flen_clo_set (midf cn p) _ _ _ st' Hk). Qed.

Lemma invf_of_tab cl rclo rdone cn p k c : tab_R cl rclo rdone -> clo_find cl k = Some c ->
  invf rclo cn p k = (c_conn c =? cn) && packet_eqb p (ack_packet (c_kind c)).
Proof. intros HB Hk. specialize (HB k). rewrite Hk in HB. destruct HB as [HB _]. unfold invf. rewrite HB. reflexivity. Qed.

Definition live (cn : N) (l : lpc) (c : closure) : bool :=
  (c_conn c =? cn) && negb (match l with LEnd => true | _ => false end).

Lemma live_conn cn l c : live cn l c = true -> (c_conn c =? cn) = true.
Proof. unfold live. intros H. apply andb_true_iff in H as [H _]. exact H. Qed.

Lemma live_open cn l c : l <> LEnd -> live cn l c = (c_conn c =? cn).
Proof. unfold live. intros H. destruct l; try contradiction; rewrite andb_true_r; reflexivity. Qed.

Lemma flen_snoc {A} (f : A -> bool) l x : flen f (l ++ [x]) = (flen f l + b2n (f x))%nat.
Proof. rewrite flen_app, flen_cons, flen_nil. lia. Qed.

(* EAckCall of a registered pubcomp closure: it starts running, nothing is queued yet *)
Lemma clo_R_invoke_del cn cl q dy l rclo rinv rdone k c g :
  clo_R cn cl q dy l rclo rinv rdone -> clo_find cl k = Some c -> c_stat c = CReg ->
  clo_R cn (clo_set cl k (CDel g)) q dy l rclo (k :: rinv) (k :: rdone).
Proof.
  intros (HB & HH & HI & HL & HU) Hk Hst.
  assert (Hreg : aget rclo k <> None).
  { specialize (HB k). rewrite Hk in HB. destruct HB as [HB _]. rewrite HB. discriminate. }
  pose proof (tab_R_set _ _ _ _ _ (CDel g) HB Hk eq_refl) as HB'. rewrite Hst in HB'. cbn [is_reg] in HB'.
  split; [exact HB'|]. split; [intros k' [<-|Hk']; [exact Hreg|apply HH, Hk']|].
  split; [intros k' Hk'; rewrite nmem_cons in Hk'; apply orb_true_iff in Hk' as [Hk'|Hk'];
          [apply N.eqb_eq in Hk'; subst k'; exact Hreg|apply HI, Hk']|].
  split; [intros p|intros Hd Hl p; specialize (HU Hd Hl p)]; specialize (HL p);
    pose proof (mid_set cn p _ _ _ (CDel g) Hk) as Hm; rewrite Hst in Hm; cbn [is_mid] in Hm;
    rewrite flen_cons, (invf_of_tab _ _ _ cn p _ _ HB Hk);
    rewrite andb_false_r in Hm; rewrite andb_true_r in Hm; cbn [andb b2n] in Hm; lia.
Qed.

(* EAckCall of a registered closure of another kind: it queues its packet at once if
   the ack queue of its connection can still be fed *)
Lemma clo_R_invoke_run cn cl q dy l rclo rinv rdone k c g :
  clo_R cn cl q dy l rclo rinv rdone -> clo_find cl k = Some c -> c_stat c = CReg ->
  clo_R cn (clo_set cl k (CRun g)) (if live cn l c then q ++ [ack_packet (c_kind c)] else q) dy l
        rclo (k :: rinv) (k :: rdone).
Proof.
  intros (HB & HH & HI & HL & HU) Hk Hst.
  assert (Hreg : aget rclo k <> None).
  { specialize (HB k). rewrite Hk in HB. destruct HB as [HB _]. rewrite HB. discriminate. }
  pose proof (tab_R_set _ _ _ _ _ (CRun g) HB Hk eq_refl) as HB'. rewrite Hst in HB'. cbn [is_reg] in HB'.
  split; [exact HB'|]. split; [intros k' [<-|Hk']; [exact Hreg|apply HH, Hk']|].
  split; [intros k' Hk'; rewrite nmem_cons in Hk'; apply orb_true_iff in Hk' as [Hk'|Hk'];
          [apply N.eqb_eq in Hk'; subst k'; exact Hreg|apply HI, Hk']|].
  split; [intros p|intros Hd Hl p; specialize (HU Hd Hl p); rewrite (live_open _ _ _ Hl)]; specialize (HL p);
    pose proof (mid_set cn p _ _ _ (CRun g) Hk) as Hm; rewrite Hst in Hm; cbn [is_mid] in Hm;
    rewrite flen_cons, (invf_of_tab _ _ _ cn p _ _ HB Hk);
    rewrite !andb_false_r in Hm; cbn [andb b2n] in Hm.
  - destruct (live cn l c) eqn:El; [rewrite flen_snoc, (live_conn _ _ _ El); cbn [andb]; lia|lia].
  - destruct (c_conn c =? cn); [rewrite flen_snoc; cbn [andb]; lia|cbn [andb b2n]; lia].
Qed.

(* a running pubcomp closure has deleted the stored PUBLISH and queues its packet *)
Lemma clo_R_deleted cn cl q dy l rclo rinv rdone k c g g' :
  clo_R cn cl q dy l rclo rinv rdone -> clo_find cl k = Some c -> c_stat c = CDel g ->
  clo_R cn (clo_set cl k (CRun g')) (if live cn l c then q ++ [ack_packet (c_kind c)] else q) dy l
        rclo rinv rdone.
Proof.
  intros (HB & HH & HI & HL & HU) Hk Hst.
  pose proof (tab_R_set _ _ _ _ _ (CRun g') HB Hk eq_refl) as HB'. rewrite Hst in HB'. cbn [is_reg] in HB'.
  split; [exact HB'|]. split; [exact HH|]. split; [exact HI|].
  split; [intros p|intros Hd Hl p; specialize (HU Hd Hl p); rewrite (live_open _ _ _ Hl)]; specialize (HL p);
    pose proof (mid_set cn p _ _ _ (CRun g') Hk) as Hm; rewrite Hst in Hm; cbn [is_mid] in Hm;
    rewrite !andb_false_r, !andb_true_r in Hm; cbn [andb b2n] in Hm.
  - destruct (live cn l c) eqn:El; [rewrite flen_snoc; rewrite (live_conn _ _ _ El) in Hm; cbn [andb] in Hm; lia|lia].
  - destruct (c_conn c =? cn); [rewrite flen_snoc; cbn [andb] in Hm; lia|cbn [andb b2n] in Hm; lia].
Qed.

(* status changes that neither queue nor invoke: CDel -> CDieLog -> CDieClose, CRun -> CDone *)
Lemma clo_R_same cn cl q dy l rclo rinv rdone k c st' :
  clo_R cn cl q dy l rclo rinv rdone -> clo_find cl k = Some c ->
  is_reg (c_stat c) = false -> is_reg st' = false -> is_mid st' = is_mid (c_stat c) ->
  clo_R cn (clo_set cl k st') q dy l rclo rinv rdone.
Proof.
  intros (HB & HH & HI & HL & HU) Hk Hr Hr' Hm'.
  pose proof (tab_R_set _ _ _ _ _ st' HB Hk Hr') as HB'. rewrite Hr in HB'.
  split; [exact HB'|]. split; [exact HH|]. split; [exact HI|].
  split; [intros p|intros Hd Hl p; specialize (HU Hd Hl p)]; specialize (HL p);
    pose proof (mid_set cn p _ _ _ st' Hk) as Hm; rewrite Hm' in Hm; lia.
Qed.

(* the closure whose delete failed has closed the connection and goes on: its
   packet will never be queued; if it belongs to this connection the connection is dying *)
Lemma clo_R_gaveup cn cl q dy l rclo rinv rdone k c g g' :
  clo_R cn cl q dy l rclo rinv rdone -> clo_find cl k = Some c -> c_stat c = CDieClose g ->
  clo_R cn (clo_set cl k (CRun g')) q (if c_conn c =? cn then true else dy) l rclo rinv rdone.
Proof.
  intros (HB & HH & HI & HL & HU) Hk Hst.
  pose proof (tab_R_set _ _ _ _ _ (CRun g') HB Hk eq_refl) as HB'. rewrite Hst in HB'. cbn [is_reg] in HB'.
  split; [exact HB'|]. split; [exact HH|]. split; [exact HI|].
  split; [intros p|intros Hd Hl p]; specialize (HL p);
    pose proof (mid_set cn p _ _ _ (CRun g') Hk) as Hm; rewrite Hst in Hm; cbn [is_mid] in Hm;
    rewrite !andb_false_r, !andb_true_r in Hm; cbn [andb b2n] in Hm.
  - lia.
  - destruct (c_conn c =? cn); [discriminate Hd|]. specialize (HU Hd Hl p). cbn [andb b2n] in Hm. lia.
Qed.

(* the acker takes a queued packet: the scanner finds an invoked closure for it *)
Lemma rs_pick_some t inv p k : rs_pick t inv p = Some k -> In k inv /\ invf (rs_clo t) (rs_conn t) p k = true.
Proof.
  induction inv as [|x inv IH]; cbn [rs_pick]; [discriminate|]. unfold invf.
  destruct (aget (rs_clo t) x) as [[c q]|] eqn:E.
  - destruct ((c =? rs_conn t) && packet_eqb p q) eqn:E2; intros H.
    + injection H as <-. split; [left; reflexivity|]. rewrite E. exact E2.
    + destruct (IH H) as [H1 H2]. split; [right; exact H1|exact H2].
  - intros H. destruct (IH H) as [H1 H2]. split; [right; exact H1|exact H2].
Qed.

Lemma rs_pick_ex t inv p : (0 < flen (invf (rs_clo t) (rs_conn t) p) inv)%nat -> exists k, rs_pick t inv p = Some k.
Proof.
  induction inv as [|x inv IH]; [cbn; lia|]. rewrite flen_cons. cbn [rs_pick]. unfold invf at 1.
  destruct (aget (rs_clo t) x) as [[c q]|] eqn:E.
  - destruct ((c =? rs_conn t) && packet_eqb p q) eqn:E2; [intros _; eauto|]. cbn [b2n]. intros H. apply IH. lia.
  - cbn [b2n]. intros H. apply IH. lia.
Qed.

Lemma invf_packet rclo cn p p' k : invf rclo cn p k = true -> invf rclo cn p' k = packet_eqb p' p.
Proof.
  unfold invf. destruct (aget rclo k) as [[c q]|]; [|discriminate]. intros H.
  apply andb_true_iff in H as [H1 H2]. rewrite H1. apply packet_eqb_eq in H2. subst q. reflexivity.
Qed.

Lemma clo_R_take cn cl q dy l rclo rinv rdone p q' k :
  clo_R cn cl q dy l rclo rinv rdone -> ackq_take q p = Some q' ->
  In k rinv -> invf rclo cn p k = true ->
  clo_R cn cl q' dy l rclo (nremove1 k rinv) rdone.
Proof.
  intros (HB & HH & HI & HL & HU) Hq Hk Hf.
  split; [exact HB|]. split; [intros k' Hk'; apply HH; eapply in_nremove1; exact Hk'|]. split; [exact HI|].
  split; [intros p'|intros Hd Hl p'; specialize (HU Hd Hl p')]; specialize (HL p');
    pose proof (ackq_take_flen _ _ _ p' Hq) as H1;
    pose proof (flen_nremove1 (invf rclo cn p') _ _ Hk) as H2;
    rewrite (invf_packet _ _ _ p' _ Hf) in H2; lia.
Qed.

(* =================================================== the last received packet *)

(* what the processor's control point says about the packet it received last *)
Definition pp_last_ok (p : ppc) (lastp : packet) (answered : bool) : Prop :=
  match p with
  | PSubW id subs => lastp = Subscribe id subs
  | PUnsubW id ts => lastp = Unsubscribe id ts
  | PPub1W id m => (exists d, lastp = Publish d m id) /\ (m_qos m =? 1) = true
  | PRelLookup id | PRelPub id _ | PCompTx id => lastp = Pubrel id
  | PPing => lastp = Pingreq /\ answered = false
  | PDieLog _ | PDieClose | PDone => True
  | _ => lastp = Pingreq -> answered = true
  end.

Definition last_R (gp : option N) (p : ppc) (last : list (N * (packet * bool))) (nl : list (N * N)) : Prop :=
  (last = [] \/
   exists g lastp a, gp = Some g /\ last = [(g, (lastp, a))] /\ pp_last_ok p lastp a /\
                     (forall id, p = PCompTx id -> aget nl g = Some id)) /\
  (p <> PFirst -> dead_pp p = false -> last <> []).

Definition rs_R (s : bc) (t : rs_st) : Prop :=
  rs_conn t = conn_no s /\
  clo_R (conn_no s) (clos s) (ackq s) (dying s) (lp s) (rs_clo t) (rs_inv t) (rs_done t) /\
  last_R (gproc s) (pp s) (rs_last t) (rs_nolookup t).

Definition rs_I (s : bc) : Prop := inv_store s /\ inv_clos s.

Lemma rs_I_init : rs_I bc_init.
Proof. split; [exact inv_store_init|exact inv_clos_init]. Qed.
Lemma rs_I_step s e s' : rs_I s -> step s e = Some s' -> rs_I s'.
Proof. intros [H1 H2] H. split; [eapply inv_store_step; eassumption|eapply inv_clos_step; eassumption]. Qed.

Ltac rs_proj := cbn [rs_conn rs_last rs_nolookup rs_clo rs_inv rs_done] in *.

(* the entry of the processor in rs_last, and of nobody else *)
Lemma last_R_other gp p last nl g : last_R gp p last nl -> is_role gp g = false -> aget last g = None.
Proof.
  intros [[->|(g0 & lastp & a & -> & -> & _)] _] Hr; [reflexivity|].
  rewrite aget_single. cbn [is_role] in Hr. rewrite Hr. reflexivity.
Qed.

(* moves of the control point that leave the packet received last answered as it was:
   not to PCompTx (which promises a PUBCOMP), not back to PFirst, not back to life *)
Definition pp_keeps (p p' : ppc) : Prop :=
  (forall lastp a, pp_last_ok p lastp a -> pp_last_ok p' lastp a) /\ (forall id, p' <> PCompTx id) /\ p' <> PFirst /\
  (dead_pp p' = false -> p <> PFirst /\ dead_pp p = false).

Lemma last_R_keep gp p p' last nl : pp_keeps p p' -> last_R gp p last nl -> last_R gp p' last nl.
Proof.
  intros (K1 & K2 & K3 & K4) [HL He]. split.
  - destruct HL as [->|(g & lastp & a & Hg & -> & Hok & _)]; [left; reflexivity|right].
    exists g, lastp, a. repeat split; auto. intros id Hx. destruct (K2 id Hx).
  - intros _ Hd. destruct (K4 Hd) as [H1 H2]. exact (He H1 H2).
Qed.

(* cleanup freezes the processor *)
Lemma pp_keeps_done p : pp_keeps p PDone.
Proof. repeat split; discriminate. Qed.

Lemma last_R_at g p lastp a nl : pp_last_ok p lastp a -> (forall id, p = PCompTx id -> aget nl g = Some id) ->
  last_R (Some g) p [(g, (lastp, a))] nl.
Proof. intros Hok Hnl. split; [right; exists g, lastp, a; auto|intros _ _; discriminate]. Qed.

Lemma last_R_entry g p last nl : last_R (Some g) p last nl -> p <> PFirst -> dead_pp p = false ->
  exists lastp a, last = [(g, (lastp, a))] /\ pp_last_ok p lastp a /\ (forall id, p = PCompTx id -> aget nl g = Some id).
Proof.
  intros [[->|(g0 & lastp & a & Hg & -> & Hok & Hnl)] He] Hp Hd; [exfalso; apply (He Hp Hd); reflexivity|].
  injection Hg as <-. eauto.
Qed.

Lemma last_R_aput g p last nl x : last_R (Some g) p last nl -> aput last g x = [(g, x)].
Proof. intros [[->|(g0 & lastp & a & Hg & -> & _)] _]; [reflexivity|]. injection Hg as <-. apply aput_single. Qed.

(* while the processor's goroutine is not known nothing has been received *)
Lemma last_R_learn g p last nl : last_R None p last nl -> last_R (Some g) p last nl.
Proof. intros [[->|(g0 & ? & ? & Hx & _)] He]; [split; [left; reflexivity|exact He]|discriminate Hx]. Qed.

(* --------------------------------------------------------------- processor *)

Definition plain_tx (p : packet) : bool :=
  match p with Pingresp | Pubcomp _ | Suback _ _ | Unsuback _ | Puback _ => false | _ => true end.

Lemma plain_tx_step {A} p (x : option A) (y : N -> option A) z :
  plain_tx p = true ->
  match p with
  | Pingresp => x
  | Pubcomp id => y id
  | Suback _ _ | Unsuback _ | Puback _ => None
  | _ => z
  end = z.
Proof. destruct p; cbn; intros H; try discriminate H; reflexivity. Qed.

Lemma rs_stay s s' g e rlast rnl rclo rinv rdone :
  clo_R (conn_no s) (clos s) (ackq s) (dying s) (lp s) rclo rinv rdone -> last_R (Some g) (pp s) rlast rnl ->
  clos s' = clos s -> ackq s' = ackq s -> (dying s' = false -> dying s = false) -> pp_keeps (pp s) (pp s') ->
  rs_step (RsSt (conn_no s) rlast rnl rclo rinv rdone) e = Some (RsSt (conn_no s) rlast rnl rclo rinv rdone) ->
  exists t', rs_step (RsSt (conn_no s) rlast rnl rclo rinv rdone) e = Some t' /\
     rs_conn t' = conn_no s /\ clo_R (conn_no s) (clos s') (ackq s') (dying s') (lp s) (rs_clo t') (rs_inv t') (rs_done t') /\
     last_R (Some g) (pp s') (rs_last t') (rs_nolookup t').
Proof.
  intros HC HL E1 E2 E3 K Hq. eexists. split; [exact Hq|]. rs_proj. split; [reflexivity|]. rewrite E1, E2.
  split; [eapply clo_R_weaken; [exact HC|exact E3|auto]|exact (last_R_keep _ _ _ _ _ K HL)].
Qed.

Lemma rs_plain_tx cn g x rlast rnl rclo rinv rdone p a ok :
  last_R (Some g) x rlast rnl -> plain_tx p = true -> x <> PFirst -> dead_pp x = false ->
  rs_step (RsSt cn rlast rnl rclo rinv rdone) (ETx g p a ok) = Some (RsSt cn rlast rnl rclo rinv rdone).
Proof.
  intros HL Hpl H1 H2. destruct (last_R_entry _ _ _ _ HL H1 H2) as (lastp & b & -> & _).
  cbn [rs_step]; rs_proj. rewrite aget_single, N.eqb_refl. apply plain_tx_step, Hpl.
Qed.

Lemma rs_reg_ok s s' g e rlast rnl rclo rinv rdone k a x p :
  clo_R (conn_no s) (clos s) (ackq s) (dying s) (lp s) rclo rinv rdone -> last_R (Some g) (pp s) rlast rnl ->
  pp s = x -> clo_find (clos s) k = None -> clos s' = clos s ++ [Clo k (conn_no s) a CReg] ->
  ackq s' = ackq s -> dying s' = dying s -> pp s' = p -> (forall id, p <> PCompTx id) -> x <> PFirst -> dead_pp x = false ->
  (forall lastp b, pp_last_ok x lastp b -> pp_last_ok p lastp b /\
     rs_step (RsSt (conn_no s) [(g, (lastp, b))] rnl rclo rinv rdone) e =
       rs_reg (RsSt (conn_no s) [(g, (lastp, b))] rnl rclo rinv rdone) k (ack_packet a)) ->
  exists t', rs_step (RsSt (conn_no s) rlast rnl rclo rinv rdone) e = Some t' /\
     rs_conn t' = conn_no s /\ clo_R (conn_no s) (clos s') (ackq s') (dying s') (lp s) (rs_clo t') (rs_inv t') (rs_done t') /\
     last_R (Some g) (pp s') (rs_last t') (rs_nolookup t').
Proof.
  intros HC HL <- Hk E1 E2 E3 E4 Hnc H1 H2 Hq.
  destruct (last_R_entry _ _ _ _ HL H1 H2) as (lastp & b & -> & Hl & _). destruct (Hq _ _ Hl) as [Hok ->].
  unfold rs_reg; rs_proj. pose proof HC as (HB & _). specialize (HB k). rewrite Hk in HB. rewrite HB.
  eexists. split; [reflexivity|]. rs_proj. split; [reflexivity|]. rewrite E1, E2, E3, E4.
  split; [apply clo_R_reg; assumption|]. apply last_R_at; [exact Hok|intros id Hx; destruct (Hnc id Hx)].
Qed.

Lemma rs_proc s t e s' g : rs_I s -> rs_R s t -> gproc s = Some g -> ev_g e = Some g ->
  step_proc s e = Some s' -> exists t', rs_step t e = Some t' /\ rs_R s' t'.
Proof.
  intros [(_ & Hin & Hppok & _) (_ & _ & Hpre)] (HA & HC & HL) Hgp Hg Hp. rewrite Hgp in HL.
  destruct (step_proc_frame _ _ _ Hp) as (Fc & Fg & _ & _ & _ & Fl).
  destruct t as [rc rlast rnl rclo rinv rdone]. rs_proj. subst rc.
  unfold rs_R; rs_proj. rewrite Fc, Fg, Fl, Hgp.
  inv_proc Hp; cbn [ev_g] in Hg; injection Hg as ->.
  all: try (pp_cases;
            (apply (rs_stay s _ _ _ _ _ _ _ _ HC HL); sfp;
             [reflexivity|reflexivity|first [exact (fun H => H)|discriminate]
             |try (destruct Hpp as [Hpp|Hpp]); rewrite Hpp; unfold pp_keeps; cbn [pp_last_ok dead_pp]; repeat split; try discriminate; auto
             |reflexivity])).
  - (* the first packet *)
    eexists. split; [reflexivity|]. rs_proj. split; [reflexivity|]. sfp. split; [exact HC|].
    rewrite (last_R_aput _ _ _ _ (p0, false) HL). apply last_R_at; destruct p0; cbn [pp_last_ok]; try exact I; discriminate.
  - (* CONNACK(5) *)
    apply (rs_stay s _ _ _ _ _ _ _ _ HC HL); sfp; try reflexivity; [exact (fun H => H)| |apply (rs_plain_tx _ _ _ _ _ _ _ _ _ _ _ HL); rewrite ?Hpp; [reflexivity|discriminate|reflexivity]].
    rewrite Hpp. destruct ok0; repeat split; try discriminate; auto.
  - (* Setup: the ack queue is emptied; the connection has no closures yet *)
    destruct (Hpre ltac:(rewrite Hpp; reflexivity)) as [Hno _].
    eexists. split; [reflexivity|]. rs_proj. split; [reflexivity|]. sfp.
    split; [eapply clo_R_reset; [exact HC|exact Hno]|]. apply (last_R_keep _ (pp s)); [|exact HL].
    rewrite Hpp. repeat split; try discriminate; auto.
  - (* CONNACK *)
    apply (rs_stay s _ _ _ _ _ _ _ _ HC HL); sfp; try reflexivity; [exact (fun H => H)| |apply (rs_plain_tx _ _ _ _ _ _ _ _ _ _ _ HL); rewrite ?Hpp; [reflexivity|discriminate|reflexivity]].
    rewrite Hpp. destruct ok0; repeat split; try discriminate; auto.
  - (* a re-sent packet is a PUBLISH or a PUBREL *)
    rewrite Hpp in Hppok. pose proof (all_ok_head _ _ _ Hppok) as Hh.
    apply (rs_stay s _ _ _ _ _ _ _ _ HC HL); sfp; try reflexivity; [exact (fun H => H)| |apply (rs_plain_tx _ _ _ _ _ _ _ _ _ _ _ HL); rewrite ?Hpp; [destruct p0; try discriminate Hh; reflexivity|discriminate|reflexivity]].
    rewrite Hpp. pp_cases; repeat split; try discriminate; auto.
  - (* a packet received in the main loop *)
    eexists. split; [reflexivity|]. rs_proj. split; [reflexivity|].
    assert (Hfr : clos (dispatch_st s p0) = clos s /\ ackq (dispatch_st s p0) = ackq s /\ dying (dispatch_st s p0) = dying s)
      by (destruct p0; repeat split; reflexivity).
    destruct Hfr as (E1 & E2 & E3). sfp. rewrite E1, E2, E3. split; [exact HC|].
    rewrite (last_R_aput _ _ _ _ (p0, false) HL).
    apply last_R_at; dispatch_cases Hd; cbn [pp_last_ok]; try exact I; try discriminate; try reflexivity.
    + split; [eexists; reflexivity|apply N.eqb_eq; assumption].
    + split; reflexivity.
  - (* Subscribe *)
    apply (rs_reg_ok s _ _ _ _ _ _ _ _ k0 (KSuback id0 (map snd subs0)) _ PSubR HC HL Hpp Hk); try reflexivity; try discriminate. cbn [pp_last_ok].
    intros lastp b ->. split; [discriminate|]. cbn [rs_step]. unfold rs_last_p. cbn [rs_last].
    rewrite aget_single, N.eqb_refl, subs_eqb_refl. reflexivity.
  - (* Unsubscribe *)
    apply (rs_reg_ok s _ _ _ _ _ _ _ _ k0 (KUnsuback id0) _ PUnsubR HC HL Hpp Hk); try reflexivity; try discriminate. cbn [pp_last_ok].
    intros lastp b ->. split; [discriminate|]. cbn [rs_step]. unfold rs_last_p. cbn [rs_last].
    rewrite aget_single, N.eqb_refl, (list_eqb_refl _ bytes_eqb_refl). reflexivity.
  - (* Publish, QoS 1 *)
    apply (rs_reg_ok s _ _ _ _ _ _ _ _ k0 (KPuback id0) _ PPubR HC HL Hpp Hk); try reflexivity; try discriminate. cbn [pp_last_ok].
    intros lastp b [[d ->] Hq]. split; [discriminate|]. cbn [rs_step]. unfold rs_last_p. cbn [rs_last].
    rewrite aget_single, N.eqb_refl, Hq, message_eqb_refl. reflexivity.
  - (* the lookup for a PUBREL: a stored packet is a PUBLISH; if nothing is stored the processor itself answers *)
    destruct (last_R_entry _ _ _ _ HL) as (lastp & b & El & Hok & _); [rewrite Hpp; discriminate|rewrite Hpp; reflexivity|].
    rewrite Hpp in Hok. cbn [pp_last_ok] in Hok. subst lastp.
    destruct (store_lookup (s_in (sess s)) id0) as [q|] eqn:El'.
    + apply lookup_in_all in El'. unfold all_ok in Hin. rewrite Forall_forall in Hin. specialize (Hin q El').
      destruct q; try discriminate Hin.
      apply (rs_stay s _ _ _ _ _ _ _ _ HC HL); sfp; try reflexivity; [exact (fun H => H)|]. rewrite Hpp. repeat split; try discriminate; auto.
    + eexists. split; [reflexivity|]. rs_proj. split; [reflexivity|]. sfp. split; [exact HC|]. subst rlast.
      apply last_R_at; [reflexivity|]. intros id Hx. injection Hx as <-. apply aget_aput_eq.
  - (* Publish for a PUBREL *)
    apply (rs_reg_ok s _ _ _ _ _ _ _ _ k0 (KPubcomp id0) _ PPubR HC HL Hpp Hk); try reflexivity; try discriminate. cbn [pp_last_ok].
    intros lastp b ->. split; [discriminate|]. cbn [rs_step]. unfold rs_last_p. cbn [rs_last].
    rewrite aget_single, N.eqb_refl. reflexivity.
  - (* PUBREC, PUBREL, PUBCOMP, PINGRESP *)
    destruct Htx as [(id & -> & Hpp)|[(id & -> & Hpp)|[(id & -> & Hpp)|[-> Hpp]]]].
    1,2: apply (rs_stay s _ _ _ _ _ _ _ _ HC HL); sfp; try reflexivity; [exact (fun H => H)| |apply (rs_plain_tx _ _ _ _ _ _ _ _ _ _ _ HL); rewrite ?Hpp; [reflexivity|discriminate|reflexivity]];
         rewrite Hpp; destruct ok0; repeat split; try discriminate; auto.
    + (* PUBCOMP sent by the processor itself: the PUBREL's id is unknown to the session *)
      destruct (last_R_entry _ _ _ _ HL) as (lastp & b & El & Hok & Hnl); [rewrite Hpp; discriminate|rewrite Hpp; reflexivity|].
      rewrite Hpp in Hok. cbn [pp_last_ok] in Hok. subst lastp rlast.
      cbn [rs_step]; rs_proj. rewrite aget_single, N.eqb_refl, (Hnl id Hpp), !N.eqb_refl. cbn [andb].
      eexists. split; [reflexivity|]. rs_proj. split; [reflexivity|]. sfp. split; [exact HC|].
      apply last_R_at; [destruct ok0; cbn [pp_last_ok]; [discriminate|exact I]|destruct ok0; discriminate].
    + (* PINGRESP answers the PINGREQ *)
      destruct (last_R_entry _ _ _ _ HL) as (lastp & b & El & Hok & Hnl); [rewrite Hpp; discriminate|rewrite Hpp; reflexivity|].
      rewrite Hpp in Hok. cbn [pp_last_ok] in Hok. destruct Hok as [-> ->]. subst rlast.
      cbn [rs_step]; rs_proj. rewrite aget_single, N.eqb_refl.
      eexists. split; [reflexivity|]. rs_proj. split; [reflexivity|]. sfp. split; [exact HC|]. rewrite aput_single.
      apply last_R_at; [destruct ok0; cbn [pp_last_ok]; [reflexivity|exact I]|destruct ok0; discriminate].
  - (* a token wait times out *)
    apply (rs_stay s _ _ _ _ _ _ _ _ HC HL); sfp; try reflexivity; [exact (fun H => H)|].
    destruct Hpp as [[Hpp _]|[Hpp _]]; destruct (pp s); try discriminate Hpp; repeat split; try discriminate; auto.
Qed.

(* ---------------------------------------------------------------- closures *)

Lemma enqueue_fields s c :
  conn_no (clo_enqueue s c) = conn_no s /\ clos (clo_enqueue s c) = clos s /\
  ackq (clo_enqueue s c) = (if live (conn_no s) (lp s) c then ackq s ++ [ack_packet (c_kind c)] else ackq s) /\
  dying (clo_enqueue s c) = dying s /\ lp (clo_enqueue s c) = lp s /\ gproc (clo_enqueue s c) = gproc s /\
  pp (clo_enqueue s c) = pp s.
Proof.
  unfold clo_enqueue. change (clo_live s c) with (live (conn_no s) (lp s) c).
  destruct (live (conn_no s) (lp s) c); sf; repeat split; reflexivity.
Qed.

Lemma rs_R_clos s s' rc rlast rnl rclo rinv rdone rinv' rdone' :
  conn_no s' = conn_no s -> lp s' = lp s -> gproc s' = gproc s -> pp s' = pp s ->
  clo_R (conn_no s) (clos s') (ackq s') (dying s') (lp s) rclo rinv' rdone' ->
  rs_R s (RsSt rc rlast rnl rclo rinv rdone) -> rs_R s' (RsSt rc rlast rnl rclo rinv' rdone').
Proof. intros E1 E2 E3 E4 HC (HA & _ & HL). unfold rs_R; rs_proj. rewrite E1, E2, E3, E4. auto. Qed.

Lemma rs_clo_step s t e s' :
  rs_I s -> rs_R s t -> step_clo s e = Some s' -> exists t', rs_step t e = Some t' /\ rs_R s' t'.
Proof.
  intros [_ (Hnd & _)] HR H. pose proof HR as (HA & HC & HL).
  destruct t as [rc rlast rnl rclo rinv rdone]. rs_proj. pose proof HC as (HB & _).
  (* on EAckCall k the scanner notes the first invocation *)
  assert (Hcall : forall k g c, clo_find (clos s) k = Some c ->
            rs_step (RsSt rc rlast rnl rclo rinv rdone) (EAckCall k g) =
              Some (if is_reg (c_stat c) then RsSt rc rlast rnl rclo (k :: rinv) (k :: rdone)
                    else RsSt rc rlast rnl rclo rinv rdone)).
  { intros k g c Hf. specialize (HB k). rewrite Hf in HB. destruct HB as [HB1 HB2].
    cbn [rs_step]; rs_proj. rewrite HB1, HB2. destruct (is_reg (c_stat c)); reflexivity. }
  destruct (step_clo_cases _ _ _ H) as
    [k g c id -> Hf Hs Hi Hk -> | k g c -> Hf Hs Hi Hk -> | k g c -> Hf Hs Hi -> | g id c -> Hf -> | g id c -> Hf ->
    | g c -> Hin Hs -> | g c -> Hin Hs -> | k g c -> Hf Hs -> | k g c -> Hf Hs Hi ->];
    try (apply clo_del_find_in in Hf as (Hin & Hs & Hk)); try pose proof (clo_find_nodup _ _ Hnd Hin) as Hf.
  - rewrite (Hcall _ _ _ Hf), Hs. cbn [is_reg]. eexists. split; [reflexivity|].
    eapply (rs_R_clos s); [reflexivity..| |exact HR]. sf. eapply clo_R_invoke_del; eassumption.
  - rewrite (Hcall _ _ _ Hf), Hs. cbn [is_reg]. eexists. split; [reflexivity|].
    destruct (enqueue_fields s c) as (F1 & F2 & F3 & F4 & F5 & F6 & F7).
    eapply (rs_R_clos s); [sf; assumption..| |exact HR]. sf. rewrite F3, F4. apply clo_R_invoke_run; assumption.
  - rewrite (Hcall _ _ _ Hf), Hs. cbn [is_reg]. eexists. split; [reflexivity|exact HR].
  - eexists. split; [reflexivity|]. destruct (enqueue_fields (sess_delete s Incoming id) c) as (F1 & F2 & F3 & F4 & F5 & F6 & F7).
    eapply (rs_R_clos s); [sf; assumption..| |exact HR]. sf. rewrite F3, F4. eapply clo_R_deleted; eassumption.
  - eexists. split; [reflexivity|]. eapply (rs_R_clos s); [reflexivity..| |exact HR].
    apply (clo_R_same _ _ _ _ _ _ _ _ _ _ (CDieLog g) HC Hf); rewrite ?Hs; reflexivity.
  - eexists. split; [reflexivity|]. eapply (rs_R_clos s); [reflexivity..| |exact HR].
    apply (clo_R_same _ _ _ _ _ _ _ _ _ _ (CDieClose g) HC Hf); rewrite ?Hs; reflexivity.
  - eexists. split; [reflexivity|]. pose proof (clo_R_gaveup _ _ _ _ _ _ _ _ _ _ _ g HC Hf Hs) as HC'.
    destruct (c_conn c =? conn_no s); (eapply (rs_R_clos s); [reflexivity..|exact HC'|exact HR]).
  - eexists. split; [reflexivity|]. eapply (rs_R_clos s); [reflexivity..| |exact HR].
    apply (clo_R_same _ _ _ _ _ _ _ _ _ _ CDone HC Hf); rewrite ?Hs; reflexivity.
  - eexists. split; [reflexivity|exact HR].
Qed.

(* ------------------------------------------------------------------- acker *)

Lemma rs_ack_step s t e s' g :
  rs_I s -> rs_R s t -> ev_g e = Some g -> is_role (gproc s) g = false ->
  step_ack s e = Some s' -> exists t', rs_step t e = Some t' /\ rs_R s' t'.
Proof.
  intros [(_ & _ & _ & _ & Hackok) _] HR Hg Hr H. pose proof HR as (HA & HC & HL).
  destruct t as [rc rlast rnl rclo rinv rdone]. rs_proj.
  unfold step_ack in H. destruct (ap s) eqn:Eap; destruct e; try discriminate H.
  - (* AIdle, ETx: the scanner finds an invoked closure for the packet *)
    cbn [ev_g] in Hg. injection Hg as ->.
    destruct async; [|discriminate H]. destruct (ackq_take (ackq s) p) as [q'|] eqn:Eq; [|discriminate H].
    assert (Hack : is_ack_packet p = true).
    { unfold all_ok in Hackok. rewrite Forall_forall in Hackok. apply Hackok. eapply ackq_take_in; exact Eq. }
    cbn [rs_step]; rs_proj. rewrite (last_R_other _ _ _ _ _ HL Hr), Hack.
    pose proof HC as (_ & _ & _ & HLo & _).
    assert (Hpos : (0 < flen (invf rclo rc p) rinv)%nat).
    { rewrite HA. specialize (HLo p). pose proof (ackq_take_pos _ _ _ Eq). lia. }
    destruct (rs_pick_ex (RsSt rc rlast rnl rclo rinv rdone) rinv p Hpos) as [k Hk].
    rewrite Hk. destruct (rs_pick_some _ _ _ _ Hk) as [Hin Hf]. rs_proj. rewrite HA in Hf.
    eexists. split; [reflexivity|].
    pose proof (clo_R_take _ _ _ _ _ _ _ _ _ _ _ HC Eq Hin Hf) as HC'.
    destruct ok; inv_some H; [unfold ack_token_back; destruct p; try discriminate Hack|];
      (eapply (rs_R_clos s); [reflexivity..|exact HC'|exact HR]).
  - (* ADieLog, EDie *)
    destruct k; try discriminate H. inv_some H. eexists. split; [reflexivity|].
    eapply (rs_R_clos s); [reflexivity..|exact HC|exact HR].
  - (* ADieClose, EConnClose *)
    inv_some H. eexists. split; [reflexivity|].
    eapply (rs_R_clos s); [reflexivity..| |exact HR]. eapply clo_R_weaken; [exact HC|discriminate|auto].
Qed.

(* --------------------------------------------------------------- all steps *)

Lemma quiescent_parts s : quiescent s = true ->
  dying s = false /\ pp s = PLoop /\ ackq s = [] /\ lp s = LNone /\ forallb clo_idle (clos s) = true.
Proof.
  unfold quiescent. intros H.
  destruct (conn_open s); [|discriminate H]. destruct (dying s); [discriminate H|].
  destruct (pp s); try discriminate H. destruct (dp s); try discriminate H. destruct (ap s); try discriminate H.
  destruct (ackq s); try discriminate H. destruct (lp s); try discriminate H.
  cbn [andb negb] in H. repeat split; try reflexivity. exact H.
Qed.

Lemma rs_step_lemma s t e s' :
  rs_I s -> rs_R s t -> step s e = Some s' -> exists t', rs_step t e = Some t' /\ rs_R s' t'.
Proof.
  intros Hi HR. refine (step_sweep (fun s t => rs_I s /\ rs_R s t) (fun t e s' => exists t', rs_step t e = Some t' /\ rs_R s' t')
                          _ _ _ _ _ _ _ _ _ _ s t e s' (conj Hi HR)); clear s t e s' Hi HR.
  - (* roles *) intros s t g d a c HP _ _. exact HP.
  - (* ENewConn *)
    intros s t [[_ (_ & Hle & _)] (HA & HC & HL)] _. eexists. split; [reflexivity|].
    unfold rs_R; rs_proj; sf. split; [rewrite HA; reflexivity|]. split; [eapply clo_R_new; eassumption|].
    split; [left; reflexivity|]. intros Hx. contradiction.
  - (* close-req *) intros s t [_ HR]. exists t. split; [reflexivity|exact HR].
  - (* EQuiescent: every invoked closure's packet has left, every PINGREQ is answered *)
    intros s t [_ HR] Hq. pose proof HR as (HA & HC & HL).
    destruct (quiescent_parts _ Hq) as (Q1 & Q2 & Q3 & Q4 & Q5).
    cbn [rs_step].
    assert (Hlpe : lp s <> LEnd) by (rewrite Q4; discriminate).
    pose proof HC as (HB & HH & _ & _ & HU). specialize (HU Q1 Hlpe).
    assert (Hmid : forall p, flen (midf (conn_no s) p) (clos s) = 0%nat).
    { intros p. apply flen_all_false. intros c Hc'. rewrite forallb_forall in Q5. specialize (Q5 c Hc').
      unfold midf. unfold clo_idle in Q5. destruct (c_stat c); try discriminate Q5; cbn [is_mid];
        rewrite andb_false_r; reflexivity. }
    assert (F1 : forallb (fun k => match aget (rs_clo t) k with Some (c, _) => negb (c =? rs_conn t) | None => true end)
                   (rs_inv t) = true).
    { apply forallb_forall. intros k Hk. destruct (aget (rs_clo t) k) as [[c q]|] eqn:E; [|reflexivity].
      specialize (HU q). rewrite Q3, Hmid in HU. cbn in HU.
      assert (Hz : flen (invf (rs_clo t) (conn_no s) q) (rs_inv t) = 0%nat) by lia.
      pose proof (flen_zero_all _ _ Hz k Hk) as Hf. unfold invf in Hf. rewrite E, packet_eqb_refl, andb_true_r in Hf.
      rewrite HA, Hf. reflexivity. }
    assert (F2 : forallb (fun e => match snd e with (Pingreq, false) => false | _ => true end) (rs_last t) = true).
    { destruct HL as [[->|(g0 & lastp & a & _ & -> & Hok & _)] _]; [reflexivity|].
      rewrite Q2 in Hok. cbn [pp_last_ok] in Hok. cbn [forallb snd]. rewrite andb_true_r.
      destruct lastp; try reflexivity. rewrite (Hok eq_refl). reflexivity. }
    rewrite F1, F2. exists t. split; [reflexivity|exact HR].
  - (* Close() from outside *)
    intros s t g [_ HR] _. exists t. split; [reflexivity|]. destruct t. pose proof HR as (_ & HC & _).
    eapply (rs_R_clos s); [reflexivity..| |exact HR]. eapply clo_R_weaken; [exact HC|discriminate|auto].
  - (* closure *) intros s t e s' [Hi HR]. apply rs_clo_step; assumption.
  - (* processor: before its first packet nothing has been received *)
    intros s s1 t e s' g [Hi (HA & HC & HL)] _ Hv Hg Hp. apply (rs_proc s1 t e s' g); try assumption.
    + destruct Hv as [[-> _]|(_ & _ & -> & _)]; exact Hi.
    + destruct Hv as [[-> _]|(Hn & _ & -> & _)]; (split; [exact HA|split; [exact HC|]]); [exact HL|].
      sf. rewrite Hn in HL. apply last_R_learn, HL.
    + destruct Hv as [[-> Hx]|(_ & _ & -> & _)]; [exact Hx|reflexivity].
  - (* dequeuer: sends PUBLISH packets, which the scanner lets pass from any goroutine but the processor *)
    intros s t e s' g [[(_ & _ & _ & Hdpok & _) _] HR] _ Hg _ R1 Hp. pose proof HR as (HA & HC & HL). exists t. split.
    + pose proof (step_deq_event _ _ _ Hp) as Hev. destruct e; try discriminate Hev; try reflexivity.
      cbn [ev_g] in Hg. injection Hg as ->. destruct (step_deq_tx _ _ _ _ _ _ Hdpok Hp) as [_ Hpub].
      cbn [rs_step]. rewrite (last_R_other _ _ _ _ _ HL R1). destruct p; try discriminate Hpub; reflexivity.
    + destruct t. destruct (step_deq_frame _ _ _ Hp) as (_ & E1 & E2 & E3 & E4 & E5 & E6 & _ & E7).
      eapply (rs_R_clos s); [assumption..| |exact HR]. rewrite E1, E6.
      eapply clo_R_weaken; [exact HC| |auto]. intros Hd. destruct (dying s); [rewrite E7 in Hd by reflexivity; discriminate Hd|reflexivity].
  - (* acker *) intros s t e s' g [Hi HR] _ Hg _ R1 _ Hp. eapply rs_ack_step; eassumption.
  - (* cleanup *)
    intros s t e s' [_ HR] _ Hp. pose proof HR as (HA & HC & HL). exists t. split.
    + apply step_cleanup_event in Hp. destruct e; try discriminate Hp; try reflexivity.
      destruct k; [discriminate Hp|reflexivity].
    + assert (Hopen : lp s <> LEnd) by (unfold step_cleanup in Hp; intros E; rewrite E in Hp; discriminate Hp).
      destruct (step_cleanup_frame _ _ _ Hp) as (E1 & _ & E2 & E3 & E4 & E5 & E6 & _).
      unfold rs_R. rewrite E1, E2, E3, E4, E5. split; [exact HA|]. split; [eapply clo_R_weaken; [exact HC|auto|auto]|].
      destruct E6 as [->| ->]; [exact HL|exact (last_R_keep _ _ _ _ _ (pp_keeps_done _) HL)].
Qed.

Theorem c20_responses_holds : forall es s, bc_run es = Some s -> c20_responses es = true.
Proof.
  unfold c20_responses.
  apply (scan_sound_inv rs_step rs_I rs_R rs_I_init rs_I_step rs_step_lemma).
  unfold rs_R; cbn. split; [reflexivity|]. split.
  - unfold clo_R, tab_R; cbn. repeat split; intros; try discriminate; try contradiction; auto.
  - split; [left; reflexivity|]. intros _ Hd. discriminate Hd.
Qed.
