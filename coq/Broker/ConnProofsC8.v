(* ConnProofsC8.v — C16, "window slots are not lost": under c16_window_const the dequeuer's
   token-wait timeout happens only when the window is full (c16_slots_not_lost2 of
   ConnProofsCDefs.v: the slot of a received acknowledgement is freed at its successful Delete).
   Lower bound, while the peer has not acknowledged an id not in flight and the dequeuer is
   alive:   W <= in flight + acknowledgements in hand + free slots + slot held by the dequeuer. *)
From Coq Require Import List NArith Bool Lia ZArith ZifyN ZifyNat ZifyBool.
From GM Require Import Base.Lts Codec.Packet Session.Ids Session.Store Session.StoreProofs
  Broker.Conn Broker.ConnSpec Broker.ConnBase Broker.ConnProofsCDefs Broker.ConnProofsA_lib Broker.ConnProofsC0 Broker.ConnProofsC1
  Broker.ConnProofsC2 Broker.ConnProofsC4 Broker.ConnProofsC7.
Import ListNotations.
Open Scope N_scope.

Lemma cokb_counted p : cokb p = true -> counted_id p = get_id p.
Proof. destruct p; cbn [cokb counted_id get_id]; try discriminate; [|reflexivity]. destruct (m_qos m =? 0); [discriminate|reflexivity]. Qed.

(* ---------------------------- the scanner agrees with the c16_bound scanner *)

(* a retransmitted PUBLISH carries a QoS>0 message *)
Definition dup_ok (e : event) : Prop :=
  match e with ETx _ (Publish true m _) _ true => (m_qos m =? 0) = false | _ => True end.

Lemma sl2_sync u t e t' u' :
  s2_fl u = wb_fl t -> s2_spur u = wb_spur t -> s2_w u = wb_w t ->
  wb_step t e = Some t' -> sl2_step u e = Some u' -> dup_ok e ->
  s2_fl u' = wb_fl t' /\ s2_spur u' = wb_spur t' /\ s2_w u' = wb_w t'.
Proof.
  intros Ef Es Ew Hw Hu Hd.
  destruct e; cbn [wb_step sl2_step] in Hw, Hu; try (injection Hw as <-; injection Hu as <-; repeat split; assumption).
  - (* ERx *)
    destruct p; try (injection Hw as <-; injection Hu as <-; repeat split; assumption);
      rewrite Ef in Hu; destruct (nmem id (wb_fl t)); injection Hw as <-; injection Hu as <-; cbn;
      repeat split; try assumption; rewrite ?Ef; reflexivity.
  - (* ETx *)
    destruct p; try (injection Hw as <-; injection Hu as <-; repeat split; assumption).
    + destruct ok; [|destruct dup; injection Hw as <-; injection Hu as <-; repeat split; assumption].
      destruct dup.
      * cbn [dup_ok] in Hd. rewrite Hd in Hw. rewrite Ef in Hu.
        match type of Hw with (if ?b then _ else _) = _ => destruct b end; [|discriminate Hw].
        injection Hw as <-; injection Hu as <-; cbn. repeat split; assumption.
      * rewrite Ef in Hu. destruct (m_qos m =? 0); cbn [orb] in Hu.
        -- injection Hw as <-; injection Hu as <-; cbn. repeat split; assumption.
        -- match type of Hw with (if ?b then _ else _) = _ => destruct b end; [|discriminate Hw].
           injection Hw as <-; injection Hu as <-; cbn. repeat split; assumption.
    + destruct ok; [|injection Hw as <-; injection Hu as <-; repeat split; assumption].
      rewrite Ef in Hu. match type of Hw with (if ?b then _ else _) = _ => destruct b end; [|discriminate Hw].
      injection Hw as <-; injection Hu as <-; cbn. repeat split; assumption.
  - (* ESetup *) destruct r; injection Hw as <-; injection Hu as <-; cbn; repeat split; try assumption. rewrite Es. reflexivity.
  - (* EDelete *) destruct d; [injection Hw as <-; injection Hu as <-; repeat split; assumption|].
    destruct ok; injection Hw as <-; injection Hu as <-; cbn; repeat split; assumption.
  - (* EDie *) destruct k; try (injection Hw as <-; injection Hu as <-; repeat split; assumption).
    match type of Hu with (if ?b then _ else _) = _ => destruct b end; [discriminate Hu|].
    injection Hw as <-; injection Hu as <-; repeat split; assumption.
Qed.

Lemma proc_dup_ok s e s' : INV s -> step_proc s e = Some s' -> dup_ok e.
Proof.
  intros HI H. destruct (step_proc_inv _ _ _ H); subst; try exact I.
  - destruct (resend_head _ _ _ HI Hpp) as (_ & _ & Hcp & _).
    destruct p; try exact I. cbn [set_dup dup_ok]. destruct ok; [|exact I]. cbn [cokb] in Hcp. destruct (m_qos m =? 0); [discriminate Hcp|reflexivity].
  - destruct (pp s), p; try contradiction; exact I.
  - destruct e; try discriminate He; exact I.
Qed.

Lemma deq_dup_ok s e s' : dp_shape (dp s) -> step_deq s e = Some s' -> dup_ok e.
Proof. intros Hsh H. destruct (step_deq_inv _ _ _ Hsh H); subst; exact I. Qed.

(* ------------------------------------ the waiting dequeuer; acks in hand *)

Definition next_idle (u : sl2_st) (e : event) : list N :=
  match e with
  | ENewConn => []
  | EDeqCall g => filter (fun x => negb (x =? g)) (s2_idle u)
  | ETx g (Publish false _ _) _ true => if nmem g (s2_idle u) then s2_idle u else g :: s2_idle u
  | _ => s2_idle u
  end.
Definition next_ack (u : sl2_st) (e : event) : list N :=
  match e with
  | ENewConn => []
  | ERx _ (Puback id) | ERx _ (Pubcomp id) => if nmem id (s2_fl u) then id :: s2_ack u else s2_ack u
  | EDelete _ Outgoing id true => nremove1 id (s2_ack u)
  | _ => s2_ack u
  end.

Lemma sl2_next u e u' : sl2_step u e = Some u' -> s2_idle u' = next_idle u e /\ s2_ack u' = next_ack u e.
Proof.
  intros H. destruct e; cbn [sl2_step next_idle next_ack] in *; try (injection H as <-; split; reflexivity).
  - destruct p; try (injection H as <-; split; reflexivity); destruct (nmem id (s2_fl u)); injection H as <-; split; reflexivity.
  - destruct p; try (injection H as <-; split; reflexivity); destruct ok; try (injection H as <-; split; reflexivity);
      destruct dup; injection H as <-; split; reflexivity.
  - destruct r; injection H as <-; split; reflexivity.
  - destruct d; [injection H as <-; split; reflexivity|]. destruct ok; injection H as <-; split; reflexivity.
  - destruct k; try (injection H as <-; split; reflexivity).
    match type of H with (if ?b then _ else _) = _ => destruct b end; [discriminate H|injection H as <-; split; reflexivity].
Qed.

Definition waiting (d : dpc) : Prop := d = DToken \/ d = DDieClose \/ d = DDone.

Record RUI (s : bc) (u : sl2_st) : Prop := MkRUI {
  U_idle : forall g, In g (s2_idle u) -> gdeq s = Some g /\ waiting (dp s);
  U_ack : pre_loop (pp s) = true -> s2_ack u = [] }.

Lemma next_idle_notfresh u g p a ok : not_fresh p -> next_idle u (ETx g p a ok) = s2_idle u.
Proof. destruct p; try reflexivity. destruct dup; [reflexivity|contradiction]. Qed.

Lemma next_ack_nil u e : s2_ack u = [] -> (forall g p, e = ERx g p -> s2_fl u = []) -> next_ack u e = [].
Proof.
  intros Ha Hf. destruct e; cbn [next_ack]; try exact Ha; try reflexivity.
  - rewrite (Hf _ _ eq_refl). destruct p; exact Ha.
  - destruct d; [exact Ha|]. destruct ok; [rewrite Ha; reflexivity|exact Ha].
Qed.

Lemma next_ack_dull u e : dull e = true -> next_ack u e = s2_ack u.
Proof. intros H. destruct e; cbn [dull] in H; try discriminate H; try reflexivity. destruct d; [reflexivity|discriminate H]. Qed.

Lemma sl2_dull u e : dull e = true -> sl2_step u e = Some u.
Proof. intros H. by_dull e H. Qed.

(* the processor is not the dequeuer: the waiting list stays; before the main loop no
   acknowledgement is in the processor's hands *)
Lemma RUI_proc s t u e s' u' : INV s -> RW s t -> s2_fl u = wb_fl t -> RUI s u ->
  step_proc s e = Some s' -> sl2_step u e = Some u' -> RUI s' u'.
Proof.
  intros HI [_ Hfl] Ef [U1 U2] H Hu. apply sl2_next in Hu as [Ei Ea].
  assert (Ei' : next_idle u e = s2_idle u).
  { destruct (step_proc_inv _ _ _ H); subst; try reflexivity.
    - apply next_idle_notfresh, set_dup_not_fresh.
    - eapply next_idle_notfresh, own_reply_not_fresh, Hp.
    - destruct e; try discriminate He; reflexivity. }
  constructor; rewrite ?Ei, ?Ei', ?Ea.
  - intros g Hg. destruct (U1 g Hg) as [G W]. destruct (step_proc_dp _ _ _ H) as [Eg [Ed|[Hp Ed]]]; rewrite Eg.
    + rewrite Ed. split; assumption.
    + destruct (I_pre _ HI) as [Hd _]; [rewrite Hp; reflexivity|]. rewrite Hd in W. destruct W as [W|[W|W]]; discriminate W.
  - intros Hp'. apply next_ack_nil; [apply U2, (step_proc_pre _ _ _ H Hp')|].
    intros g p ->. rewrite Ef. apply Hfl. destruct (step_proc_inv _ _ _ H); try discriminate He; [rewrite Hpp; reflexivity|].
    subst s'. cbn [pp set_pp] in Hp'. rewrite (rx_not_pre _ _ Hx) in Hp'. discriminate Hp'.
Qed.

Lemma RUI_deq s u e s' u' g : INV s -> RUI s u -> ev_g e = Some g -> gdeq s = Some g ->
  step_deq s e = Some s' -> sl2_step u e = Some u' -> RUI s' u'.
Proof.
  intros HI [U1 U2] Hg Hr H Hu. apply sl2_next in Hu as [Ei Ea].
  pose proof (deq_not_pre _ _ _ HI H) as Hnp. destruct (step_deq_proc_view _ _ _ H (I_shape _ HI)) as (Ep & _ & Eg).
  (* who waits is the dequeuer; it is listed only while it waits *)
  assert (K : (forall g', In g' (s2_idle u') -> g' = g \/ In g' (s2_idle u)) -> (In g (s2_idle u') -> waiting (dp s')) -> RUI s' u').
  { intros Hi Hw. constructor; [|rewrite Ep, Hnp; discriminate]. intros g' Hg'. rewrite Eg.
    assert (G : gdeq s = Some g') by (destruct (Hi g' Hg') as [->|Hin]; [exact Hr|apply (U1 g' Hin)]).
    split; [exact G|]. rewrite Hr in G. injection G as <-. apply Hw, Hg'. }
  (* a dequeuer that is not waiting is not listed *)
  assert (Kn : ~ waiting (dp s) -> s2_idle u' = s2_idle u -> RUI s' u').
  { intros Hn E. apply K; rewrite E; [auto|]. intros Hin. destruct (U1 g Hin) as [_ W]. contradiction. }
  destruct (step_deq_inv _ _ _ (I_shape _ HI) H); subst; cbn [ev_g] in Hg; injection Hg as ->; cbn [next_idle next_ack] in Ei;
    try (apply Kn; [rewrite Hdp; intros [C|[C|C]]; discriminate C|exact Ei]).
  - (* DeqCall: the dequeuer leaves the list *)
    apply K; rewrite ?Ei; [intros g' Hg'; apply filter_In in Hg' as [Hin _]; right; exact Hin|].
    intros Hin. apply filter_In in Hin as [_ Hne]. rewrite N.eqb_refl in Hne. discriminate Hne.
  - apply K; rewrite ?Ei; [auto|intros _; right; left; reflexivity].
  - (* Send: the dequeuer is listed as waiting again *)
    destruct ok; [|apply Kn; [rewrite Hdp; intros [C|[C|C]]; discriminate C|exact Ei]].
    apply K; rewrite ?Ei; [|intros _; left; reflexivity].
    intros g' Hg'. destruct (nmem g (s2_idle u)); [right; exact Hg'|destruct Hg' as [<-|Hg']; [left; reflexivity|right; exact Hg']].
  - apply K; rewrite ?Ei; [auto|intros _; right; right; reflexivity].
Qed.

Lemma RUI_frame s s' u u' :
  s2_idle u' = s2_idle u -> s2_ack u' = s2_ack u -> (forall g, gdeq s = Some g -> gdeq s' = Some g) ->
  (waiting (dp s) -> waiting (dp s')) -> (pre_loop (pp s') = true -> pre_loop (pp s) = true) ->
  RUI s u -> RUI s' u'.
Proof.
  intros Ei Ea Eg Ed Ep [U1 U2]. constructor; rewrite ?Ei, ?Ea.
  - intros g Hg. destruct (U1 g Hg) as [G W]. split; [apply Eg, G|apply Ed; exact W].
  - intros Hp. apply U2, Ep, Hp.
Qed.

(* ------------------------------------------------------- the lower bound *)

Definition alive (d : dpc) : bool :=
  match d with DToken | DWait | DNextId _ _ | DSave _ _ | DBackAck _ | DSend _ => true | _ => false end.

Record RLr (s : bc) (t : wb_st) (u : sl2_st) : Prop := MkRLr {
  L_alive : alive (dp s) = true ->
            cw s <= N.of_nat (length (wb_fl t) + length (s2_ack u)) + tdeq s + held (dp s);
  L_phase : match pp s with
            | PResend rest =>
                cw s <= N.of_nat (length (wb_fl t)) + tdeq s /\ NoDup (map get_id rest) /\
                (forall p i, In p rest -> get_id p = Some i -> ~ In i (wb_fl t))
            | PRestore => cw s <= N.of_nat (length (wb_fl t)) + tdeq s
            | PAckDel id => In id (s2_ack u)
            | _ => True
            end }.

Definition plain_l (p : ppc) : Prop := match p with PResend _ | PRestore | PAckDel _ => False | _ => True end.

Lemma RLr_frame s s' t u u' :
  s2_ack u' = s2_ack u -> cw s' = cw s -> tdeq s' = tdeq s ->
  (alive (dp s') = true -> alive (dp s) = true /\ held (dp s') = held (dp s)) ->
  (pp s' = pp s \/ plain_l (pp s')) -> RLr s t u -> RLr s' t u'.
Proof.
  intros Ea Ec Et Ed Ep [L1 L2]. constructor; rewrite ?Ea, ?Ec, ?Et.
  - intros Ha. destruct (Ed Ha) as [Ha0 Eh]. rewrite Eh. apply L1. exact Ha0.
  - destruct Ep as [Ep|Ep]; [rewrite Ep; exact L2|destruct (pp s'); try exact I; contradiction].
Qed.

(* the ids listed at a resume are distinct *)
Lemma NoDup_map_Some (l : list N) : NoDup l -> NoDup (map Some l).
Proof.
  induction l as [|x l IH]; intros H; cbn [map]; [constructor|]. inversion H as [|? ? Hn Hl]; subst.
  constructor; [|apply IH; exact Hl]. intros C. apply in_map_iff in C as (y & E & Hy). injection E as ->. contradiction.
Qed.

Lemma resume_ids_nodup st : NoDup (keys st) -> ids_ok st -> NoDup (map get_id (store_all st)).
Proof. intros Hn Hok. rewrite (get_id_all _ Hok). apply NoDup_map_Some. exact Hn. Qed.

Lemma loop_plain_l x : loop_pc x = true -> plain_l x.
Proof. destruct x; try discriminate; intros _; exact I. Qed.

Lemma RL_rx s t u g p t' u' X :
  RLr s t u -> s2_fl u = wb_fl t -> wb_step t (ERx g p) = Some t' -> s2_ack u' = next_ack u (ERx g p) ->
  rx_pc p X \/ plain_l X -> wb_spur t' = true \/ RLr (set_pp s X) t' u'.
Proof.
  intros [L1 L2] Ef Hw Ea HX.
  assert (Hplain : plain_l X -> wb_step t (ERx g p) = Some t -> next_ack u (ERx g p) = s2_ack u -> wb_spur t' = true \/ RLr (set_pp s X) t' u').
  { intros Hp E En. rewrite E in Hw. injection Hw as <-. right. constructor; bcs; rewrite Ea, En; [exact L1|destruct X; try exact I; contradiction]. }
  assert (Hack : forall id, (p = Puback id \/ p = Pubcomp id) -> X = PAckDel id \/ plain_l X -> wb_spur t' = true \/ RLr (set_pp s X) t' u').
  { intros id Hp HX'.
    rewrite (wb_ack _ _ _ _ Hp) in Hw. injection Hw as <-. destruct (nmem id (wb_fl t)) eqn:En; [|left; reflexivity].
    assert (Ea' : s2_ack u' = id :: s2_ack u) by (rewrite Ea; destruct Hp as [->| ->]; cbn [next_ack]; rewrite Ef, En; reflexivity).
    pose proof (nremove1_length _ _ En) as Hlen. right. constructor; bcs; cbn [wb_fl]; rewrite Ea'.
    - intros Ha. specialize (L1 Ha). cbn [length]. lia.
    - destruct HX' as [->|HX']; [left; reflexivity|destruct X; try exact I; contradiction]. }
  destruct p; cbn [rx_pc] in HX;
    try (apply Hplain; [destruct HX as [HX|HX]; [apply loop_plain_l, HX|exact HX]|reflexivity|reflexivity]).
  - apply (Hack id); [left; reflexivity|exact HX].
  - (* Pubrec *)
    cbn [wb_step] in Hw. destruct (nmem id (wb_fl t)); injection Hw as <-; [right|left; reflexivity].
    constructor; bcs; rewrite Ea; [exact L1|]. destruct HX as [->|HX]; [exact I|destruct X; try exact I; contradiction].
  - apply (Hack id); [right; reflexivity|exact HX].
Qed.

Lemma RL_proc s t v u e s' t' u' :
  INV s -> RW s t -> RFr s t -> RTr s v -> RUI s u -> s2_fl u = wb_fl t -> RLr s t u ->
  step_proc s e = Some s' -> wb_step t e = Some t' -> sl2_step u e = Some u' -> is_setup_ok e = false ->
  wb_spur t' = true \/ RLr s' t' u'.
Proof.
  intros HI [_ Hfl] HF HT [_ U2] Ef HL H Hw Hu Ese. apply sl2_next in Hu as [_ Ea].
  pose proof (I_pre _ HI) as Hpre.
  pose proof HF as [F1 F2 F3 F4]. pose proof HT as [_ T2 _]. pose proof HL as [L1 L2]. unfold out in *.
  (* the control point moves to one the relation does not speak of; nothing else changes *)
  assert (Kpp : forall s0 x, cw s0 = cw s -> tdeq s0 = tdeq s -> dp s0 = dp s -> plain_l x ->
            wb_step t e = Some t -> next_ack u e = s2_ack u -> wb_spur t' = true \/ RLr (set_pp s0 x) t' u').
  { intros s0 x E1 E2 E3 Hx E En. rewrite E in Hw. injection Hw as <-. right.
    (eapply RLr_frame; [rewrite Ea; exact En| | | | |exact HL]); bcs;
      [exact E1|exact E2|rewrite E3; intros Ha; split; [exact Ha|reflexivity]|right; exact Hx]. }
  destruct (step_proc_inv _ _ _ H); subst; rewrite ?Hpp in *; cbn [pre_loop early] in *; try discriminate Ese.
  - eapply RL_rx; [exact HL|exact Ef|exact Hw|exact Ea|right; destruct p; exact I].
  - destruct r; apply Kpp; first [reflexivity|exact I].
  - apply Kpp; first [reflexivity|exact I].
  - apply Kpp; try reflexivity. destruct ok; exact I.
  - (* All: the window is full of free slots, the listed ids are distinct *)
    cbn [wb_step] in Hw; injection Hw as <-; cbn [next_ack] in Ea; right.
    destruct T2 as [Ht _]. pose proof (Hfl eq_refl) as Hn. destruct (Hpre eq_refl) as [Hd _].
    pose proof (resume_ids_nodup _ (I_nodup _ HI) (I_ids _ HI)) as Hnd. unfold out in Hnd.
    unfold resend_next. destruct (store_all (s_out (sess s))); constructor; bcs; rewrite ?Hd, ?Hn; cbn [alive length]; try discriminate; try lia.
    repeat split; [lia|exact Hnd|intros ? ? _ _ []].
  - apply Kpp; first [reflexivity|exact I].
  - (* Resend: a free slot becomes an id in flight *)
    destruct (resend_head _ _ _ HI Hpp) as (Hd & (i & Gi & _) & Hcp & _).
    destruct ok; [|rewrite wb_tx_fail in Hw; injection Hw as <-; right; constructor; bcs; [rewrite Hd; discriminate|exact I]].
    destruct L2 as (La & Lb & Lc).
    pose proof (counted_set_dup p) as Hip. rewrite (cokb_counted _ Hcp), Gi in Hip.
    assert (Hni : ~ In i (wb_fl t)) by (apply (Lc p i (or_introl eq_refl) Gi)).
    assert (Et : t' = WbSt (wb_w t) (i :: wb_fl t) (wb_spur t)).
    { rewrite (wb_tx_counted _ _ _ _ _ _ Hip Hw). unfold fl_add.
      destruct (nmem i (wb_fl t)) eqn:En; [apply nmem_true_iff in En; contradiction|reflexivity]. }
    subst t'. cbn [next_ack] in Ea. right.
    cbn [map] in Lb. inversion Lb as [|? ? Lb1 Lb2]; subst.
    constructor; bcs; rewrite ?Hd; cbn [alive wb_fl length]; [discriminate|].
    unfold resend_next. destruct rest; cbn [wb_fl length]; [lia|].
    repeat split; [lia|exact Lb2|].
    intros q j Hq Gj [E|C]; [|exact (Lc q j (or_intror Hq) Gj C)].
    apply Lb1. replace (get_id p) with (get_id q) by congruence. apply in_map. exact Hq.
  - (* Restore: the dequeuer starts with what the resend left *)
    cbn [wb_step] in Hw; injection Hw as <-; cbn [next_ack] in Ea. destruct ok; [right|apply Kpp; first [reflexivity|exact I]].
    constructor; bcs; cbn [alive held deq_busy]; [intros _; lia|exact I].
  - (* a packet received in the main loop *)
    assert (HL0 : RLr s0 t u) by (destruct H0 as [->| ->]; [exact HL|];
      (eapply RLr_frame; [reflexivity| | | | |exact HL]); first [reflexivity|left; reflexivity|intros Ha; split; [exact Ha|reflexivity]]).
    eapply RL_rx; [exact HL0|exact Ef|exact Hw|exact Ea|left; exact Hx].
  - (* AckDel: the acknowledgement leaves the processor's hands, its slot is free *)
    cbn [wb_step] in Hw; injection Hw as <-; cbn [next_ack] in Ea. destruct ok; [right|apply Kpp; first [reflexivity|exact I]].
    pose proof (nremove1_length _ _ (proj2 (nmem_true_iff _ _) L2)) as Hlen.
    constructor; bcs; rewrite ?Ea; [|exact I].
    intros Ha. specialize (L1 Ha). lia.
  - cbn [wb_step] in Hw; injection Hw as <-; cbn [next_ack] in Ea. destruct ok; [right|apply Kpp; first [reflexivity|exact I]].
    (eapply RLr_frame; [exact Ea| | | | |exact HL]); bcs; first [reflexivity|right; exact I|intros Ha; split; [exact Ha|reflexivity]].
  - (* RelTx: the id is in flight already *)
    destruct ok; [|rewrite wb_tx_fail in Hw; apply Kpp; first [reflexivity|exact I]].
    destruct F4 as (_ & B).
    rewrite (wb_tx_counted t g (Pubrel id) true id t' eq_refl Hw), (fl_add_in _ _ B). cbn [next_ack] in Ea. right.
    constructor; bcs; cbn [wb_fl]; rewrite ?Ea; [exact L1|exact I].
  - apply Kpp; try reflexivity; [destruct ok; exact I|eapply wb_tx_plain, own_reply_not_counted, Hp].
  - apply Kpp; first [reflexivity|exact I].
  - rewrite (wb_dull _ _ He) in Hw. injection Hw as <-. right. destruct Hc.
    (eapply RLr_frame; [rewrite Ea; apply (next_ack_dull _ _ He)| | | | |exact HL]);
      first [assumption|right; apply loop_plain_l, Hx|intros Ha; rewrite sc_dp in *; split; [exact Ha|reflexivity]].
Qed.

Lemma RL_deq s t u e s' t' u' :
  INV s -> RFr s t -> RLr s t u ->
  step_deq s e = Some s' -> wb_step t e = Some t' -> sl2_step u e = Some u' -> RLr s' t' u'.
Proof.
  intros HI HF HL H Hw Hu. apply sl2_next in Hu as [_ Ea].
  pose proof HF as [F1 F2 F3 F4]. pose proof HL as [L1 L2]. pose proof (deq_not_pre _ _ _ HI H) as Hnp.
  (* the dequeuer's control point moves; the processor is in the main loop *)
  assert (Kdp : forall s0 x fl, pp s0 = pp s -> cw s0 = cw s -> next_ack u e = s2_ack u ->
            (forall a, alive x = true -> alive (dp s) = true /\
               (cw s <= N.of_nat (length (wb_fl t) + a) + tdeq s + held (dp s) -> cw s <= N.of_nat (length fl + a) + tdeq s0 + held x)) ->
            (forall id, In id (wb_fl t) -> In id fl) -> wb_fl t' = fl -> RLr (set_dp s0 x) t' u').
  { intros s0 x fl Ep Ec En Ha Hsub Efl. constructor; bcs; rewrite Ea, En, Efl, ?Ep, ?Ec.
    - intros Hx. destruct (Ha (length (s2_ack u)) Hx) as [Ha0 Hle]. apply Hle, L1, Ha0.
    - destruct (pp s); first [discriminate Hnp|exact I|exact L2]. }
  assert (Et : forall E : wb_step t e = Some t, wb_fl t' = wb_fl t) by (intros E; rewrite E in Hw; injection Hw as <-; reflexivity).
  destruct (step_deq_inv _ _ _ (I_shape _ HI) H); subst; rewrite Hdp in *; cbn [pend saved] in F3;
    try (apply (Kdp _ _ (wb_fl t)); [reflexivity|reflexivity|reflexivity| |auto|apply Et; reflexivity]; bcs; cbn [alive held deq_busy];
         first [intros ?; discriminate|intros ? _; split; [reflexivity|lia]]).
  - apply (Kdp _ _ (wb_fl t)); [reflexivity|reflexivity|reflexivity| |auto|apply Et; reflexivity].
    destruct r as [| |m ba]; cbn [deq_ret_pc alive]; try (intros ?; discriminate).
    destruct (m_qos m =? 0); [destruct ba|]; cbn [alive held deq_busy]; intros ? _; (split; [reflexivity|lia]).
  - destruct ok; (apply (Kdp _ _ (wb_fl t)); [reflexivity|reflexivity|reflexivity| |auto|apply Et; reflexivity]);
      [destruct ba|]; bcs; cbn [alive held deq_busy]; first [intros ?; discriminate|intros ? _; split; [reflexivity|lia]].
  - (* Send: the dequeuer's slot becomes an id in flight, or is free again *)
    destruct ok; [|apply (Kdp _ _ (wb_fl t)); [reflexivity|reflexivity|reflexivity|intros ?; discriminate|auto|rewrite wb_tx_fail in Hw; injection Hw as <-; reflexivity]].
    cbn [counted_id] in F3. destruct (m_qos m =? 0) eqn:Eq.
    + assert (E' : t' = t) by (eapply wb_tx_uncounted; [|exact Hw]; cbn [counted_id]; rewrite Eq; reflexivity).
      apply (Kdp _ _ (wb_fl t)); [reflexivity|reflexivity|reflexivity| |auto|rewrite E'; reflexivity].
      bcs. cbn [alive held deq_busy]. intros ? _. split; [reflexivity|lia].
    + assert (E' : t' = WbSt (wb_w t) (fl_add id (wb_fl t)) (wb_spur t))
        by (eapply wb_tx_counted; [|exact Hw]; cbn [counted_id]; rewrite Eq; reflexivity).
      destruct (F3 id eq_refl) as [Hnf _].
      assert (Efl : fl_add id (wb_fl t) = id :: wb_fl t).
      { unfold fl_add. destruct (nmem id (wb_fl t)) eqn:En; [apply nmem_true_iff in En; contradiction|reflexivity]. }
      apply (Kdp _ _ (id :: wb_fl t)); [reflexivity|reflexivity|reflexivity| |intros x Hx; right; exact Hx|rewrite E', Efl; reflexivity].
      cbn [alive held deq_busy length]. intros ? _. split; [reflexivity|lia].
Qed.

Lemma RLr_same s s' t u : same_pd s s' -> RLr s t u -> RLr s' t u.
Proof.
  intros Hs. apply RLr_frame; try reflexivity.
  - apply (sp_cw _ _ Hs).
  - apply (sp_tdeq _ _ Hs).
  - rewrite (sp_dp _ _ Hs). intros Ha. split; [exact Ha|reflexivity].
  - left. apply (sp_pp _ _ Hs).
Qed.

Lemma RLr_frozen s s' t u : frozen s s' -> RLr s t u -> RLr s' t u.
Proof.
  intros Hf. apply RLr_frame; try reflexivity.
  - apply (fz_cw _ _ Hf).
  - apply (fz_tdeq _ _ Hf).
  - rewrite (fz_dp _ _ Hf). destruct (dp s); intros Ha; discriminate Ha.
  - right. rewrite (fz_pp _ _ Hf). exact I.
Qed.

Lemma RLr_learned s s1 t u : learned s s1 -> RLr s t u -> RLr s1 t u.
Proof.
  intros Hl. destruct Hl as (p & d & a & c & -> & _).
  apply RLr_frame; try reflexivity; bcs; [intros Ha; split; [exact Ha|reflexivity]|left; reflexivity].
Qed.

(* Setup starts afresh *)
Lemma RL_setup s t c resumed fresh w p b u' :
  INV s -> pp s = PSetup c -> RLr (setup_st s c resumed fresh w p b) t u'.
Proof.
  intros HI Hp. pose proof (setup_dp_off _ _ HI Hp) as Hd.
  unfold setup_st. destruct fresh; constructor; bcs; rewrite ?Hd; cbn [alive]; first [discriminate|exact I].
Qed.

(* ---------------------------------------------------------------- assembly *)

(* the scanner's only demand: a token timeout of a waiting goroutine needs a full window *)
Lemma sl2_some u e :
  (forall g, e = EDie g KClient ->
     nmem g (s2_idle u) && negb (s2_spur u) && (N.of_nat (length (s2_fl u) + length (s2_ack u)) <? s2_w u) = false) ->
  exists u', sl2_step u e = Some u'.
Proof.
  intros Hk. destruct (sl2_step u e) as [u'|] eqn:E; [exists u'; reflexivity|exfalso].
  destruct e; cbn [sl2_step] in E; try discriminate E.
  - destruct p; try discriminate E; destruct (nmem id (s2_fl u)); discriminate E.
  - destruct p; try discriminate E; destruct ok; try discriminate E; destruct dup; discriminate E.
  - destruct r; discriminate E.
  - destruct d; [discriminate E|]. destruct ok; discriminate E.
  - destruct k; try discriminate E. rewrite (Hk _ eq_refl) in E. discriminate E.
Qed.

Definition R_sl (s : bc) (u : sl2_st) (x : wb_st * pk_st) : Prop :=
  R_cw s (fst x) x /\
  (s2_fl u = wb_fl (fst x) /\ s2_spur u = wb_spur (fst x) /\ s2_w u = wb_w (fst x)) /\
  RUI s u /\ (wb_spur (fst x) = true \/ RLr s (fst x) u).

Lemma sl_proc s u x e s' x' g : INV s -> R_sl s u x -> ev_g e = Some g -> gproc s = Some g ->
  step_proc s e = Some s' -> pkw_step x e = Some x' -> exists u', sl2_step u e = Some u' /\ R_sl s' u' x'.
Proof.
  intros HI (HCW & (Ef & Es & Ew) & HU & HL) Hg Hr H Hh.
  destruct (cw_proc s (fst x) x e s' x' HI HCW H Hh) as (t' & Hw & HCW').
  pose proof HCW as (_ & HW & _ & HRC). pose proof HCW' as (Ex' & _).
  (* the processor is not the dequeuer, hence not listed as waiting *)
  assert (Hen : exists u', sl2_step u e = Some u').
  { apply sl2_some. intros g0 ->. cbn [ev_g] in Hg. injection Hg as ->.
    destruct (nmem g (s2_idle u)) eqn:Ei; [|reflexivity]. apply nmem_true_iff in Ei. destruct HU as [U1 _]. destruct (U1 g Ei) as [Gd _].
    destruct (I_roles _ HI _ Hr Gd). }
  destruct Hen as (u' & Hu). exists u'. split; [exact Hu|]. unfold R_sl. rewrite Ex'.
  destruct (sl2_sync u (fst x) e t' u' Ef Es Ew Hw Hu (proc_dup_ok _ _ _ HI H)) as (Ef' & Es' & Ew').
  split; [exact HCW'|]. split; [repeat split; assumption|]. split; [eapply RUI_proc; eassumption|].
  destruct (is_setup_ok e) eqn:Ese.
  - destruct (step_proc_setup _ _ _ H Ese) as (g0 & c & r & fresh & w & p & b & Hpp & _ & _ & ->).
    right. apply RL_setup; assumption.
  - destruct (wb_spur (fst x)) eqn:Esp; [left; eapply wb_spur_mono; eassumption|].
    destruct HL as [C|HL]; [discriminate C|]. destruct HRC as [C|(HK & HF & HT)]; [congruence|]. eapply RL_proc; eassumption.
Qed.

Lemma sl_deq s u x e s' x' g : INV s -> R_sl s u x -> ev_g e = Some g -> gdeq s = Some g ->
  step_deq s e = Some s' -> pkw_step x e = Some x' -> exists u', sl2_step u e = Some u' /\ R_sl s' u' x'.
Proof.
  intros HI (HCW & (Ef & Es & Ew) & HU & HL) Hg Hr H Hh.
  destruct (cw_deq s (fst x) x e s' x' HI HCW H Hh) as (t' & Hw & HCW').
  pose proof HCW as (_ & HW & _ & HRC). pose proof HCW' as (Ex' & _).
  (* the dequeuer times out at its token wait only without a free slot: the window is full *)
  assert (Hen : exists u', sl2_step u e = Some u').
  { apply sl2_some. intros g0 ->. destruct (nmem g0 (s2_idle u)) eqn:Ei; [|reflexivity]. apply nmem_true_iff in Ei.
    destruct HU as [U1 _]. destruct (U1 g0 Ei) as [_ W].
    destruct (s2_spur u) eqn:Esp; [reflexivity|]. rewrite Es in Esp. destruct HL as [C|[L1 _]]; [congruence|].
    destruct (step_deq_inv _ _ _ (I_shape _ HI) H); try discriminate He; rewrite Hdp in *.
    - specialize (L1 eq_refl). cbn [held deq_busy] in L1. cbn [andb negb]. apply N.ltb_ge. rewrite Ew, (proj1 HW), Ef. lia.
    - destruct W as [W|[W|W]]; discriminate W. }
  destruct Hen as (u' & Hu). exists u'. split; [exact Hu|]. unfold R_sl. rewrite Ex'.
  destruct (sl2_sync u (fst x) e t' u' Ef Es Ew Hw Hu (deq_dup_ok _ _ _ (I_shape _ HI) H)) as (Ef' & Es' & Ew').
  split; [exact HCW'|]. split; [repeat split; assumption|]. split; [eapply RUI_deq; eassumption|].
  destruct (wb_spur (fst x)) eqn:Esp; [left; eapply wb_spur_mono; [exact Hw|exact Esp|eapply step_deq_not_setup, H]|].
  destruct HL as [C|HL]; [discriminate C|]. destruct HRC as [C|(HK & HF & HT)]; [congruence|]. right. eapply RL_deq; eassumption.
Qed.

Lemma sl_step_ok s u x e s' x' : INV s -> R_sl s u x -> step s e = Some s' -> pkw_step x e = Some x' ->
  exists u', sl2_step u e = Some u' /\ R_sl s' u' x'.
Proof.
  apply (sweep_pd sl2_step pkw_step INV R_sl (fun _ H => H) INV_learned).
  - intros s0 s1 u0 x0 Hs (HCW & Hy & HU & HL). split; [eapply R_cw_same; eassumption|split; [exact Hy|split]].
    + apply (RUI_frame s0 s1 u0 u0); try reflexivity; [rewrite (sp_gdeq _ _ Hs); auto|rewrite (sp_dp _ _ Hs); auto|rewrite (sp_pp _ _ Hs); auto|exact HU].
    + destruct HL as [Hsp|HL]; [left; exact Hsp|right; eapply RLr_same; eassumption].
  - intros s0 s1 u0 x0 HI Hl (HCW & Hy & HU & HL). split; [eapply R_cw_learned; eassumption|split; [exact Hy|split]].
    + pose proof Hl as (p & d & a & c & -> & _ & Kd & _). apply (RUI_frame s0 _ u0 u0); try reflexivity; auto.
    + destruct HL as [Hsp|HL]; [left; exact Hsp|right; eapply RLr_learned; eassumption].
  - intros s0 s1 u0 x0 _ Hf (HCW & Hy & HU & HL). split; [eapply R_cw_frozen; eassumption|split; [exact Hy|split]].
    + apply (RUI_frame s0 s1 u0 u0); try reflexivity; [rewrite (fz_gdeq _ _ Hf); auto| |rewrite (fz_pp _ _ Hf); discriminate|exact HU].
      rewrite (fz_dp _ _ Hf). intros [W|[W|W]]; rewrite W; right; right; reflexivity.
    + destruct HL as [Hsp|HL]; [left; exact Hsp|right; eapply RLr_frozen; eassumption].
  - intros s0 u0 x0 e0 _ _ _ _. apply sl2_dull.
  - apply pkw_dull.
  - intros s0 u0 x0 g p ok _ _ _ Hk. destruct p; try discriminate Hk; destruct ok; reflexivity.
  - apply pkw_ack.
  - (* a new connection *)
    intros s0 u0 x0 x1 HI (HCW & (Ef & Es & Ew) & HU & HL) E.
    destruct (cw_new s0 (fst x0) x0 x1 HCW E) as (t' & Hw & HCW').
    cbn [wb_step] in Hw. injection Hw as <-. pose proof HCW' as (Ex' & _).
    eexists. split; [reflexivity|]. unfold R_sl. rewrite Ex'. cbn [s2_fl s2_spur s2_w s2_idle s2_ack wb_fl wb_spur wb_w].
    split; [exact HCW'|]. split; [repeat split; exact Es|]. split; [constructor; cbn [s2_idle s2_ack]; [intros ? []|reflexivity]|].
    right. constructor; bcs; cbn [alive]; [discriminate|exact I].
  - intros s0 u0 x0 e0 s1 x1 g. apply (sl_proc s0 u0 x0 e0 s1 x1 g).
  - intros s0 u0 x0 e0 s1 x1 g HI HR Hg Hr _. apply (sl_deq s0 u0 x0 e0 s1 x1 g); assumption.
Qed.

Lemma R_sl_init : R_sl bc_init (Sl2St 0 [] [] false []) (WbSt 0 [] false, PkSt 0 []).
Proof.
  split; [exact R_cw_init|]. split; [repeat split|]. split; [constructor; cbn; [intros ? []|reflexivity]|].
  right. constructor; cbn; [discriminate|exact I].
Qed.

(* window slots are not lost: under c16_window_const the waiting dequeuer gives up only when
   the window is full *)
Theorem c16_slots_not_lost_holds :
  forall es s, bc_run es = Some s -> c16_window_const es = true -> c16_slots_not_lost2 es = true.
Proof.
  intros es s Hrun Hh.
  destruct (run_rel_inv2 sl2_step pkw_step INV R_sl INV_step sl_step_ok es _ _ s INV_init R_sl_init Hrun Hh) as (u & _ & E & _).
  unfold c16_slots_not_lost2. apply scan_run. exists u. rewrite <- srun_run. exact E.
Qed.
