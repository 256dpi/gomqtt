(* BackendProofsSteps.v — well-formedness is preserved by every step; the clauses
   qos_ok, resub_ok, unsub_ok, retained_ok, live_copy_ok hold for every step. *)
From Coq Require Import List NArith Bool Lia.
From Coq.Strings Require Import Byte.
From GM Require Import Codec.Packet Topic.MatchSpec Broker.Backend Broker.BackendSpec
  Broker.BackendProofs Broker.BackendProofsPublish Broker.BackendEffect.
Import ListNotations.
Open Scope N_scope.

(* ------------------------------------------------------------------ put_session *)
Lemma get_put st k s2 k' :
  get_session (put_session st k s2) k' = if skey_eqb k' k then Some s2 else get_session st k'.
Proof.
  destruct k as [c|i], k' as [c'|i']; cbn [put_session get_session skey_eqb st_temps st_stored]; try reflexivity.
  - apply (alookup_aset N.eqb N.eqb_eq).
  - apply (alookup_aset bytes_eqb bytes_eqb_eq).
Qed.

Lemma wf_put st k s2 : wf st -> wf (put_session st k s2).
Proof.
  intros (Wt & Ws & Wr). destruct k as [c|i]; unfold wf; cbn [put_session st_temps st_stored st_retained];
    repeat split; auto.
  - apply (nodup_aset N.eqb N.eqb_eq); exact Wt.
  - apply (nodup_aset bytes_eqb bytes_eqb_eq); exact Ws.
Qed.

Lemma retained_put st k s2 : st_retained (put_session st k s2) = st_retained st.
Proof. destruct k; reflexivity. Qed.
Lemma cap_put st k s2 : st_cap (put_session st k s2) = st_cap st.
Proof. destruct k; reflexivity. Qed.

Lemma others_unchanged_put st k s s2 :
  wf st -> get_session st k = Some s -> others_unchanged st (put_session st k s2) (Some k) = true.
Proof.
  intros W G. unfold others_unchanged. apply andb_true_iff; split; apply forallb_forall; intros [k' x] Hin; cbn [fst snd].
  - rewrite get_put, (skey_eqb_sym k' k). destruct (skey_eqb k k'); [reflexivity|].
    rewrite (sessions_get st k' x W Hin). cbn [orb]. apply session_eqb_refl.
  - pose proof (sessions_get _ k' x (wf_put st k s2 W) Hin) as G'. rewrite get_put in G'.
    destruct (skey_eqb k' k) eqn:E.
    + apply skey_eqb_eq in E; subst k'. rewrite G; reflexivity.
    + rewrite G'; reflexivity.
Qed.

Lemma others_unchanged_refl st : wf st -> others_unchanged st st None = true.
Proof.
  intros W. unfold others_unchanged. apply andb_true_iff; split; apply forallb_forall; intros [k' x] Hin; cbn [fst snd].
  - rewrite (sessions_get st k' x W Hin). apply session_eqb_refl.
  - rewrite (sessions_get st k' x W Hin); reflexivity.
Qed.

Lemma session_of_get st c k s : session_of st c = Some (k, s) -> get_session st k = Some s.
Proof.
  unfold session_of. destruct (alookup N.eqb c (st_sess st)) as [k0|]; [|discriminate].
  destruct (get_session st k0) as [s0|] eqn:G; [|discriminate]. intros H; injection H as <- <-. exact G.
Qed.

Lemma put_keeps_act st c k s0 o r s2 k' :
  session_of st c = Some (k, s0) -> put st c s0 o r s2 ->
  option_map s_act (get_session (put_session st k s2) k') = option_map s_act (get_session st k').
Proof.
  intros S Pu. rewrite get_put. destruct (skey_eqb k' k) eqn:E; [|reflexivity].
  apply skey_eqb_eq in E; subst k'. rewrite (session_of_get _ _ _ _ S). cbn. rewrite (put_act _ _ _ _ _ _ Pu). reflexivity.
Qed.

Lemma publish_keeps_act st c m got k :
  pub_stuck st c m = false ->
  option_map s_act (get_session (snd (publish st c m got)) k) = option_map s_act (get_session st k).
Proof.
  intros Hnb. rewrite (get_session_published st c m got k Hnb).
  destruct (get_session st k) as [s|]; [|reflexivity]. cbn. rewrite deliver_act. reflexivity.
Qed.

Lemma session_of_key st c k0 s0 k :
  session_of st c = Some (k0, s0) -> option_eqb skey_eqb (alookup N.eqb c (st_sess st)) (Some k) = skey_eqb k0 k.
Proof.
  unfold session_of. destruct (alookup N.eqb c (st_sess st)) as [k1|]; [|discriminate].
  destruct (get_session st k1); [|discriminate]. intros H; injection H as -> _. reflexivity.
Qed.

(* ------------------------------------------------------------------ well-formedness along steps *)
Lemma wf_init cap : wf (init cap).
Proof. unfold wf, init; cbn; repeat split; constructor. Qed.

Lemma wf_setup_finish st c id clean : wf st -> wf (snd (setup_finish st c id clean)).
Proof.
  intros (Wt & Ws & Wr). unfold setup_finish. destruct clean; [|destruct (alookup bytes_eqb id (st_stored st))];
    cbn [snd]; unfold wf; cbn [st_temps st_stored st_retained]; repeat split; auto.
  - apply (nodup_aset N.eqb N.eqb_eq); exact Wt.
  - apply (nodup_aremove bytes_eqb bytes_eqb_eq); exact Ws.
  - apply (nodup_aset bytes_eqb bytes_eqb_eq); exact Ws.
  - apply (nodup_aset bytes_eqb bytes_eqb_eq); exact Ws.
Qed.

Lemma wf_same_maps st st' :
  st_temps st' = st_temps st -> st_stored st' = st_stored st -> st_retained st' = st_retained st -> wf st -> wf st'.
Proof. unfold wf. intros -> -> ->. auto. Qed.

Lemma wf_retain_update m ret : NoDup (map fst ret) -> NoDup (map fst (retain_update m ret)).
Proof.
  intros W. unfold retain_update. destruct (m_retain m); [|exact W].
  destruct (is_nil (m_payload m)); [apply (nodup_aremove bytes_eqb bytes_eqb_eq)|apply (nodup_aset bytes_eqb bytes_eqb_eq)]; exact W.
Qed.

Lemma wf_effect st o r st' : effect st o r st' -> wf st -> wf st'.
Proof.
  intros E W.
  destruct E as [o r _|o r st' B|c clean _ _|c id clean _ _ _ _|p _ _|c k s0 o r s2 _ _|c m got Hnb|c id _ _ _].
  - exact W.
  - revert W. apply wf_same_maps; destruct B; reflexivity.
  - destruct W as (Wt & Ws & Wr). repeat split; [apply (nodup_aset N.eqb N.eqb_eq)| |]; assumption.
  - apply wf_setup_finish. exact W.
  - apply wf_setup_finish. exact W.
  - apply wf_put. exact W.
  - rewrite publish_unfold, Hnb. destruct W as (Wt & Ws & Wr).
    repeat split; cbn [snd st_temps st_stored st_retained]; rewrite ?map_map; [exact Wt|exact Ws|apply wf_retain_update, Wr].
  - destruct W as (Wt & Ws & Wr). repeat split; cbn [terminated st_temps st_stored st_retained]; [apply (nodup_aremove N.eqb N.eqb_eq), Wt| |exact Wr].
    destruct (alookup N.eqb c (st_sess st)) as [[x|i]|]; try exact Ws.
    destruct (alookup bytes_eqb i (st_stored st)) as [s0|]; [|exact Ws].
    destruct (option_eqb N.eqb (s_act s0) (Some c)); [apply (nodup_aset bytes_eqb bytes_eqb_eq)|]; exact Ws.
Qed.

Lemma wf_step st o : wf st -> wf (snd (step st o)).
Proof. apply wf_effect with (1 := step_effect st o). Qed.

Lemma wf_run ops : forall st, wf st -> wf (run_state st ops).
Proof. apply run_state_inv, wf_step. Qed.

(* ------------------------------------------------------------------ Dequeue: C06 qos / C11 cap *)
Lemma apply_qos_spec subs m :
  let m' := apply_qos subs m in
  m_topic m' = m_topic m /\ m_payload m' = m_payload m /\ m_retain m' = m_retain m /\
  m_qos m' = match pick_sub subs (m_topic m) with Some (_, q) => N.min (m_qos m) q | None => m_qos m end.
Proof.
  unfold apply_qos. destruct (pick_sub subs (m_topic m)) as [[f q]|]; [|auto].
  destruct (q <? m_qos m) eqn:Lt; [apply N.ltb_lt in Lt|apply N.ltb_ge in Lt]; cbn; repeat split; lia.
Qed.

Lemma apply_qos_le subs m : m_qos (apply_qos subs m) <= m_qos m.
Proof. rewrite (proj2 (proj2 (proj2 (apply_qos_spec subs m)))). destruct (pick_sub _ _) as [[f q]|]; lia. Qed.

Lemma apply_qos_capped subs m : qos_capped subs m (apply_qos subs m) = true.
Proof.
  destruct (apply_qos_spec subs m) as (E1 & E2 & E3 & E4). unfold qos_capped.
  rewrite E1, E2, E3, !bytes_eqb_refl, Bool.eqb_reflx, E4. cbn [andb].
  destruct (name_ok (m_topic m)) eqn:Hn; [|reflexivity]. rewrite <- (pick_sub_has_match subs _ Hn).
  destruct (pick_sub subs (m_topic m)) as [[f q]|] eqn:P; cbn [is_some]; [|apply N.eqb_refl].
  apply pick_sub_sound in P as [Hin Hm]. apply existsb_exists. exists (f, q). split; [exact Hin|].
  cbn [fst snd] in *. rewrite Hm. apply N.eqb_refl.
Qed.

Lemma dequeue_unfold st c t :
  dequeue st c t =
  match session_of st c with
  | None => (RNoSession, st)
  | Some (k, s) =>
      match (if t then s_tq s else s_sq s) with
      | [] => (REmpty, st)
      | m :: q => (RMsg (apply_qos (s_subs s) m),
                   put_session st k (if t then Sess (s_subs s) q (s_sq s) (s_act s) else Sess (s_subs s) (s_tq s) q (s_act s)))
      end
  end.
Proof. unfold dequeue. destruct (session_of st c) as [[k s]|]; [destruct t|]; reflexivity. Qed.

Theorem step_qos_ok st o : wf st -> let (r, st') := step st o in qos_ok st o r st' = true.
Proof.
  intros W. destruct o as [| | | | | |c temp| |]; try (destruct (step st _); reflexivity). cbn [step].
  rewrite dequeue_unfold. unfold qos_ok.
  destruct (session_of st c) as [[k s]|] eqn:S; [|apply others_unchanged_refl; exact W].
  destruct (if temp then s_tq s else s_sq s) as [|m q]; [apply others_unchanged_refl; exact W|].
  rewrite apply_qos_capped, get_put, skey_eqb_refl, session_eqb_refl. cbn [andb].
  apply (others_unchanged_put st k s _ W (session_of_get _ _ _ _ S)).
Qed.

(* ------------------------------------------------------------------ Subscribe / Unsubscribe: the subscription map *)
Lemma alookup_set_subs subs : forall old f,
  alookup bytes_eqb f (set_subs subs old) = sub_spec old subs f.
Proof.
  unfold set_subs, sub_spec. induction subs as [|[f' q] subs IH]; intros old f; cbn [fold_left last_q fst snd]; [reflexivity|].
  rewrite IH. destruct (last_q f subs); [reflexivity|].
  rewrite (alookup_aset bytes_eqb bytes_eqb_eq). destruct (bytes_eqb f f'); reflexivity.
Qed.

Lemma nodup_set_subs subs : forall old, NoDup (map fst old) -> NoDup (map fst (set_subs subs old)).
Proof.
  unfold set_subs. induction subs as [|[f' q] subs IH]; intros old W; cbn [fold_left]; [exact W|].
  apply IH. apply (nodup_aset bytes_eqb bytes_eqb_eq); exact W.
Qed.

Lemma alookup_unset_subs fs : forall old f,
  alookup bytes_eqb f (unset_subs fs old) = if existsb (bytes_eqb f) fs then None else alookup bytes_eqb f old.
Proof.
  unfold unset_subs. induction fs as [|f' fs IH]; intros old f; cbn [fold_left existsb]; [reflexivity|].
  rewrite IH, (alookup_aremove bytes_eqb bytes_eqb_eq).
  destruct (existsb (bytes_eqb f) fs); [rewrite orb_true_r; reflexivity|].
  rewrite orb_false_r. destruct (bytes_eqb f f'); reflexivity.
Qed.

Lemma nodup_unset_subs fs : forall old : list sub, NoDup (map fst old) -> NoDup (map fst (unset_subs fs old)).
Proof.
  unfold unset_subs. induction fs as [|f' fs IH]; intros old W; cbn [fold_left]; [exact W|].
  apply IH. apply (nodup_aremove bytes_eqb bytes_eqb_eq); exact W.
Qed.

Lemma nodup_imp {V} (a b : list (bytes * V)) :
  (NoDup (map fst a) -> NoDup (map fst b)) -> negb (nodup_keys a) || nodup_keys b = true.
Proof.
  intros H. destruct (nodup_keys a) eqn:E; [|reflexivity]. cbn [negb orb].
  apply nodup_keys_iff, H, nodup_keys_iff, E.
Qed.

Theorem step_resub_ok st o : let (r, st') := step st o in r <> RBadOracle -> resub_ok st o r st' = true.
Proof.
  destruct o as [| | |c subs b| | | | |]; try (destruct (step st _); reflexivity). cbn [step].
  unfold subscribe, resub_ok. destruct (session_of st c) as [[k s]|] eqn:S; [|reflexivity].
  destruct (negb (batches_ok _ b)); [intros H; exfalso; apply H; reflexivity|]. intros _.
  rewrite get_put, skey_eqb_refl. cbn [s_subs].
  assert (X : (negb (nodup_keys (s_subs s)) || nodup_keys (set_subs subs (s_subs s))) &&
              forallb (fun f => option_eqb N.eqb (alookup bytes_eqb f (set_subs subs (s_subs s))) (sub_spec (s_subs s) subs f))
                (map fst (s_subs s) ++ map fst subs ++ map fst (set_subs subs (s_subs s))) = true).
  { apply andb_true_iff; split; [apply nodup_imp, nodup_set_subs|].
    apply forallb_forall. intros f _. rewrite alookup_set_subs. apply n_opt_eqb_refl. }
  destruct (Nat.leb _ _); exact X.
Qed.

Theorem step_unsub_ok st o : wf st -> let (r, st') := step st o in unsub_ok st o r st' = true.
Proof.
  intros W. destruct o as [| | | |c fs| | | |]; try (destruct (step st _); reflexivity). cbn [step].
  unfold unsubscribe, unsub_ok. destruct (session_of st c) as [[k s]|] eqn:S; [|apply others_unchanged_refl; exact W].
  pose proof (session_of_get _ _ _ _ S) as G.
  rewrite get_put, skey_eqb_refl. cbn [s_subs s_tq s_sq s_act].
  rewrite !msgs_eqb_refl, n_opt_eqb_refl, (others_unchanged_put st k s _ W G). rewrite !andb_true_r.
  apply andb_true_iff; split; [apply nodup_imp, nodup_unset_subs|].
  apply forallb_forall. intros f _. rewrite alookup_unset_subs. apply n_opt_eqb_refl.
Qed.

(* ------------------------------------------------------------------ retained set *)
Lemma alookup_retain_update m ret t :
  alookup bytes_eqb t (retain_update m ret) = ret_spec m ret t.
Proof.
  unfold retain_update, ret_spec. destruct (m_retain m); cbn [andb]; [|reflexivity].
  destruct (is_nil (m_payload m)).
  - rewrite (alookup_aremove bytes_eqb bytes_eqb_eq). reflexivity.
  - rewrite (alookup_aset bytes_eqb bytes_eqb_eq). reflexivity.
Qed.

Lemma retained_unchanged_ok (ret : list (bytes * message)) l :
  forallb (fun t => option_eqb message_eqb (alookup bytes_eqb t ret) (alookup bytes_eqb t ret)) l = true.
Proof. apply forallb_forall; intros t _; apply msg_opt_eqb_refl. Qed.

(* only a Publish that returns touches the retained map *)
Lemma retained_step_other st o :
  (match o with OPublish _ _ _ => False | _ => True end) -> st_retained (snd (step st o)) = st_retained st.
Proof.
  destruct (step_effect st o) as [o r _|o r st' B|c clean _ _|c id clean _ _ _ _|p _ _|c k s0 o r s2 _ _|c m got _|c id _ _ _];
    intros H; try reflexivity.
  - destruct B; reflexivity.
  - exact (g_retained _ _ _ _ _ _ (setup_finish_granted _ c id clean)).
  - apply (g_retained _ _ _ _ _ _ (setup_finish_granted _ _ _ _)).
  - apply retained_put.
  - destruct H.
Qed.

Theorem step_retained_ok st o :
  wf st -> OwnOk st ->
  let (r, st') := step st o in retained_ok st o r st' = true.
Proof.
  intros W O. destruct (step st o) as [r st'] eqn:E. unfold retained_ok.
  assert (Est : st' = snd (step st o)) by (rewrite E; reflexivity).
  destruct o as [c id clean|t|c|c subs b|c fs|c m got|c t|c|];
    try (rewrite Est, retained_step_other by exact I;
         apply andb_true_iff; split; [apply nodup_imp; auto|]; destruct r; apply retained_unchanged_ok).
  cbn [step] in E. rewrite publish_unfold in E.
  destruct (pub_stuck st c m) eqn:Hnb.
  - injection E as <- <-. apply andb_true_iff; split; [apply nodup_imp; auto|].
    destruct (own_refused st c m); apply retained_unchanged_ok.
  - rewrite (proj1 (proj2 (pub_through st c m W O Hnb))) in E.
    injection E as <- <-. cbn [st_retained]. apply andb_true_iff; split; [apply nodup_imp, wf_retain_update|].
    apply forallb_forall. intros t _. rewrite alookup_retain_update. apply msg_opt_eqb_refl.
Qed.

(* every stored retained message keeps its topic, the flag and a payload *)
Lemma retained_wf_update m ret :
  forallb (fun e => bytes_eqb (fst e) (m_topic (snd e)) && m_retain (snd e) && negb (is_nil (m_payload (snd e)))) ret = true ->
  forallb (fun e => bytes_eqb (fst e) (m_topic (snd e)) && m_retain (snd e) && negb (is_nil (m_payload (snd e))))
          (retain_update m ret) = true.
Proof.
  intros H. unfold retain_update. destruct (m_retain m) eqn:R; [|exact H].
  destruct (is_nil (m_payload m)) eqn:P.
  - induction ret as [|[k v] ret IH]; cbn [aremove]; [reflexivity|].
    cbn [forallb fst snd] in H. apply andb_true_iff in H as [H1 H2].
    destruct (bytes_eqb (m_topic m) k); [apply IH; exact H2|]. cbn [forallb fst snd]. rewrite H1, (IH H2). reflexivity.
  - induction ret as [|[k v] ret IH]; cbn [aset forallb fst snd].
    + rewrite bytes_eqb_refl, R, P. reflexivity.
    + cbn [forallb fst snd] in H. apply andb_true_iff in H as [H1 H2].
      destruct (bytes_eqb (m_topic m) k); cbn [forallb fst snd].
      * rewrite bytes_eqb_refl, R, P, H2. reflexivity.
      * rewrite H1, (IH H2). reflexivity.
Qed.

Theorem step_retained_wf st o : retained_wf st = true -> retained_wf (snd (step st o)) = true.
Proof.
  unfold retained_wf. intros H.
  destruct o as [c id clean|t|c|c subs b|c fs|c m got|c t|c|]; try (rewrite retained_step_other by exact I; exact H).
  cbn [step]. rewrite publish_unfold. destruct (pub_stuck _ _ _); [exact H|]. cbn [snd st_retained].
  apply retained_wf_update; exact H.
Qed.

(* ------------------------------------------------------------------ C11 live copy *)
Theorem step_live_copy_ok st o : wf st -> let (r, st') := step st o in live_copy_ok st o r st' = true.
Proof.
  intros W. destruct o as [| | | | |c m got| | |]; try (destruct (step st _); reflexivity). cbn [step].
  destruct (publish st c m got) as [r st'] eqn:E. unfold live_copy_ok.
  assert (Est : st' = snd (publish st c m got)) by (rewrite E; reflexivity).
  apply forallb_forall. intros [k s] Hin. cbn [fst snd].
  destruct (pub_stuck st c m) eqn:Hnb.
  - rewrite publish_unfold, Hnb in E. injection E as _ <-. rewrite (sessions_get st k s W Hin).
    rewrite PeanoNat.Nat.ltb_irrefl. reflexivity.
  - rewrite Est, (get_session_published st c m got k Hnb), (sessions_get st k s W Hin). cbn [option_map].
    destruct (deliver_cases (pub_err st c m) got k (classify st c m s) m s) as [-> | ->]; [rewrite PeanoNat.Nat.ltb_irrefl; reflexivity|].
    assert (Q : queue_of m (enqueue m s) = queue_of m s ++ [live_copy m]).
    { unfold enqueue, queue_of. destruct (use_temp m) eqn:U; cbn [s_tq s_sq]; rewrite ?U; reflexivity. }
    rewrite Q, app_length, rev_app_distr. cbn [length rev app live_copy m_retain m_topic m_payload].
    rewrite !bytes_eqb_refl. destruct (Nat.ltb _ _); reflexivity.
Qed.

(* ------------------------------------------------------------------ a refused Publish changes nothing *)
Theorem step_refused_ok st o : wf st -> OwnOk st -> let (r, st') := step st o in refused_ok st o r st' = true.
Proof.
  intros W O. destruct o as [| | | | |c m got| | |]; try (destruct (step st _) as [[] ?]; reflexivity). cbn [step].
  pose proof (publish_refused st c m got W O) as H. destruct (publish st c m got) as [r st']. cbn [fst snd] in H. unfold refused_ok.
  destruct r; try reflexivity. destruct (H eq_refl) as [_ ->]. apply others_unchanged_refl; exact W.
Qed.

(* ------------------------------------------------------------------ a closing publisher (its will) is never refused *)
Theorem step_closing_accepted_ok st o :
  wf st -> OwnOk st -> let (r, st') := step st o in closing_accepted_ok st o r st' = true.
Proof.
  intros W O. destruct o as [| | | | |c m got| | |]; try (destruct (step st _) as [[] ?]; reflexivity). cbn [step].
  pose proof (publish_refused st c m got W O) as H. destruct (publish st c m got) as [r st']. cbn [fst snd] in H. unfold closing_accepted_ok.
  destruct r; try reflexivity. destruct (H eq_refl) as [R _]. unfold own_refused in R. apply andb_true_iff in R as [R _]. exact R.
Qed.
