(* ConnProofsC0.v — shared infrastructure for the C08 / C16 proofs about the
   broker-connection model BC (Conn.v).  The exact case analyses of ConnProc.v and
   ConnProofsA_lib.v, read as coarsely as the relations of C08 / C16 allow: the
   processor's steps ([proc_fired]: the steps on events no clause looks at are one
   case), the dequeuer's ([deq_fired]: its packet is known to be a fresh PUBLISH), and
   the sub-step of [step] that fired ([fired]: role learning as the relation [learned]). *)
From Coq Require Import List NArith Bool Lia ZArith ZifyN ZifyBool.
From GM Require Import Base.Lts Codec.Packet Session.Ids Session.Store Session.StoreProofs
  Broker.Conn Broker.ConnSpec Broker.ConnBase Broker.ConnProofsA_lib.
From GM Require Export Codec.PacketEqb Broker.ConnAssoc Broker.ConnProc.
Import ListNotations.
Open Scope N_scope.

Lemma packet_eqb_publish_r d m i q : packet_eqb q (Publish d m i) = true -> q = Publish d m i.
Proof. apply packet_eqb_eq. Qed.

(* what [set_dup] can produce *)
Lemma get_id_set_dup p : get_id (set_dup p) = get_id p.
Proof. destruct p; reflexivity. Qed.

Lemma nmem_keys st i : nmem i (keys st) = match store_lookup st i with Some _ => true | None => false end.
Proof.
  destruct (store_lookup st i) eqn:E.
  - apply nmem_true_iff. destruct (in_dec N.eq_dec i (keys st)) as [H|H]; [exact H|].
    apply lookup_none_notin in H. congruence.
  - apply nmem_false_iff, lookup_none_notin, E.
Qed.

Lemma keys_save st p :
  keys (store_save st p) =
  match get_id p with Some i => if nmem i (keys st) then keys st else keys st ++ [i] | None => keys st end.
Proof.
  unfold store_save. destruct (get_id p) as [i|]; [|reflexivity].
  rewrite keys_put, nmem_keys. destruct (store_lookup st i); reflexivity.
Qed.

(* -------------------------------------------------------- inversion tactics *)

(* reduce projections of explicitly updated states *)
Ltac bcsimpl :=
  cbn [conn_no sess clos gproc gdeq gack gcl ph pp dp ap lp dying will cw cpp cps tdeq tpub tsub ackq
       set_pp set_dp set_ap set_lp set_sess set_clos set_dying set_tok set_ackq set_ph set_roles
       put_deq put_pub put_sub sess_save sess_delete freeze new_conn die_p] in *.

(* the same, in the goal only *)
Ltac bcs :=
  cbn [conn_no sess clos gproc gdeq gack gcl ph pp dp ap lp dying will cw cpp cps tdeq tpub tsub ackq
       set_pp set_dp set_ap set_lp set_sess set_clos set_dying set_tok set_ackq set_ph set_roles
       put_deq put_pub put_sub sess_save sess_delete new_conn sess_with sess_store s_out s_in s_counter].

(* peel all the matches of a hypothesis  H : <nested matches> = Some _ *)
Ltac inv_step H :=
  cbv beta iota zeta in H;
  repeat (match type of H with
          | match ?x with _ => _ end = Some _ => destruct x eqn:?; cbv beta iota zeta in H; try discriminate H
          end).

(* events that no trace clause of C08 / C16 looks at *)
Definition dull (e : event) : bool :=
  match e with
  | ERxErr _ | EConnClose _ | EAuth _ _ | ESetup _ SErr | ESub _ _ _ | ESubRet _ _ | EUnsub _ _ _ | EUnsubRet _ _
  | EPub _ _ _ | EPubRet _ _ | EDeqRet _ QErr | EDeqRet _ QNone | EDeqAck _ | ETerm _ _ | EAckCall _ _ | EAckRet _ _
  | ESave _ Incoming _ _ | ELookup _ _ _ _ | EDelete _ Incoming _ _
  | EDie _ KTransport | EDie _ KSession | EDie _ KBackend | ECloseReq | EClosed | EQuiescent => true
  | _ => false
  end.

(* "this scanner ignores the dull events": by cases on the event *)
Ltac by_dull e H :=
  destruct e; cbn [dull] in H; try discriminate H; try reflexivity;
  match type of H with match ?x with _ => _ end = true => destruct x; try discriminate H end; reflexivity.

(* control points of the main loop at which the processor owes nothing to the outgoing store *)
Definition loop_pc (x : ppc) : bool :=
  match x with
  | PLoop | PSubW _ _ | PSubR | PUnsubW _ _ | PUnsubR | PPub0 _ | PPubR | PPub1W _ _ | PPub2W _ | PPubrec _
  | PRelLookup _ | PRelPub _ _ | PCompTx _ | PPing | PDisc | PDieLog _ | PDieClose | PDone => true
  | _ => false
  end.

(* everything the relations read of a state, the processor's control point aside *)
Record same_core (s s' : bc) : Prop := SameCore {
  sc_dp : dp s' = dp s; sc_ap : ap s' = ap s; sc_lp : lp s' = lp s;
  sc_gproc : gproc s' = gproc s; sc_gdeq : gdeq s' = gdeq s;
  sc_cw : cw s' = cw s; sc_tdeq : tdeq s' = tdeq s;
  sc_out : s_out (sess s') = s_out (sess s); sc_cnt : s_counter (sess s') = s_counter (sess s);
  sc_conn : conn_no s' = conn_no s; sc_ackq : ackq s' = ackq s }.

Definition rx_pc (p : packet) (x : ppc) : Prop :=
  match p with
  | Puback id | Pubcomp id => x = PAckDel id
  | Pubrec id => x = PRecSave id
  | _ => loop_pc x = true
  end.

Definition own_reply (x : ppc) (p : packet) : Prop :=
  match x, p with PPubrec id, Pubrec id' | PCompTx id, Pubcomp id' => id' = id | PPing, Pingresp => True | _, _ => False end.

Inductive proc_fired (s : bc) (e : event) (s' : bc) : Prop :=
| PF_first g p (Hpp : pp s = PFirst) (He : e = ERx g p)
    (Hs : s' = set_pp s (match p with Connect c => PAuth c | _ => PDieLog KClient end))
| PF_auth g c r (Hpp : pp s = PAuth c) (He : e = EAuth g r)
    (Hs : s' = match r with
               | AErr => set_pp s (PDieLog KBackend) | ADeny => set_pp s PDeny
               | AOk => set_pp (set_ph s Connected (will s)) (PSetup c)
               end)
| PF_deny g ok (Hpp : pp s = PDeny) (He : e = ETx g (Connack false 5) false ok)
    (Hs : s' = set_pp s (PDieLog (if ok then KClient else KTransport)))
| PF_setup g c r fresh w p b (Hpp : pp s = PSetup c) (He : e = ESetup g (SOk r fresh w p b))
    (Hw : 0 < w) (Hs : s' = setup_st s c r fresh w p b)
| PF_connack g c r ok (Hpp : pp s = PConnack c r) (He : e = ETx g (Connack (negb (c_clean c) && r) 0) false ok)
    (Hs : s' = set_pp s (if ok then PAll else PDieLog KTransport))
| PF_all g (Hpp : pp s = PAll) (He : e = EAll g Outgoing (Some (store_all (s_out (sess s)))))
    (Hs : s' = set_pp s (resend_next (store_all (s_out (sess s)))))
| PF_all_err g (Hpp : pp s = PAll) (He : e = EAll g Outgoing None) (Hs : s' = set_pp s (PDieLog KSession))
| PF_resend g p rest ok (Hpp : pp s = PResend (p :: rest)) (He : e = ETx g (set_dup p) true ok)
    (Hs : s' = set_pp (sess_save (set_tok s (tdeq s - 1) (tpub s) (tsub s)) Outgoing (set_dup p))
                      (if ok then resend_next rest else PDieLog KTransport))
| PF_restore g ok (Hpp : pp s = PRestore) (He : e = ERestore g ok)
    (Hs : s' = if ok then set_ap (set_dp (set_pp s PLoop) DToken) AIdle else set_pp s (PDieLog KBackend))
| PF_rx g p s0 x (Hpp : pp s = PLoop) (He : e = ERx g p) (H0 : s0 = s \/ s0 = set_ph s Disconnected None)
    (Hs : s' = set_pp s0 x) (Hx : rx_pc p x)
| PF_ackdel g id ok (Hpp : pp s = PAckDel id) (He : e = EDelete g Outgoing id ok)
    (Hs : s' = if ok then set_pp (put_deq (sess_delete s Outgoing id)) PLoop else set_pp s (PDieLog KSession))
| PF_recsave g id ok (Hpp : pp s = PRecSave id) (He : e = ESave g Outgoing (Pubrel id) ok)
    (Hs : s' = if ok then set_pp (sess_save s Outgoing (Pubrel id)) (PRelTx id) else set_pp s (PDieLog KSession))
| PF_reltx g id ok (Hpp : pp s = PRelTx id) (He : e = ETx g (Pubrel id) true ok)
    (Hs : s' = set_pp s (if ok then PLoop else PDieLog KTransport))
| PF_reply g p ok (Hp : own_reply (pp s) p) (He : e = ETx g p true ok)
    (Hs : s' = set_pp s (if ok then PLoop else PDieLog KTransport))
| PF_die g k (Hpp : loop_pc (pp s) = true) (He : e = EDie g k) (Hs : s' = set_pp s PDieClose)
| PF_dull (Hpp : loop_pc (pp s) = true \/ pp s = PFirst \/ exists c, pp s = PSetup c)
    (He : dull e = true) (Hnd : forall g k, e <> EDie g k) (Hc : same_core s s') (Hx : loop_pc (pp s') = true).

Lemma dispatch_rx_pc p x : dispatch_pp p = Some x -> rx_pc p x.
Proof. intros H. dispatch_cases H; reflexivity. Qed.

Lemma dispatch_st_cases s p : dispatch_st s p = s \/ dispatch_st s p = set_ph s Disconnected None.
Proof. destruct p; [left; reflexivity..|right; reflexivity]. Qed.

(* a case of [proc_case] whose event is dull: everything but the control point, the closure
   table, the tokens of the processor and the incoming store is left alone *)
Ltac pf_dull :=
  apply PF_dull;
  [match goal with Hpp : pp _ = _ |- _ => rewrite Hpp end; first [left; reflexivity|right; left; reflexivity|right; right; eexists; reflexivity]
  |reflexivity|intros; discriminate|pp_cases; constructor; reflexivity|pp_cases; reflexivity].

Lemma step_proc_inv s e s' : step_proc s e = Some s' -> proc_fired s e s'.
Proof.
  intros H. inv_proc H; pp_split.
  all: try (econstructor; first [exact Hpp|reflexivity|assumption]; fail).
  all: try pf_dull.
  (* the logged death, and the four waits for a token that time out *)
  all: try (eapply PF_die; [rewrite Hpp|..]; reflexivity).
  - eapply PF_rx; [exact Hpp|reflexivity|apply dispatch_st_cases|reflexivity|apply dispatch_rx_pc, Hd].
  - apply (PF_reply s _ _ g0 (Pubrec x) ok0); [rewrite Hpp|..]; reflexivity.
  - apply (PF_reply s _ _ g0 (Pubcomp x) ok0); [rewrite Hpp|..]; reflexivity.
  - apply (PF_reply s _ _ g0 Pingresp ok0); [rewrite Hpp; exact I|..]; reflexivity.
Qed.

Definition dp_shape (d : dpc) : Prop :=
  match d with
  | DNextId m _ => (m_qos m =? 0) = false
  | DSave p _ => exists m id, p = Publish false m id /\ (m_qos m =? 0) = false
  | DBackAck p | DSend p => exists m id, p = Publish false m id
  | _ => True
  end.

Definition deq_ret_pc (r : deq_res) : dpc :=
  match r with
  | QErr => DDieLog KBackend
  | QNone => DDone
  | QMsg m ba => if m_qos m =? 0 then (if ba then DBackAck (Publish false m 0) else DSend (Publish false m 0))
                 else DNextId m ba
  end.

Inductive deq_fired (s : bc) (e : event) (s' : bc) : Prop :=
| DF_call g (Hdp : dp s = DToken) (He : e = EDeqCall g) (Ht : 0 < tdeq s)
    (Hs : s' = set_dp (set_tok s (tdeq s - 1) (tpub s) (tsub s)) DWait)
| DF_timeout g (Hdp : dp s = DToken) (He : e = EDie g KClient) (Ht : tdeq s = 0) (Hs : s' = set_dp s DDieClose)
| DF_ret g r (Hdp : dp s = DWait) (He : e = EDeqRet g r) (Hs : s' = set_dp s (deq_ret_pc r))
| DF_id g m ba id c (Hdp : dp s = DNextId m ba) (He : e = ENextId g id) (Hq : (m_qos m =? 0) = false)
    (Hn : next_id (s_counter (sess s)) = (id, c))
    (Hs : s' = set_dp (set_sess s (Sess c (s_in (sess s)) (s_out (sess s)))) (DSave (Publish false m id) ba))
| DF_save g m id ba ok (Hdp : dp s = DSave (Publish false m id) ba) (He : e = ESave g Outgoing (Publish false m id) ok)
    (Hq : (m_qos m =? 0) = false)
    (Hs : s' = if ok then set_dp (sess_save s Outgoing (Publish false m id))
                                 (if ba then DBackAck (Publish false m id) else DSend (Publish false m id))
               else set_dp s (DDieLog KSession))
| DF_back g m id (Hdp : dp s = DBackAck (Publish false m id)) (He : e = EDeqAck g)
    (Hs : s' = set_dp s (DSend (Publish false m id)))
| DF_send g m id ok (Hdp : dp s = DSend (Publish false m id)) (He : e = ETx g (Publish false m id) true ok)
    (Hs : s' = if ok then set_dp (if m_qos m =? 0 then put_deq s else s) DToken else set_dp s (DDieLog KTransport))
| DF_die g k (Hdp : dp s = DDieLog k) (He : e = EDie g k) (Hs : s' = set_dp s DDieClose)
| DF_close g (Hdp : dp s = DDieClose) (He : e = EConnClose g) (Hs : s' = set_dp (set_dying s) DDone).

Lemma step_deq_inv s e s' : dp_shape (dp s) -> step_deq s e = Some s' -> deq_fired s e s'.
Proof.
  intros Hsh H. destruct (step_deq_cases _ _ _ H) as
    [g -> Hdp Ht -> | g -> Hdp Ht -> | g r x -> Hdp Hr -> | g m ba -> Hdp -> | g m ba id c -> Hdp Hn ->
    | g p ba ok -> Hdp -> | g p -> Hdp -> | g p ok -> Hdp -> | g k -> Hdp -> | g -> Hdp ->];
    rewrite Hdp in Hsh; cbn [dp_shape] in Hsh.
  - eapply DF_call; eauto.
  - eapply DF_timeout; eauto.
  - destruct Hr as [[-> ->]|[-> ->]]; eapply DF_ret; eauto.
  - eapply DF_ret; eauto.
  - eapply DF_id; eauto.
  - destruct Hsh as (m & id & -> & Hq). eapply DF_save; eauto.
  - destruct Hsh as (m & id & ->). eapply DF_back; eauto.
  - destruct Hsh as (m & id & ->). eapply DF_send; eauto.
  - eapply DF_die; eauto.
  - eapply DF_close; eauto.
Qed.

(* ------------------------------------------------------ inversion of [step] *)

Definition learned (s s1 : bc) : Prop :=
  exists p d a c, s1 = set_roles s p d a c /\
    (forall g, gproc s = Some g -> p = Some g) /\ (forall g, gdeq s = Some g -> d = Some g) /\
    (forall g, p = Some g -> d = Some g -> gproc s = Some g /\ gdeq s = Some g).

Inductive fired (s : bc) (e : event) (s' : bc) : Prop :=
| F_new (He : e = ENewConn) (Ho : conn_open s = false) (Hs : s' = new_conn s)
| F_mark (He : e = ECloseReq) (Ho : conn_open s = true) (Hs : s' = s)
| F_quiet (He : e = EQuiescent) (Hq : quiescent s = true) (Hs : s' = s)
| F_clo (Hc : step_clo s e = Some s')
| F_proc g s1 (Hg : ev_g e = Some g) (Hl : learned s s1) (Hr : gproc s1 = Some g) (Ho : conn_open s = true)
    (Hp : step_proc s1 e = Some s')
| F_deq g s1 (Hg : ev_g e = Some g) (Hl : learned s s1) (Hr : gdeq s1 = Some g) (Ho : conn_open s = true)
    (Hnp : gproc s1 <> Some g) (Hd : step_deq s1 e = Some s')
| F_ack g s1 (Hg : ev_g e = Some g) (Hl : learned s s1) (Hr : gack s1 = Some g) (Ho : conn_open s = true)
    (Hnp : gproc s1 <> Some g) (Hnd : gdeq s1 <> Some g) (Ha : step_ack s1 e = Some s')
| F_cl g s1 (Hg : ev_g e = Some g) (Hl : learned s s1) (Hr : gcl s1 = Some g) (Ho : conn_open s = true)
    (Hc : step_cleanup s1 e = Some s')
| F_closed (He : e = EClosed) (Hc : step_cleanup s e = Some s')
| F_kill g (He : e = EConnClose g) (Ho : conn_open s = true) (Hs : s' = set_dying s).

Lemma learned_refl s : learned s s.
Proof. exists (gproc s), (gdeq s), (gack s), (gcl s). split; [destruct s; reflexivity|]. repeat split; auto. Qed.

Lemma learned_new s g p d a c : role_free s g = true ->
  p = gproc s \/ gproc s = None /\ p = Some g -> d = gdeq s \/ gdeq s = None /\ d = Some g -> p = gproc s \/ d = gdeq s ->
  learned s (set_roles s p d a c).
Proof.
  intros Hf Hp Hd Hpd. apply role_free_inv in Hf as (F1 & F2 & _). apply is_role_false in F1, F2. exists p, d, a, c. split; [reflexivity|].
  repeat split; intros; destruct Hp as [->|[Ep ->]], Hd as [->|[Ed ->]], Hpd as [E|E]; congruence.
Qed.

Lemma step_inv s e s' : step s e = Some s' -> fired s e s'.
Proof.
  intros H. destruct (step_cases _ _ _ H) as
    [-> Hl -> | -> Ho -> | -> Hq -> | Hc | -> Hc | g s1 Ho Hg _ _ Hv Hp | g s1 Ho Hg _ _ R1 Hv Hp
    | g s1 Ho Hg _ _ R1 R2 Hv Hp | g s1 Ho Hg _ _ _ _ _ Hv Hp | g -> Ho _ _ _ ->].
  - apply F_new; [reflexivity|unfold conn_open; rewrite Hl; reflexivity|reflexivity].
  - apply F_mark; [reflexivity|exact Ho|reflexivity].
  - apply F_quiet; [reflexivity|exact Hq|reflexivity].
  - apply F_clo, Hc.
  - apply F_closed; [reflexivity|exact Hc].
  - destruct Hv as [[-> Hr]|(Hn & Hf & -> & _)].
    + eapply F_proc; [exact Hg|apply learned_refl|exact Hr|exact Ho|exact Hp].
    + eapply F_proc; [exact Hg|apply (learned_new s g); auto|reflexivity|exact Ho|exact Hp].
  - apply is_role_false in R1. destruct Hv as [[-> Hr]|(Hn & Hf & ->)].
    + eapply F_deq; [exact Hg|apply learned_refl|exact Hr|exact Ho|exact R1|exact Hp].
    + eapply F_deq; [exact Hg|apply (learned_new s g); auto|reflexivity|exact Ho|exact R1|exact Hp].
  - apply is_role_false in R1, R2. destruct Hv as [[-> Hr]|(Hn & Hf & ->)].
    + eapply F_ack; [exact Hg|apply learned_refl|exact Hr|exact Ho|exact R1|exact R2|exact Hp].
    + eapply F_ack; [exact Hg|apply (learned_new s g); auto|reflexivity|exact Ho|exact R1|exact R2|exact Hp].
  - destruct Hv as [[-> Hr]|(Hn & Hf & ->)].
    + eapply F_cl; [exact Hg|apply learned_refl|exact Hr|exact Ho|exact Hp].
    + eapply F_cl; [exact Hg|apply (learned_new s g); auto|reflexivity|exact Ho|exact Hp].
  - eapply F_kill; [reflexivity|exact Ho|reflexivity].
Qed.
