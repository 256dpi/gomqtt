(* ConnProofsF1.v — c08_ledger (ConnSpec7.v) holds of every trace the broker-connection
   model accepts.  The relation between model state and ledger:
     - the ledger's recorded entries ARE the model's outgoing store (up to the dup flag),
     - a message is in a goroutine's hand exactly while the dequeuer is between Dequeue
       and SavePacket (DNextId / DSave),
     - the processor about to delete / to store PUBREL has received the packet that
       justifies it,
     - while the processor re-sends, every packet still to re-send is in the store,
     - a goroutine that owes a session error is the dequeuer in DDieLog KSession,
     - the ledger's "connection open" flag is the model's.
   Model invariant used: INV2 (ConnProofsC5.v), the INV of ConnProofsC1.v with INVW. *)
From Coq Require Import List NArith Bool Lia.
From GM Require Import Base.Lts Codec.Packet Session.Ids Session.Store Session.StoreProofs
  Broker.Conn Broker.ConnSpec Broker.ConnSpec6 Broker.ConnSpec7 Broker.ConnBase Broker.ConnProofsCDefs Broker.ConnProofsA_lib
  Broker.ConnProofsC0 Broker.ConnProofsC1 Broker.ConnProofsC4 Broker.ConnProofsC5.
Import ListNotations.
Open Scope N_scope.

(* ------------------------------------------------------ stores and undup *)

Definition undup1 (e : N * packet) : N * packet := (fst e, undup (snd e)).

Lemma get_id_undup p : get_id (undup p) = get_id p.
Proof. destruct p; reflexivity. Qed.

Lemma undup_idem p : undup (undup p) = undup p.
Proof. destruct p; reflexivity. Qed.

Lemma undup_set_dup p : undup (set_dup p) = undup p.
Proof. destruct p; reflexivity. Qed.

Lemma map_undup1_put st i p : map undup1 (store_put st i p) = store_put (map undup1 st) i (undup p).
Proof.
  induction st as [|[j q] st IH]; cbn [store_put map]; [reflexivity|].
  unfold undup1 at 2. cbn [fst snd store_put].
  destruct (i =? j); cbn [map]; [reflexivity|]. rewrite IH. reflexivity.
Qed.

Lemma map_undup1_delete st i : map undup1 (store_delete st i) = store_delete (map undup1 st) i.
Proof.
  induction st as [|[j q] st IH]; cbn [store_delete map]; [reflexivity|].
  unfold undup1 at 2. cbn [fst snd store_delete].
  destruct (i =? j); cbn [map]; [reflexivity|]. rewrite IH. reflexivity.
Qed.

Lemma map_undup1_save st p : map undup1 (store_save st p) = store_save (map undup1 st) (undup p).
Proof. unfold store_save. rewrite get_id_undup. destruct (get_id p); [apply map_undup1_put|reflexivity]. Qed.

Lemma lookup_undup1 st i : store_lookup (map undup1 st) i = option_map undup (store_lookup st i).
Proof.
  induction st as [|[j q] st IH]; cbn [map store_lookup]; [reflexivity|].
  unfold undup1 at 1. cbn [fst snd store_lookup]. destruct (i =? j); [reflexivity|exact IH].
Qed.

Lemma keys_undup1 st : keys (map undup1 st) = keys st.
Proof. unfold keys. rewrite map_map. reflexivity. Qed.

Lemma all_undup1 st : store_all (map undup1 st) = map undup (store_all st).
Proof. unfold store_all. rewrite !map_map. reflexivity. Qed.

(* --------------------------------------------------- the ledger's records *)

Lemma lg_live_cons x l : lg_live (x :: l) = opt_list (item_rec x) ++ lg_live l.
Proof. reflexivity. Qed.

Lemma lg_live_app a b : lg_live (a ++ b) = lg_live a ++ lg_live b.
Proof. unfold lg_live. apply flat_map_app. Qed.

Lemma holds_inv x id : holds x id = true -> exists q, item_rec x = Some (id, q).
Proof.
  unfold holds. destruct (item_rec x) as [[j q]|]; [|discriminate].
  intros H. apply N.eqb_eq in H. subst j. exists q. reflexivity.
Qed.

Lemma item_rec_id x i p : item_rec x = Some (i, p) -> get_id p = Some i /\ undup p = p.
Proof.
  destruct x as [a m [id|id|id| |id]|id [|]]; cbn [item_rec]; intros H; try discriminate H;
    injection H as <- <-; split; reflexivity.
Qed.

Lemma lg_live_upd_put f dflt id q l :
  (forall x, holds x id = true -> lg_live (f x) = [(id, q)]) -> lg_live dflt = [(id, q)] ->
  lg_live (lg_upd f dflt id l) = store_put (lg_live l) id q.
Proof.
  intros Hf Hd. induction l as [|x l IH]; cbn [lg_upd]; [exact Hd|].
  rewrite lg_live_cons. destruct (holds x id) eqn:Eh.
  - rewrite lg_live_app, (Hf x Eh). destruct (holds_inv _ _ Eh) as (p & E). rewrite E. cbn [opt_list app store_put].
    rewrite N.eqb_refl. reflexivity.
  - rewrite lg_live_cons, IH. unfold holds in Eh. destruct (item_rec x) as [[j p]|]; cbn [opt_list app store_put]; [|reflexivity].
    rewrite Eh. reflexivity.
Qed.

Lemma lg_live_upd_del f id l :
  (forall x, holds x id = true -> lg_live (f x) = []) ->
  lg_live (lg_upd f [] id l) = store_delete (lg_live l) id.
Proof.
  intros Hf. induction l as [|x l IH]; cbn [lg_upd]; [reflexivity|].
  rewrite lg_live_cons. destruct (holds x id) eqn:Eh.
  - rewrite lg_live_app, (Hf x Eh). destruct (holds_inv _ _ Eh) as (p & E). rewrite E. cbn [opt_list app store_delete].
    rewrite N.eqb_refl. reflexivity.
  - rewrite lg_live_cons, IH. unfold holds in Eh. destruct (item_rec x) as [[j p]|]; cbn [opt_list app store_delete]; [|reflexivity].
    rewrite Eh. reflexivity.
Qed.

Lemma item_rec_over x : item_rec (it_over x) = None.
Proof. destruct x as [a m [id|id|id| |id]|id [|]]; reflexivity. Qed.

Lemma item_rec_done x : item_rec (it_done x) = None.
Proof. destruct x as [a m [id|id|id| |id]|id [|]]; reflexivity. Qed.

Lemma item_rec_release x id : holds x id = true -> item_rec (it_release x) = Some (id, Pubrel id).
Proof.
  unfold holds. destruct x as [a m [i|i|i| |i]|i [|]]; cbn [item_rec it_release]; intros H; try discriminate H;
    apply N.eqb_eq in H; subst; reflexivity.
Qed.

Lemma lg_live_put l id a m :
  lg_live (lg_put l id (LMsg a m (LStored id))) = store_put (lg_live l) id (Publish false m id).
Proof.
  unfold lg_put. apply lg_live_upd_put; [|reflexivity].
  intros x _. unfold lg_live. cbn [flat_map]. rewrite item_rec_over. reflexivity.
Qed.

Lemma lg_live_rel l id : lg_live (lg_rel l id) = store_put (lg_live l) id (Pubrel id).
Proof.
  unfold lg_rel. apply lg_live_upd_put; [|reflexivity].
  intros x Hx. unfold lg_live. cbn [flat_map]. rewrite (item_rec_release _ _ Hx). reflexivity.
Qed.

Lemma lg_live_del l id : lg_live (lg_del l id) = store_delete (lg_live l) id.
Proof.
  unfold lg_del. apply lg_live_upd_del.
  intros x _. unfold lg_live. cbn [flat_map]. rewrite item_rec_done. reflexivity.
Qed.

Lemma lg_live_filter l : lg_live (filter is_live l) = lg_live l.
Proof.
  induction l as [|x l IH]; cbn [filter]; [reflexivity|]. unfold is_live at 1.
  destruct (item_rec x) as [r|] eqn:E; rewrite ?lg_live_cons, ?E, IH; reflexivity.
Qed.

Lemma lg_live_in l i p : In (i, p) (lg_live l) -> get_id p = Some i /\ undup p = p.
Proof.
  unfold lg_live. rewrite in_flat_map. intros (x & _ & Hx).
  destruct (item_rec x) as [[j q]|] eqn:E; cbn [opt_list In] in Hx; [|contradiction].
  destruct Hx as [Hx|[]]. injection Hx as -> ->. eapply item_rec_id. exact E.
Qed.

(* ------------------------------------------------------------ the relation *)

(* a packet the processor has still to re-send is in the store (possibly flagged dup) *)
Definition resend_stored (st : store) (p : packet) : Prop :=
  exists id p', get_id p = Some id /\ store_lookup st id = Some p' /\ undup p' = undup p.

Definition R_hand (d : dpc) (gd : option N) (h : list (N * lhand)) : Prop :=
  match d with
  | DNextId m _ => exists g a, gd = Some g /\ h = [(g, LH a m None)]
  | DSave p _ => exists g a m id, gd = Some g /\ p = Publish false m id /\ h = [(g, LH a m (Some id))]
  | _ => h = []
  end.
Definition R_last (x : ppc) (gp : option N) (l : list (N * packet)) : Prop :=
  match x with
  | PAckDel id => exists g, gp = Some g /\ (aget l g = Some (Puback id) \/ aget l g = Some (Pubcomp id))
  | PRecSave id => exists g, gp = Some g /\ aget l g = Some (Pubrec id)
  | _ => True
  end.
Definition R_resend (x : ppc) (st : store) : Prop :=
  match x with PResend ps => Forall (resend_stored st) ps | _ => True end.
Definition R_die (d : dpc) (gd : option N) (l : list N) : Prop :=
  forall g, In g l -> gd = Some g /\ d = DDieLog KSession.

Record R_lg (s : bc) (t : lg_st) : Prop := MkR {
  R_store : map undup1 (out s) = lg_live (lg_log t);
  R_h : R_hand (dp s) (gdeq s) (lg_hand t);
  R_l : R_last (pp s) (gproc s) (lg_last t);
  R_rs : R_resend (pp s) (out s);
  R_d : R_die (dp s) (gdeq s) (lg_die t);
  R_o : lg_open t = conn_open s }.

Lemma R_tick s t : R_lg s t -> R_lg s (lg_tick t).
Proof. intros [H1 H3 H4 H5 H6 H7]. constructor; assumption. Qed.

(* everything in the store can be re-sent *)
Lemma resend_stored_all st l : map undup1 st = lg_live l -> NoDup (keys st) -> Forall (resend_stored st) (store_all st).
Proof.
  intros Hst Hnd. unfold store_all. apply Forall_forall. intros p Hp. apply in_map_iff in Hp as ([i q] & <- & Hin).
  cbn [snd]. exists i, q. split; [|split; [apply in_lookup; assumption|reflexivity]].
  assert (Hin' : In (i, undup q) (lg_live l)).
  { rewrite <- Hst. change (i, undup q) with (undup1 (i, q)). apply in_map. exact Hin. }
  apply lg_live_in in Hin' as [Hid _]. rewrite get_id_undup in Hid. exact Hid.
Qed.

(* re-sending a stored packet flags the stored object and changes nothing else *)
Lemma resend_keeps st p : resend_stored st p -> map undup1 (store_save st (set_dup p)) = map undup1 st.
Proof.
  intros (id & p' & Hid & Hl & Hu). rewrite map_undup1_save, undup_set_dup. unfold store_save.
  rewrite get_id_undup, Hid. apply store_put_same. rewrite lookup_undup1, Hl. cbn [option_map]. rewrite Hu. reflexivity.
Qed.

Lemma resend_stored_after st p q : resend_stored st p -> resend_stored st q -> resend_stored (store_save st (set_dup p)) q.
Proof.
  intros (i & p' & Hi & Hl & Hu) (j & q' & Hj & Hlq & Huq). unfold store_save. rewrite get_id_set_dup, Hi.
  exists j. rewrite lookup_put. destruct (N.eqb_spec j i) as [->|Hne].
  - exists (set_dup p). split; [exact Hj|split; [reflexivity|]]. rewrite undup_set_dup.
    rewrite Hl in Hlq. injection Hlq as <-. rewrite <- Hu. exact Huq.
  - exists q'. split; [exact Hj|split; assumption].
Qed.

Lemma R_die_sub d gd l l' : (forall g, In g l' -> In g l) -> R_die d gd l -> R_die d gd l'.
Proof. intros Hs H g Hg. apply H, Hs, Hg. Qed.

(* a dequeuer that is not about to report a session error owes nothing *)
Lemma R_die_nil d gd l : R_die d gd l -> d <> DDieLog KSession -> l = [].
Proof. intros H Hd. destruct l as [|g l]; [reflexivity|]. exfalso. apply Hd. apply (H g). left. reflexivity. Qed.

Lemma R_die_other d d' gd l : R_die d gd l -> d <> DDieLog KSession -> R_die d' gd l.
Proof. intros H Hd. rewrite (R_die_nil _ _ _ H Hd). intros g []. Qed.

Lemma proc_open s e s' : step_proc s e = Some s' -> conn_open s' = conn_open s.
Proof. intros H. unfold conn_open. rewrite (proj1 (step_proc_tok _ _ _ H)). reflexivity. Qed.

Lemma lg_act_dull b t e : dull e = true -> (forall g k, e <> EDie g k) -> ev_g e <> None -> lg_act b t e = Some t.
Proof.
  intros H Hnd Hg. destruct e; cbn [dull] in H; try discriminate H; try reflexivity; try (contradiction Hg; reflexivity).
  - destruct r; [reflexivity|discriminate H].
  - destruct r; try reflexivity; discriminate H.
  - destruct d; [reflexivity|discriminate H].
  - destruct d; [reflexivity|discriminate H].
  - exfalso. eapply Hnd. reflexivity.
Qed.

(* --------------------------------------------------------------- processor *)

Lemma lg_proc s t e s' g : INV s -> R_lg s t -> ev_g e = Some g -> gproc s = Some g -> step_proc s e = Some s' ->
  exists t', lg_act false t e = Some t' /\ R_lg s' t'.
Proof.
  intros HI HR Hg Hr H. pose proof HR as [H1 H3 H4 H5 H6 H7].
  pose proof (proc_open _ _ _ H) as Eo. destruct (step_proc_dp _ _ _ H) as [Eg Ed].
  (* the dequeuer's half of the relation and the open flag survive whatever the processor does *)
  assert (K : forall t', lg_hand t' = lg_hand t -> (forall x, In x (lg_die t') -> In x (lg_die t)) -> lg_open t' = lg_open t ->
            map undup1 (out s') = lg_live (lg_log t') -> R_last (pp s') (gproc s') (lg_last t') -> R_resend (pp s') (out s') -> R_lg s' t').
  { intros t' Eh Hd Eo' Hst Hl Hrs. constructor; try assumption; rewrite ?Eh, ?Eg, ?Eo', ?Eo; try assumption.
    - destruct Ed as [->|[Hp ->]]; [exact H3|]. destruct (I_pre _ HI) as [Hoff _]; [rewrite Hp; reflexivity|]. rewrite Hoff in H3. exact H3.
    - destruct Ed as [->|[Hp ->]]; [eapply R_die_sub; eassumption|].
      destruct (I_pre _ HI) as [Hoff _]; [rewrite Hp; reflexivity|]. eapply R_die_other; [eapply R_die_sub; eassumption|rewrite Hoff; discriminate]. }
  (* nor does the ledger move when the store stays and the processor reaches no control point it reads *)
  assert (K0 : lg_act false t e = Some t -> out s' = out s -> R_last (pp s') (gproc s') (lg_last t) -> R_resend (pp s') (out s) ->
               exists t', lg_act false t e = Some t' /\ R_lg s' t').
  { intros Et Eout Hl Hrs. exists t. split; [exact Et|]. apply K; [reflexivity|exact (fun _ x => x)|reflexivity|rewrite Eout; exact H1|exact Hl|rewrite Eout; exact Hrs]. }
  destruct (step_proc_inv _ _ _ H); subst; rewrite ?Hpp in *; cbn [ev_g] in Hg; try injection Hg as ->.
  - (* the first packet is recorded as received *)
    eexists. split; [reflexivity|]. apply K; [reflexivity|exact (fun _ x => x)|reflexivity|exact H1|destruct p; exact I|destruct p; exact I].
  - apply K0; [reflexivity|destruct r; reflexivity|destruct r; exact I|destruct r; exact I].
  - apply K0; [reflexivity|reflexivity|exact I|exact I].
  - (* Setup: a clean session empties store and ledger *)
    eexists. split; [reflexivity|]. unfold setup_st. destruct fresh; (apply K; [reflexivity|exact (fun _ x => x)|reflexivity| |exact I|exact I]); [reflexivity|exact H1].
  - apply K0; [reflexivity|reflexivity|destruct ok; exact I|destruct ok; exact I].
  - (* All: the listing is the ledger's *)
    cbn [lg_act]. unfold lg_listing. rewrite <- H1, all_undup1, (list_eqb_refl _ packet_eqb_refl).
    eexists. split; [reflexivity|]. pose proof (resend_stored_all _ _ H1 (I_nodup _ HI)) as Hall. unfold out in *.
    apply K; [reflexivity|exact (fun _ x => x)|reflexivity|exact H1| |]; bcs; unfold resend_next; destruct (store_all (s_out (sess s))); first [exact I|exact Hall].
  - apply K0; [reflexivity|reflexivity|exact I|exact I].
  - (* Resend: the stored packet is flagged, the ledger does not see it *)
    cbn [R_resend] in H5. inversion H5 as [|? ? Hp Hl]; subst. unfold out in *.
    exists t. split; [reflexivity|]. apply K; [reflexivity|exact (fun _ x => x)|reflexivity| | |]; bcs.
    + rewrite (resend_keeps _ _ Hp). exact H1.
    + destruct ok; [unfold resend_next; destruct rest|]; exact I.
    + destruct ok; [|exact I]. unfold resend_next. destruct rest; [exact I|]. cbn [R_resend].
      eapply Forall_impl; [|exact Hl]. intros q. apply resend_stored_after, Hp.
  - apply K0; [reflexivity|destruct ok; reflexivity|destruct ok; exact I|destruct ok; exact I].
  - (* a packet received in the main loop is recorded: it may justify a delete or a PUBREL *)
    eexists. split; [reflexivity|]. assert (Eg0 : gproc s0 = Some g /\ out s0 = out s) by (destruct H0 as [->| ->]; split; [exact Hr|reflexivity|exact Hr|reflexivity]).
    destruct Eg0 as [Eg0 Eo0]. apply K; [reflexivity|exact (fun _ x => x)|reflexivity| | |]; unfold out in *; bcs; cbn [lg_log lg_last];
      [rewrite Eo0; exact H1| |destruct p; cbn [rx_pc] in Hx; try rewrite Hx; try exact I; destruct x; try exact I; discriminate Hx].
    rewrite Eg0. destruct p; cbn [rx_pc] in Hx; try rewrite Hx; try (destruct x; try exact I; discriminate Hx).
    + exists g. split; [reflexivity|left; apply aget_aput_eq].
    + exists g. split; [reflexivity|apply aget_aput_eq].
    + exists g. split; [reflexivity|right; apply aget_aput_eq].
  - (* AckDel: justified by the packet received last; the entry is done *)
    destruct H4 as (g' & G & A). rewrite Hr in G. injection G as <-.
    cbn [lg_act]. assert (E : forall X Y : option lg_st, match aget (lg_last t) g with Some (Puback id') | Some (Pubcomp id') => if id =? id' then X else Y | _ => Y end = X)
      by (intros X Y; destruct A as [A|A]; rewrite A, N.eqb_refl; reflexivity).
    rewrite E. eexists. split; [reflexivity|]. destruct ok; (apply K; [reflexivity|exact (fun _ x => x)|reflexivity| |exact I|exact I]); unfold out in *; bcs; cbn [lg_commit lg_log]; try exact H1.
    rewrite lg_live_filter, map_undup1_delete, lg_live_del, H1. reflexivity.
  - (* RecSave: the PUBREL replaces the entry's PUBLISH *)
    destruct H4 as (g' & G & A). rewrite Hr in G. injection G as <-.
    cbn [lg_act]. rewrite A, N.eqb_refl. eexists. split; [reflexivity|]. destruct ok; (apply K; [reflexivity|exact (fun _ x => x)|reflexivity| |exact I|exact I]); unfold out in *; bcs; cbn [lg_commit lg_log]; try exact H1.
    rewrite lg_live_filter, map_undup1_save, lg_live_rel, H1. reflexivity.
  - apply K0; [reflexivity|reflexivity|destruct ok; exact I|destruct ok; exact I].
  - apply K0; [destruct (pp s), p; try contradiction; reflexivity|reflexivity|destruct ok; exact I|destruct ok; exact I].
  - (* the processor's own session error *)
    destruct k; try (apply K0; [reflexivity|reflexivity|exact I|exact I]).
    eexists. split; [reflexivity|]. apply K; [reflexivity| |reflexivity|exact H1|exact I|exact I].
    cbn [lg_die]. intros x Hx. apply filter_In in Hx as [Hx _]. exact Hx.
  - destruct Hc. apply K0; [apply lg_act_dull; [exact He|exact Hnd|rewrite Hg; discriminate]|unfold out; congruence| |];
      destruct (pp s'); try exact I; discriminate Hx.
Qed.

(* ---------------------------------------------------------------- dequeuer *)

Lemma lg_deq s t e s' g : INV s -> R_lg s t -> ev_g e = Some g -> gdeq s = Some g -> step_deq s e = Some s' ->
  exists t', lg_act false t e = Some t' /\ R_lg s' t'.
Proof.
  intros HI HR Hg Hr H. pose proof HR as [H1 H3 H4 H5 H6 H7]. pose proof (deq_not_pre _ _ _ HI H) as Hnp.
  destruct (step_deq_proc_view _ _ _ H (I_shape _ HI)) as (Ep & Egp & Egd).
  assert (Eo : conn_open s' = conn_open s) by (unfold conn_open; rewrite (proj1 (step_deq_tok _ _ _ (I_shape _ HI) H)); reflexivity).
  (* the processor's half of the relation and the open flag survive whatever the dequeuer does *)
  assert (K : forall t', lg_last t' = lg_last t -> lg_open t' = lg_open t -> map undup1 (out s') = lg_live (lg_log t') ->
            R_hand (dp s') (gdeq s) (lg_hand t') -> R_die (dp s') (gdeq s) (lg_die t') -> R_lg s' t').
  { intros t' El Eo' Hst Hh Hd. constructor; rewrite ?El, ?Ep, ?Egp, ?Egd, ?Eo', ?Eo; try assumption.
    destruct (pp s); try exact I; discriminate Hnp. }
  (* the dequeuer moves between control points at which it holds no message and owes no error *)
  assert (K0 : lg_act false t e = Some t -> out s' = out s -> lg_hand t = [] -> R_hand (dp s') (gdeq s) [] -> dp s <> DDieLog KSession ->
               exists t', lg_act false t e = Some t' /\ R_lg s' t').
  { intros Et Eout Eh Hh Hd. exists t. split; [exact Et|]. apply K; [reflexivity|reflexivity|rewrite Eout; exact H1|rewrite Eh; exact Hh|eapply R_die_other; eassumption]. }
  destruct (step_deq_inv _ _ _ (I_shape _ HI) H); subst; rewrite Hdp in *; cbn [ev_g] in Hg; injection Hg as ->; cbn [R_hand] in H3.
  - apply K0; [reflexivity|reflexivity|exact H3|reflexivity|discriminate].
  - apply K0; [reflexivity|reflexivity|exact H3|reflexivity|discriminate].
  - (* DeqRet: a QoS 1/2 message is in g's hand *)
    destruct r as [| |m ba]; try (apply K0; [reflexivity|reflexivity|exact H3|reflexivity|discriminate]).
    destruct (m_qos m =? 0) eqn:Eq; cbn [lg_act deq_ret_pc] in *; rewrite ?Eq in *.
    + exists t. split; [reflexivity|]. apply K; [reflexivity|reflexivity|exact H1|bcs; rewrite H3; destruct ba; reflexivity|eapply R_die_other; [eassumption|discriminate]].
    + rewrite H3. cbn [aget]. eexists. split; [reflexivity|]. apply K; [reflexivity|reflexivity|exact H1| |eapply R_die_other; [eassumption|discriminate]].
      bcs. cbn [lg_with_hand lg_hand R_hand].
      exists g, (lg_n t). split; [exact Hr|reflexivity].
  - (* NextId *)
    destruct H3 as (g' & a & G & Hh). rewrite Hr in G. injection G as <-.
    cbn [lg_act]. rewrite Hh, aget_cons_eq, aput_single. cbn [lh_at lh_msg].
    eexists. split; [reflexivity|]. apply K; [reflexivity|reflexivity|exact H1| |eapply R_die_other; [eassumption|discriminate]].
    bcs. cbn [lg_with_hand lg_hand R_hand].
    exists g, a, m, id. repeat split. exact Hr.
  - (* Save: the entry is recorded; or the save failed, the entry is marked and g owes a session error *)
    destruct H3 as (g' & a & m' & id' & G & E & Hh). injection E as <- <-. rewrite Hr in G. injection G as <-.
    cbn [lg_act]. rewrite Hh, aget_cons_eq, adel_single. cbn [lh_at lh_msg lh_id negb andb option_eqb].
    rewrite message_eqb_refl, N.eqb_refl. cbn [andb].
    destruct ok; (eexists; split; [reflexivity|]); (apply K; [reflexivity|reflexivity| | |]); unfold out in *; bcs; cbn [lg_commit lg_with_hand lg_log lg_hand lg_die].
    + rewrite lg_live_filter, map_undup1_save, lg_live_put, H1. reflexivity.
    + destruct ba; reflexivity.
    + eapply R_die_other; [eassumption|discriminate].
    + exact H1.
    + reflexivity.
    + intros g0 [<-|Hg0]; [split; [exact Hr|reflexivity]|]. destruct (H6 g0 Hg0) as [_ Hx]. discriminate Hx.
  - apply K0; [reflexivity|reflexivity|exact H3|reflexivity|discriminate].
  - apply K0; [reflexivity|destruct ok; [destruct (m_qos m =? 0)|]; reflexivity|exact H3|destruct ok; reflexivity|discriminate].
  - (* the session error is reported *)
    assert (Et : exists l, lg_act false t (EDie g k) = Some (LG (lg_n t) (lg_open t) (lg_hand t) (lg_log t) (lg_arch t) (lg_last t) l) /\
                           forall x, In x l -> x <> g /\ In x (lg_die t)).
    { destruct k; try (exists (lg_die t); split; [destruct t; reflexivity|]; intros x Hx; split; [|exact Hx];
        intros ->; destruct (H6 g Hx) as [_ C]; discriminate C).
      eexists. split; [reflexivity|]. intros x Hx. apply filter_In in Hx as [Hx Hne]. split; [|exact Hx].
      intros ->. rewrite N.eqb_refl in Hne. discriminate Hne. }
    destruct Et as (l & Et & Hl). eexists. split; [exact Et|]. apply K; [reflexivity|reflexivity|exact H1|bcs; cbn [lg_hand]; rewrite H3; reflexivity|]. bcs. cbn [lg_die].
    intros x Hx. destruct (Hl x Hx) as [Hne Hin]. destruct (H6 x Hin) as [Gx _]. rewrite Hr in Gx. injection Gx as <-. contradiction.
  - apply K0; [reflexivity|reflexivity|exact H3|reflexivity|discriminate].
Qed.

(* ------------------------------------------------------------------ frames *)

Lemma R_lg_same s s' t : same_pd s s' -> conn_open s' = conn_open s -> R_lg s t -> R_lg s' t.
Proof.
  intros [E1 E2 E3 E4 _ _ E5 _ _] Eo [H1 H3 H4 H5 H6 H7].
  constructor; unfold out in *; rewrite ?E1, ?E2, ?E3, ?E4, ?E5, ?Eo; assumption.
Qed.

Lemma R_move s s' t t' : same_pd s s' -> R_lg s t ->
  lg_hand t' = lg_hand t -> lg_log t' = lg_log t -> lg_last t' = lg_last t -> lg_die t' = lg_die t ->
  lg_open t' = conn_open s' -> R_lg s' t'.
Proof.
  intros [E1 E2 E3 E4 _ _ E5 _ _] [H1 H3 H4 H5 H6 H7] F1 F2 F3 F4 Eo.
  constructor; unfold out in *; rewrite ?E1, ?E2, ?E3, ?E4, ?E5, ?F1, ?F2, ?F3, ?F4; assumption.
Qed.

Lemma R_with_die s t l : R_lg s t -> R_die (dp s) (gdeq s) l ->
  R_lg s (LG (lg_n t) (lg_open t) (lg_hand t) (lg_log t) (lg_arch t) (lg_last t) l).
Proof. intros [H1 H3 H4 H5 H6 H7] Hd. constructor; assumption. Qed.

Lemma hand_stopped s h : deq_can_stop s = true -> R_hand (dp s) (gdeq s) h -> h = [].
Proof. unfold deq_can_stop, R_hand. destruct (dp s); intros Hc HR; try discriminate Hc; exact HR. Qed.

Lemma die_stopped s l : deq_can_stop s = true -> R_die (dp s) (gdeq s) l -> l = [].
Proof.
  intros Hc HR. eapply R_die_nil; [exact HR|]. unfold deq_can_stop in Hc. intros E. rewrite E in Hc. discriminate Hc.
Qed.

Lemma frozen_deq_stop s s' : frozen s s' -> deq_can_stop s = true.
Proof.
  intros Hf. pose proof (fz_stop _ _ Hf) as Hst. unfold all_stopped in Hst.
  apply andb_prop in Hst as [Hst _]. apply andb_prop in Hst as [_ Hd]. exact Hd.
Qed.

Lemma R_lg_frozen s s' t t' : frozen s s' -> R_lg s t ->
  lg_hand t' = lg_hand t -> lg_log t' = lg_log t -> lg_last t' = lg_last t -> lg_die t' = lg_die t ->
  lg_open t' = conn_open s' -> R_lg s' t'.
Proof.
  intros Hf [H1 H3 H4 H5 H6 H7] E1 E2 E3 E4 Eo. pose proof (frozen_deq_stop _ _ Hf) as Hd.
  pose proof (hand_stopped _ _ Hd H3) as Eh. pose proof (die_stopped _ _ Hd H6) as Ed.
  constructor; unfold out in *; rewrite ?E1, ?E2, ?E3, ?E4,
    ?(fz_sess _ _ Hf), ?(fz_pp _ _ Hf), ?(fz_dp _ _ Hf), ?(fz_gproc _ _ Hf), ?(fz_gdeq _ _ Hf);
    try assumption; try exact I.
  - rewrite Eh. destruct (dp s); reflexivity.
  - rewrite Ed. intros g [].
Qed.

Lemma R_lg_learned s s1 t : learned s s1 -> R_lg s t -> R_lg s1 t.
Proof.
  intros Hl HR. destruct Hl as (p & d & a & c & -> & Kp & Kd & _). destruct HR as [H1 H3 H4 H5 H6 H7].
  constructor; try assumption; cbn [pp dp gproc gdeq set_roles].
  - unfold R_hand in *. destruct (dp s); try exact H3.
    + destruct H3 as (g & a0 & G & E). exists g, a0. split; [apply Kd; exact G|exact E].
    + destruct H3 as (g & a0 & m & id & G & E). exists g, a0, m, id. split; [apply Kd; exact G|exact E].
  - unfold R_last in *. destruct (pp s); try exact H4;
      destruct H4 as (g & G & A); exists g; (split; [apply Kp; exact G|exact A]).
  - intros g Hg. destruct (H6 g Hg) as [G E]. split; [apply Kd; exact G|exact E].
Qed.

Lemma cleanup_open s e s' : step_cleanup s e = Some s' -> e <> EClosed -> conn_open s' = true.
Proof.
  intros H Hne. unfold step_cleanup, guard in H. inv_step H; injection H as <-; try (exfalso; apply Hne; reflexivity);
    unfold conn_open; bcsimpl; try reflexivity;
    repeat match goal with |- context[if ?b then _ else _] => destruct b end; reflexivity.
Qed.

Lemma cleanup_closed s s' : step_cleanup s EClosed = Some s' -> conn_open s' = false.
Proof. intros H. unfold step_cleanup, guard in H. inv_step H; injection H as <-; reflexivity. Qed.

(* quiet events *)
Lemma lg_act_clo t e : clo_event e = true ->
  exists l, lg_act false t e = Some (LG (lg_n t) (lg_open t) (lg_hand t) (lg_log t) (lg_arch t) (lg_last t) l) /\
            (forall g, In g l -> In g (lg_die t)).
Proof.
  destruct t as [n o h lo ar la di]. destruct e; try discriminate; cbn [lg_act lg_n lg_open lg_hand lg_log lg_arch lg_last lg_die].
  - eexists; split; [reflexivity|exact (fun _ x => x)].
  - eexists; split; [reflexivity|exact (fun _ x => x)].
  - eexists; split; [reflexivity|exact (fun _ x => x)].
  - destruct d; [|discriminate]. eexists; split; [reflexivity|exact (fun _ x => x)].
  - destruct k; try discriminate. eexists; split; [reflexivity|]. intros g0 Hg0. apply filter_In in Hg0 as [Hg0 _]. exact Hg0.
Qed.

Lemma lg_act_cl t e : cleanup_event e = true -> e <> EClosed -> lg_act false t e = Some t.
Proof.
  intros He Hne. destruct e; try discriminate He; try reflexivity; try contradiction.
  destruct k; try discriminate He; reflexivity.
Qed.

(* -------------------------------------------------------------------- step *)

Lemma lg_act_ok s t e s' : INV2 s -> R_lg s t -> step s e = Some s' ->
  exists t', lg_act false t e = Some t' /\ R_lg s' t'.
Proof.
  (* not by sweep_pd: the ledger reads dull events *)
  intros [HI HW] HR H. apply step_inv in H.
  destruct H as [He Ho ->|He Ho ->|He Hq ->|Hc|g s1 Hg Hl Hr Ho Hp|g s1 Hg Hl Hr Ho Hnp Hd
                |g s1 Hg Hl Hr Ho Hnp Hnd Ha|g s1 Hg Hl Hr Ho Hc|He Hc|g He Ho ->].
  - (* ENewConn: nothing is in anybody's hand *)
    subst e. assert (Eh : lg_hand t = []).
    { destruct (W_gone _ HW) as [_ Hd].
      - intros E. unfold conn_open in Ho. rewrite E in Ho. discriminate Ho.
      - pose proof (R_h _ _ HR) as Hh. destruct Hd as [Hd|Hd]; rewrite Hd in Hh; exact Hh. }
    cbn [lg_act]. rewrite Eh. eexists; split; [reflexivity|].
    destruct HR as [H1 H3 H4 H5 H6 H7]. constructor; unfold conn_open, out in *; bcs; cbn [lg_log lg_hand lg_last lg_die lg_open]; try assumption; try exact I; try reflexivity.
    intros g [].
  - subst e. exists t. split; [reflexivity|exact HR].
  - (* EQuiescent: the dequeuer is inside Dequeue *)
    subst e. assert (Ed : dp s = DWait).
    { unfold quiescent in Hq. repeat (apply andb_prop in Hq as [Hq ?]). destruct (dp s); try discriminate. reflexivity. }
    assert (Ei : lg_idle t = true).
    { unfold lg_idle. pose proof (R_h _ _ HR) as Hh. rewrite Ed in Hh. cbn [R_hand] in Hh. rewrite Hh.
      rewrite (R_die_nil _ _ _ (R_d _ _ HR)); [reflexivity|]. rewrite Ed. discriminate. }
    cbn [lg_act]. rewrite Ei. exists t. split; [reflexivity|exact HR].
  - (* a closure *)
    apply step_clo_sum in Hc as (He & Hs & El & _). destruct (lg_act_clo t e He) as (l & Ea & Hsub).
    eexists; split; [exact Ea|]. apply R_with_die.
    + eapply R_lg_same; [exact Hs|unfold conn_open; rewrite El; reflexivity|exact HR].
    + rewrite (sp_dp _ _ Hs), (sp_gdeq _ _ Hs). eapply R_die_sub; [exact Hsub|apply (R_d _ _ HR)].
  - (* the processor *)
    destruct (lg_proc s1 t e s' g (INV_learned _ _ Hl HI) (R_lg_learned _ _ _ Hl HR) Hg Hr Hp) as (t' & Ht & HR').
    exists t'. split; assumption.
  - (* the dequeuer *)
    destruct (lg_deq s1 t e s' g (INV_learned _ _ Hl HI) (R_lg_learned _ _ _ Hl HR) Hg Hr Hd) as (t' & Ht & HR').
    exists t'. split; assumption.
  - (* the acker *)
    pose proof (step_ack_sum _ _ _ Ha) as (Hs & El & He).
    exists t. split; [destruct He as [(? & ? & ? & ? & -> & _)|[(? & [->| ->]) _]]; reflexivity|].
    eapply R_lg_same; [exact Hs|unfold conn_open; rewrite El; reflexivity|exact (R_lg_learned _ _ _ Hl HR)].
  - (* cleanup with a goroutine: never EClosed *)
    pose proof (R_lg_learned _ _ _ Hl HR) as HR1.
    assert (Hne : e <> EClosed) by (intros ->; discriminate Hg).
    assert (Eo1 : conn_open s1 = true).
    { destruct Hl as (p & d & a & c & -> & _). exact Ho. }
    pose proof (cleanup_open _ _ _ Hc Hne) as Eo'.
    apply step_cleanup_sum in Hc as (He & Hc). exists t. split; [apply lg_act_cl; assumption|].
    destruct Hc as [(Hs & _)|Hf].
    + eapply R_lg_same; [exact Hs|congruence|exact HR1].
    + eapply R_lg_frozen; [exact Hf|exact HR1|reflexivity|reflexivity|reflexivity|reflexivity|].
      rewrite (R_o _ _ HR1). congruence.
  - (* EClosed *)
    subst e. pose proof (cleanup_closed _ _ Hc) as Eo'.
    assert (Hstop : lg_hand t = [] /\ lg_die t = []).
    { assert (Hd : deq_can_stop s = true).
      { unfold step_cleanup, guard in Hc. destruct (lp s) eqn:El; try discriminate Hc.
        - destruct (all_stopped s && negb (phase_geq_connected (ph s))) eqn:Ea; [|discriminate Hc].
          apply andb_prop in Ea as [Ea _]. unfold all_stopped in Ea.
          apply andb_prop in Ea as [Ea _]. apply andb_prop in Ea as [_ Ed]. exact Ed.
        - destruct (W_gone _ HW) as [_ Hd]; [rewrite El; discriminate|].
          unfold deq_can_stop. destruct Hd as [Hd|Hd]; rewrite Hd; reflexivity. }
      split; [exact (hand_stopped _ _ Hd (R_h _ _ HR))|exact (die_stopped _ _ Hd (R_d _ _ HR))]. }
    destruct Hstop as [Eh Ed]. cbn [lg_act]. unfold lg_idle. rewrite Eh, Ed.
    eexists; split; [reflexivity|].
    apply step_cleanup_sum in Hc as (_ & [(Hs & _)|Hf]).
    + eapply R_move; [exact Hs|exact HR| | | | |]; cbn [lg_log lg_arch lg_hand lg_last lg_die lg_open]; try reflexivity.
      * symmetry. exact Eh.
      * symmetry. exact Ed.
      * symmetry. exact Eo'.
    + eapply R_lg_frozen; [exact Hf|exact HR| | | | |]; cbn [lg_log lg_arch lg_hand lg_last lg_die lg_open]; try reflexivity.
      * symmetry. exact Eh.
      * symmetry. exact Ed.
      * symmetry. exact Eo'.
  - (* Close() from outside *)
    subst e. exists t. split; [reflexivity|]. apply (R_lg_same s); [constructor; reflexivity|reflexivity|exact HR].
Qed.

Lemma lg_step_ok s t e s' : INV2 s -> R_lg s t -> step s e = Some s' ->
  exists t', lg_step false t e = Some t' /\ R_lg s' t'.
Proof.
  intros HI HR H. destruct (lg_act_ok _ _ _ _ HI HR H) as (t' & Ht & HR').
  exists (lg_tick t'). unfold lg_step. rewrite Ht. split; [reflexivity|apply R_tick; exact HR'].
Qed.

Lemma R_lg_init : R_lg bc_init lg_init.
Proof. constructor; cbn; try reflexivity; try exact I. intros g []. Qed.

Theorem c08_ledger_holds : forall es s, bc_run es = Some s -> c08_ledger es = true.
Proof.
  unfold c08_ledger.
  apply (scan_sound_inv (lg_step false) INV2 R_lg INV2_init INV2_step lg_step_ok). exact R_lg_init.
Qed.

(* the scanner state reached at the end of an accepted trace is related to the model state *)
Theorem ledger_of_run : forall es s, bc_run es = Some s ->
  exists t, ledger_of es = Some t /\ R_lg s t /\ INV2 s.
Proof.
  intros es s Hrun. unfold ledger_of. rewrite srun_run.
  destruct (run_rel_inv (lg_step false) INV2 R_lg INV2_step lg_step_ok es bc_init lg_init s INV2_init R_lg_init Hrun) as (t & Ht & HI & HR).
  exists t. split; [exact Ht|split; [exact HR|exact HI]].
Qed.

Print Assumptions c08_ledger_holds.
