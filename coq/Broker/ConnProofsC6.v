(* ConnProofsC6.v — C08: c08_popped_is_saved and
   c08_pubrel_after_store (Broker/ConnSpec3.v) hold of every accepted trace. *)
From Coq Require Import List NArith Bool Lia ZArith ZifyN ZifyNat ZifyBool.
From GM Require Import Base.Lts Codec.Packet Session.Ids Session.Store Session.StoreProofs
  Broker.Conn Broker.ConnSpec Broker.ConnSpec3 Broker.ConnBase Broker.ConnProofsCDefs Broker.ConnProofsA_lib
  Broker.ConnProofsC0 Broker.ConnProofsC1 Broker.ConnProofsC2 Broker.ConnProofsC3 Broker.ConnProofsC5.
Import ListNotations.
Open Scope N_scope.

(* =================================================== c08_popped_is_saved == *)

(* the scanner holds a pending message exactly while the dequeuer has a QoS>0 message
   in hand that it has not yet passed to SavePacket *)
Definition R_ps (s : bc) (t : list (N * message)) : Prop :=
  match dp s with
  | DNextId m _ => exists g, gdeq s = Some g /\ t = [(g, m)]
  | DSave p _ => exists g m id, gdeq s = Some g /\ p = Publish false m id /\ t = [(g, m)]
  | _ => t = []
  end.

Lemma ps_frame s s' t : dp s' = dp s -> (forall g, gdeq s = Some g -> gdeq s' = Some g) -> R_ps s t -> R_ps s' t.
Proof.
  intros Ed Kd HR. unfold R_ps in *. rewrite Ed. destruct (dp s); try exact HR.
  - destruct HR as (g & G & E). exists g. split; [apply Kd, G|exact E].
  - destruct HR as (g & m & id & G & E). exists g, m, id. split; [apply Kd, G|exact E].
Qed.

Lemma ps_dull t e : dull e = true -> e <> EClosed -> ps_step t e = Some t.
Proof.
  intros H Hne. destruct e; cbn [dull] in H; try discriminate H; try reflexivity; try (exfalso; apply Hne; reflexivity).
  - destruct r; try discriminate H; reflexivity.
  - destruct d; try discriminate H; reflexivity.
Qed.

Lemma ps_stopped s t : deq_can_stop s = true -> R_ps s t -> t = [].
Proof. unfold deq_can_stop, R_ps. destruct (dp s); intros Hc HR; try discriminate Hc; exact HR. Qed.

(* the processor's events are not the dequeuer's; before Restore the dequeuer holds nothing *)
Lemma ps_proc s t e s' : INV s -> R_ps s t -> step_proc s e = Some s' ->
  exists t', ps_step t e = Some t' /\ R_ps s' t'.
Proof.
  intros HI HR H. exists t. split.
  - destruct (step_proc_inv _ _ _ H); subst; try reflexivity. apply ps_dull; [exact He|].
    intros ->. destruct Hpp as [Hl|[Hf|(c & Hs)]]; unfold step_proc in H; destruct (pp s); try discriminate; discriminate H.
  - destruct (step_proc_dp _ _ _ H) as [Eg [Ed|[Hp Ed]]].
    + apply (ps_frame s); [exact Ed|intros g G; rewrite Eg; exact G|exact HR].
    + destruct (I_pre _ HI) as [Hd _]; [rewrite Hp; reflexivity|]. unfold R_ps in *. rewrite Ed. rewrite Hd in HR. exact HR.
Qed.

Lemma ps_deq s t e s' g : INV s -> R_ps s t -> ev_g e = Some g -> gdeq s = Some g -> step_deq s e = Some s' ->
  exists t', ps_step t e = Some t' /\ R_ps s' t'.
Proof.
  intros HI HR Hg Hr H. unfold R_ps in *.
  destruct (step_deq_inv _ _ _ (I_shape _ HI) H); subst; rewrite Hdp in HR; cbn [ev_g] in Hg; injection Hg as ->;
    try (exists t; split; [reflexivity|exact HR]).
  - (* DeqRet: a QoS>0 message is pending *)
    destruct r as [| |m ba]; try (exists t; split; [reflexivity|exact HR]). subst t. cbn [ps_step deq_ret_pc].
    destruct (m_qos m =? 0); (eexists; split; [reflexivity|]); bcs; [destruct ba; reflexivity|].
    exists g. split; [exact Hr|reflexivity].
  - exists t. split; [reflexivity|]. bcs. destruct HR as (g' & G & ->). exists g', m, id. repeat split. exact G.
  - (* Save: the message is handed to the session *)
    destruct HR as (g' & m' & id' & G & E & ->). injection E as <- <-. rewrite Hr in G. injection G as <-.
    cbn [ps_step]. rewrite aget_cons_eq, message_eqb_refl, adel_single.
    eexists. split; [reflexivity|]. destruct ok; [destruct ba|]; reflexivity.
  - exists t. split; [reflexivity|]. destruct ok; [destruct (m_qos m =? 0)|]; exact HR.
Qed.

Lemma ps_step_ok s t e s' : INV2 s -> R_ps s t -> step s e = Some s' ->
  exists t', ps_step t e = Some t' /\ R_ps s' t'.
Proof.
  apply (sweep_pd1 ps_step INV2 R_ps (fun _ H => proj1 H) INV2_learned).
  - intros s0 s1 t0 Hs. apply ps_frame; [apply (sp_dp _ _ Hs)|]. intros g G. rewrite (sp_gdeq _ _ Hs). exact G.
  - intros s0 s1 t0 _ Hl. destruct Hl as (p & d & a & c & -> & _ & Kd & _). apply ps_frame; [reflexivity|exact Kd].
  - intros s0 s1 t0 _ Hf HR. pose proof (fz_stop _ _ Hf) as Hst. unfold all_stopped in Hst.
    apply andb_prop in Hst as [Hst _]. apply andb_prop in Hst as [_ Hd]. rewrite (ps_stopped _ _ Hd HR).
    unfold R_ps. rewrite (fz_dp _ _ Hf). destruct (dp s0); reflexivity.
  - (* EClosed: the dequeuer has stopped, nothing is pending *)
    intros s0 t0 e0 s1 [HI HW] HR H Hd. destruct e0; try (apply ps_dull; [exact Hd|discriminate]).
    assert (Ht : t0 = []); [|subst t0; reflexivity].
    cbn [step] in H. unfold step_cleanup, guard in H. destruct (lp s0) eqn:El; try discriminate H.
    + destruct (all_stopped s0 && negb (phase_geq_connected (ph s0))) eqn:Ea; [|discriminate H].
      apply andb_prop in Ea as [Ea _]. unfold all_stopped in Ea.
      apply andb_prop in Ea as [Ea _]. apply andb_prop in Ea as [_ Ed]. exact (ps_stopped _ _ Ed HR).
    + destruct (W_gone _ HW) as [_ Hx]; [rewrite El; discriminate|].
      unfold R_ps in HR. destruct Hx as [Hx|Hx]; rewrite Hx in HR; exact HR.
  - intros s0 t0 g p ok _ _ _ _. destruct p; reflexivity.
  - intros s0 t0 _ _. exists []. split; [reflexivity|reflexivity].
  - intros s0 t0 e0 s1 g [HI _] HR _ _. apply ps_proc; assumption.
  - intros s0 t0 e0 s1 g [HI _] HR Hg Hr _. apply (ps_deq s0 t0 e0 s1 g); assumption.
Qed.

Theorem c08_popped_is_saved_holds : forall es s, bc_run es = Some s -> c08_popped_is_saved es = true.
Proof.
  apply (scan_sound_inv ps_step INV2 R_ps INV2_init INV2_step ps_step_ok).
  unfold R_ps. cbn. reflexivity.
Qed.

(* ================================================ c08_pubrel_after_store == *)

(* the scanner's entry for the processor mirrors PUBREC handling; before the main loop
   the processor has no entry (its last received packet is CONNECT) *)
Definition R_pl (s : bc) (t : list (N * (N * bool))) : Prop :=
  match pp s with
  | PRecSave id => exists g, gproc s = Some g /\ aget t g = Some (id, false)
  | PRelTx id => exists g, gproc s = Some g /\ aget t g = Some (id, true)
  | PAuth _ | PDeny | PSetup _ | PConnack _ _ | PAll | PResend _ | PRestore =>
      exists g, gproc s = Some g /\ aget t g = None
  | _ => True
  end.

Lemma pl_step_tx_none t g p a ok : aget t g = None -> pl_step t (ETx g p a ok) = Some t.
Proof. intros H. destruct p; cbn [pl_step]; try reflexivity. rewrite H. reflexivity. Qed.

Lemma pl_dull t e : dull e = true -> pl_step t e = Some t.
Proof. intros H. by_dull e H. Qed.

Lemma pl_frame s s' t : pp s' = pp s -> (forall g, gproc s = Some g -> gproc s' = Some g) -> R_pl s t -> R_pl s' t.
Proof.
  intros Ep Kp. unfold R_pl. rewrite Ep. destruct (pp s); try exact (fun x => x);
    intros (g & G & A); exists g; (split; [apply Kp, G|exact A]).
Qed.

(* events of other goroutines leave the processor's entry alone *)
Lemma pl_other s t t' : (forall g, gproc s = Some g -> aget t' g = aget t g) -> R_pl s t -> R_pl s t'.
Proof.
  intros Ht. unfold R_pl. destruct (pp s); try exact (fun x => x);
    intros (g & G & A); exists g; (split; [exact G|rewrite (Ht g G); exact A]).
Qed.

Lemma pl_proc s t e s' g : R_pl s t -> ev_g e = Some g -> gproc s = Some g -> step_proc s e = Some s' ->
  exists t', pl_step t e = Some t' /\ R_pl s' t'.
Proof.
  intros HR Hg Hr H. pose proof HR as HR'. unfold R_pl in HR'.
  (* before the main loop the processor has no entry, and gets none *)
  assert (Kn : forall s0 x, gproc s0 = gproc s -> aget t g = None -> pl_step t e = Some t ->
            match x with PRecSave _ | PRelTx _ => False | _ => True end -> exists t', pl_step t e = Some t' /\ R_pl (set_pp s0 x) t').
  { intros s0 x Eg A Et Hx. exists t. split; [exact Et|]. unfold R_pl. bcs. rewrite Eg.
    destruct x; try exact I; try contradiction; exists g; split; assumption. }
  assert (Kg : forall id b, (exists g', gproc s = Some g' /\ aget t g' = Some (id, b)) -> aget t g = Some (id, b)).
  { intros id b (g' & G & A). rewrite Hr in G. injection G as <-. exact A. }
  assert (Kg0 : (exists g', gproc s = Some g' /\ aget t g' = None) -> aget t g = None).
  { intros (g' & G & A). rewrite Hr in G. injection G as <-. exact A. }
  destruct (step_proc_inv _ _ _ H); subst; rewrite ?Hpp in HR'; cbn [ev_g] in Hg; try injection Hg as ->.
  - (* the first packet: a CONNECT, whatever was there is dropped *)
    destruct p; (eexists; split; [reflexivity|]); unfold R_pl; bcs; try exact I.
    exists g. split; [exact Hr|]. apply aget_adel_eq.
  - destruct r; apply Kn; first [reflexivity|apply Kg0, HR'|exact I].
  - apply Kn; [reflexivity|apply Kg0, HR'|apply pl_step_tx_none, Kg0, HR'|exact I].
  - exists t. split; [reflexivity|]. unfold R_pl, setup_st. destruct fresh; bcs; exact HR'.
  - apply Kn; [reflexivity|apply Kg0, HR'|apply pl_step_tx_none, Kg0, HR'|destruct ok; exact I].
  - apply Kn; [reflexivity|apply Kg0, HR'|reflexivity|unfold resend_next; destruct (store_all (s_out (sess s))); exact I].
  - apply Kn; [reflexivity|apply Kg0, HR'|reflexivity|exact I].
  - (* Resend: a PUBREL is re-sent without an entry *)
    exists t. split; [apply pl_step_tx_none, Kg0, HR'|]. unfold R_pl. bcs.
    destruct ok; [unfold resend_next; destruct rest|]; try exact I; exists g; (split; [exact Hr|apply Kg0, HR']).
  - exists t. split; [reflexivity|]. destruct ok; exact I.
  - (* a packet received in the main loop: PUBREC is recorded *)
    assert (Eg : gproc s0 = Some g) by (destruct H0 as [->| ->]; exact Hr).
    destruct p; cbn [rx_pc] in Hx; (eexists; split; [reflexivity|]); unfold R_pl; bcs; rewrite Eg;
      try rewrite Hx; try (destruct x; try exact I; discriminate Hx).
    exists g. split; [reflexivity|apply aget_aput_eq].
  - exists t. split; [reflexivity|]. destruct ok; exact I.
  - (* RecSave: the entry is marked stored *)
    pose proof (Kg _ _ HR') as A. cbn [pl_step]. destruct ok; [rewrite A, N.eqb_refl|]; (eexists; split; [reflexivity|]); [|exact I].
    unfold R_pl. bcs. exists g. split; [exact Hr|apply aget_aput_eq].
  - (* RelTx: the PUBREL was stored *)
    pose proof (Kg _ _ HR') as A. exists t. split; [cbn [pl_step]; rewrite A, N.eqb_refl; reflexivity|destruct ok; exact I].
  - exists t. split; [|destruct ok; exact I]. destruct (pp s), p; try contradiction; reflexivity.
  - exists t. split; [reflexivity|exact I].
  - exists t. split; [apply pl_dull, He|]. unfold R_pl. destruct (pp s'); try exact I; discriminate Hx.
Qed.

(* the dequeuer is another goroutine: the processor's entry stays *)
Lemma pl_deq s t e s' g : INV s -> R_pl s t -> ev_g e = Some g -> gdeq s = Some g -> step_deq s e = Some s' ->
  exists t', pl_step t e = Some t' /\ R_pl s' t'.
Proof.
  intros HI HR Hg Hr H. destruct (step_deq_proc_view _ _ _ H (I_shape _ HI)) as (Ep & Eg & _).
  exists t. split; [|apply (pl_frame s); [exact Ep|intros g' G; rewrite Eg; exact G|exact HR]].
  destruct (step_deq_inv _ _ _ (I_shape _ HI) H); subst; reflexivity.
Qed.

Lemma pl_step_ok s t e s' : INV s -> R_pl s t -> step s e = Some s' ->
  exists t', pl_step t e = Some t' /\ R_pl s' t'.
Proof.
  apply (sweep_pd1 pl_step INV R_pl (fun _ H => H) INV_learned).
  - intros s0 s1 t0 Hs. apply pl_frame; [apply (sp_pp _ _ Hs)|]. intros g G. rewrite (sp_gproc _ _ Hs). exact G.
  - intros s0 s1 t0 _ Hl. destruct Hl as (p & d & a & c & -> & Kp & _). apply pl_frame; [reflexivity|exact Kp].
  - intros s0 s1 t0 _ Hf _. unfold R_pl. rewrite (fz_pp _ _ Hf). exact I.
  - intros s0 t0 e0 _ _ _ _. apply pl_dull.
  - intros s0 t0 g p ok _ _ _ Hk. destruct p; try discriminate Hk; reflexivity.
  - intros s0 t0 _ _. exists []. split; [reflexivity|exact I].
  - intros s0 t0 e0 s1 g _. apply (pl_proc s0 t0 e0 s1 g).
  - intros s0 t0 e0 s1 g HI HR Hg Hr _. apply (pl_deq s0 t0 e0 s1 g); assumption.
Qed.

Theorem c08_pubrel_after_store_holds : forall es s, bc_run es = Some s -> c08_pubrel_after_store es = true.
Proof.
  apply (scan_sound_inv pl_step INV R_pl INV_init INV_step pl_step_ok).
  unfold R_pl. cbn. exact I.
Qed.
