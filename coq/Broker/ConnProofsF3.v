(* ConnProofsF3.v — the strict ledger clause (no record is ever overwritten) is FALSE of the
   model, as of broker/client.go + session.IDCounter: NextID does not skip ids that are still
   recorded.  Accepted counter-example [tr_wrap] (459 000 events):
   window 2; the client never acknowledges the first message (id 1) while 65534 further QoS 1
   messages (ids 2..65535) are delivered and acknowledged; the 65536th allocation returns id 1
   again, SavePacket replaces the stored PUBLISH of the first message; the connection is lost
   and the resumed connection lists and re-sends only the new message: the first one is gone,
   although every local C08 clause (store before send, kept until acked, store replica, ...)
   holds of the trace.  The plain clause c08_ledger records the victim as LOverwritten.
   The 65534 rounds are not evaluated: one round, with its packet id a variable, brings the monitor
   and the ledger back to a state of the same shape (round_run, lg_round), and induction on the
   number of rounds does the rest; only the events before and after the rounds are evaluated. *)
From Coq Require Import List NArith Bool Lia.
From GM Require Import Base.Lts Codec.Packet Session.Ids Session.Store Broker.Conn Broker.ConnSpec Broker.ConnSpec6
  Broker.ConnSpec7 Broker.ConnBase Broker.ConnProofsCDefs Broker.ConnProofsCTraces Broker.ConnProofsC4 Broker.ConnProofsE4
  Broker.ConnProofsF1 Broker.ConnProofsF2.
Import ListNotations.
Open Scope N_scope.

(* one delivered and acknowledged QoS 1 message under packet id [id] *)
Definition wr_round (id : N) : list event :=
  [EDeqCall 3; EDeqRet 3 (QMsg tc_m1b false); ENextId 3 id; ESave 3 Outgoing (Publish false tc_m1b id) true;
   ETx 3 (Publish false tc_m1b id) true true; ERx 2 (Puback id); EDelete 2 Outgoing id true].
Fixpoint wr_rounds (n : nat) (id : N) : list event :=
  match n with O => [] | S n' => wr_round id ++ wr_rounds n' (id + 1) end.

Definition tr_wrap : list event :=
  tc_open 2 2 false [] ++
  [EDeqCall 3; EDeqRet 3 (QMsg tc_m1 false); ENextId 3 1; ESave 3 Outgoing (Publish false tc_m1 1) true;
   ETx 3 (Publish false tc_m1 1) true true] ++                       (* tc_m1 under id 1: never acknowledged *)
  wr_rounds (N.to_nat 65534) 2 ++                                      (* ids 2 .. 65535 *)
  [EDeqCall 3; EDeqRet 3 (QMsg tc_m1b false); ENextId 3 1; ESave 3 Outgoing (Publish false tc_m1b 1) true;
   ETx 3 (Publish false tc_m1b 1) true true;                          (* id 1 again: the record of tc_m1 is replaced *)
   ERxErr 2; EDie 2 KTransport; EConnClose 2; ETerm 4 true; EClosed] ++
  tc_open 5 2 true [Publish false tc_m1b 1].                           (* the resume lists the new message only *)

(* what the ledger says at the end: the only record is the new message under id 1; the entry
   closed last is tc_m1, dequeued by event 8: overwritten *)
Definition wrap_ledger_check : bool :=
  match ledger_of tr_wrap with
  | Some t =>
      match lg_log t, hd (LPhantom 0 false) (lg_arch t) with
      | [LMsg _ m1 (LStored 1)], LMsg a m (LOverwritten 1) => message_eqb m1 tc_m1b && message_eqb m tc_m1 && Nat.eqb a 8
      | _, _ => false
      end
  | None => false
  end.

Lemma accepted_parts pre mid post s1 s2 : bc_run pre = Some s1 -> Lts.run step s1 mid = Some s2 ->
  tc_accepted (pre ++ mid ++ post) = match Lts.run step s2 post with Some _ => true | None => false end.
Proof. intros E1 E2. unfold tc_accepted, bc_run. rewrite (run_parts step _ _ _ _ _ _ E1 E2). reflexivity. Qed.

Lemma ledger_parts pre mid post t1 t2 :
  Lts.run (lg_step false) lg_init pre = Some t1 -> Lts.run (lg_step false) t1 mid = Some t2 ->
  ledger_of (pre ++ mid ++ post) = Lts.run (lg_step false) t2 post.
Proof. unfold ledger_of. rewrite srun_run. apply run_parts. Qed.

Lemma strict_parts pre mid post t1 t2 :
  Lts.run (lg_step true) lg_init pre = Some t1 -> Lts.run (lg_step true) t1 mid = Some t2 ->
  Lts.run (lg_step true) t2 post = None -> c08_ledger_strict (pre ++ mid ++ post) = false.
Proof.
  intros E1 E2 E3. destruct (c08_ledger_strict (pre ++ mid ++ post)) eqn:E; [|reflexivity].
  apply scan_run in E as [t' E]. rewrite (run_parts _ _ _ _ _ _ _ E1 E2), E3 in E. discriminate E.
Qed.

(* tr_wrap in three parts: up to the first message, the 65534 rounds, the wrap and the resume *)
Definition wrap_pre : list event :=
  tc_open 2 2 false [] ++
  [EDeqCall 3; EDeqRet 3 (QMsg tc_m1 false); ENextId 3 1; ESave 3 Outgoing (Publish false tc_m1 1) true;
   ETx 3 (Publish false tc_m1 1) true true].
Definition wrap_post : list event :=
  [EDeqCall 3; EDeqRet 3 (QMsg tc_m1b false); ENextId 3 1; ESave 3 Outgoing (Publish false tc_m1b 1) true;
   ETx 3 (Publish false tc_m1b 1) true true;
   ERxErr 2; EDie 2 KTransport; EConnClose 2; ETerm 4 true; EClosed] ++
  tc_open 5 2 true [Publish false tc_m1b 1].

Lemma tr_wrap_parts : tr_wrap = wrap_pre ++ wr_rounds (N.to_nat 65534) 2 ++ wrap_post.
Proof. apply app_assoc. Qed.

(* One event of a round, the packet id a variable: [tac] evaluates the step and settles the comparisons
   of the id that evaluation leaves open; the state reached is then normalised, so that the states do
   not grow along the round (the kernel would compare them as trees). *)
Tactic Notation "next_event" tactic(tac) := eapply run_cons; [tac; lazy -[N.eqb tc_m1 tc_m1b]; reflexivity|].

(* between two rounds: tc_m1 stored under id 1, one of the two window slots taken, id counter c *)
Definition wrap_st (c : N) : bc :=
  BC 1 (Sess c [] [(1, Publish false tc_m1 1)]) [] (Some 2) (Some 3) None None Connected PLoop DToken AIdle LNone
     false None 2 10 10 1 10 10 [].

Lemma next_id_pos c : c <> 0 -> next_id c = (c, (c + 1) mod 65536).
Proof. intros H. unfold next_id. apply N.eqb_neq in H. rewrite H. reflexivity. Qed.

Lemma round_run c id c' : next_id c = (id, c') -> id =? 1 = false ->
  Lts.run step (wrap_st c) (wr_round id) = Some (wrap_st c').
Proof.
  intros Hc H1. unfold wr_round, wrap_st.
  next_event cbn.
  next_event cbn.
  next_event (cbn -[next_id]; rewrite Hc, N.eqb_refl).
  next_event (cbn; rewrite N.eqb_refl).
  rewrite H1.                                   (* the store: id is not 1, the packet is appended *)
  next_event (cbn; rewrite N.eqb_refl).
  next_event cbn.
  next_event (cbn; rewrite N.eqb_refl).
  rewrite H1, N.eqb_refl. reflexivity.          (* ... and deleted again *)
Qed.

Lemma rounds_run n : forall id, 2 <= id -> id + N.of_nat n <= 65536 ->
  Lts.run step (wrap_st (id mod 65536)) (wr_rounds n id) = Some (wrap_st ((id + N.of_nat n) mod 65536)).
Proof.
  induction n as [|n IH]; intros id Hlo Hhi; cbn [wr_rounds].
  - rewrite N.add_0_r. reflexivity.
  - assert (Hn : next_id (id mod 65536) = (id, (id + 1) mod 65536))
      by (rewrite N.mod_small by lia; apply next_id_pos; lia).
    assert (H1 : id =? 1 = false) by (apply N.eqb_neq; lia).
    rewrite Lts.run_app, (round_run _ _ _ Hn H1), IH by lia.
    do 3 f_equal. lia.
Qed.

(* after id 65535 the counter is 0: the next id is 1 *)
Lemma wrap_rounds_run : Lts.run step (wrap_st 2) (wr_rounds (N.to_nat 65534) 2) = Some (wrap_st 0).
Proof. pose proof (rounds_run (N.to_nat 65534) 2) as Hr. rewrite N2Nat.id in Hr. apply Hr; discriminate. Qed.

Lemma wrap_pre_run : bc_run wrap_pre = Some (wrap_st 2).
Proof. vm_compute. reflexivity. Qed.

Lemma wrap_post_run : match Lts.run step (wrap_st 0) wrap_post with Some _ => true | None => false end = true.
Proof. vm_compute. reflexivity. Qed.

Lemma wrap_accepted : tc_accepted tr_wrap = true.
Proof. rewrite tr_wrap_parts, (accepted_parts _ _ wrap_post _ _ wrap_pre_run wrap_rounds_run). exact wrap_post_run. Qed.

(* between two rounds: tc_m1 (dequeued by event 8) recorded under id 1, nothing in hand;
   n events read, archive a, p the last packet received *)
Definition wrap_lg (n : nat) (a : list litem) (p : packet) : lg_st :=
  LG n true [] [LMsg 8 tc_m1 (LStored 1)] a [(2, p)] [].

Lemma lg_round b id n a p : id =? 1 = false ->
  Lts.run (lg_step b) (wrap_lg n a p) (wr_round id)
  = Some (wrap_lg (7 + n) (LMsg (S n) tc_m1b (LDone id) :: a) (Puback id)).
Proof.
  intros H1. unfold wr_round, wrap_lg.
  next_event cbn.
  next_event cbn.
  next_event cbn.
  next_event (unfold lg_step, lg_act; cbn; rewrite N.eqb_refl, H1; cbn [orb]; rewrite andb_false_r).
  next_event cbn.
  next_event cbn.
  next_event (unfold lg_step, lg_act; cbn; rewrite !N.eqb_refl, H1).
  reflexivity.
Qed.

Lemma lg_rounds b k : forall id n a p, 2 <= id ->
  exists n' a' p', Lts.run (lg_step b) (wrap_lg n a p) (wr_rounds k id) = Some (wrap_lg n' a' p').
Proof.
  induction k as [|k IH]; intros id n a p Hid; cbn [wr_rounds].
  - exists n, a, p. reflexivity.
  - rewrite Lts.run_app, lg_round by (apply N.eqb_neq; lia). apply IH. lia.
Qed.

Lemma lg_pre b : Lts.run (lg_step b) lg_init wrap_pre = Some (wrap_lg 12 [] (Connect tc_conn)).
Proof. destruct b; vm_compute; reflexivity. Qed.

(* the save under id 1 closes the record of tc_m1 as overwritten; the strict ledger stops there *)
Lemma lg_post n a p :
  Lts.run (lg_step false) (wrap_lg n a p) wrap_post
  = Some (LG (18 + n) true [] [LMsg (S n) tc_m1b (LStored 1)] (LMsg 8 tc_m1 (LOverwritten 1) :: a)
             [(5, Connect tc_conn)] []).
Proof. vm_compute. reflexivity. Qed.

Lemma lg_post_strict n a p : Lts.run (lg_step true) (wrap_lg n a p) wrap_post = None.
Proof. vm_compute. reflexivity. Qed.

Lemma wrap_strict : c08_ledger_strict tr_wrap = false.
Proof.
  destruct (lg_rounds true (N.to_nat 65534) 2 12 [] (Connect tc_conn)) as (n & a & p & Hr); [discriminate|].
  rewrite tr_wrap_parts. exact (strict_parts _ _ wrap_post _ _ (lg_pre true) Hr (lg_post_strict n a p)).
Qed.

Lemma wrap_overwritten : wrap_ledger_check = true.
Proof.
  destruct (lg_rounds false (N.to_nat 65534) 2 12 [] (Connect tc_conn)) as (n & a & p & Hr); [discriminate|].
  unfold wrap_ledger_check.
  rewrite tr_wrap_parts, (ledger_parts _ _ wrap_post _ _ (lg_pre false) Hr), lg_post. reflexivity.
Qed.

Lemma accepted_run es : tc_accepted es = true -> exists s, bc_run es = Some s.
Proof. unfold tc_accepted. destruct (bc_run es) as [s|]; [intros _; exists s; reflexivity|discriminate]. Qed.

Lemma wrap_ledger : c08_ledger tr_wrap = true.
Proof. destruct (accepted_run _ wrap_accepted) as (s & Hs). exact (c08_ledger_holds _ _ Hs). Qed.

Lemma wrap_replica : c08_store_replica tr_wrap = true.
Proof. destruct (accepted_run _ wrap_accepted) as (s & Hs). exact (c08_store_replica_holds _ _ Hs). Qed.

(* without a clash the strict clause would hold *)
Lemma wrap_clash : c08_no_id_clash tr_wrap = false.
Proof.
  destruct (accepted_run _ wrap_accepted) as (s & Hs).
  destruct (c08_no_id_clash tr_wrap) eqn:E; [|reflexivity].
  rewrite <- wrap_strict. symmetry. exact (c08_ledger_strict_holds _ _ Hs E).
Qed.

Theorem c08_ledger_strict_refuted : exists es s, bc_run es = Some s /\ c08_ledger_strict es = false.
Proof.
  destruct (accepted_run _ wrap_accepted) as (s & Hs).
  exists tr_wrap, s. split; [exact Hs|exact wrap_strict].
Qed.

Print Assumptions c08_ledger_strict_refuted.
