(* BackendReadings.v — what the boolean clauses of BackendSpec.v say, as propositions
   (so that the property theorems can be read without unfolding boolean code). *)
From Coq Require Import List NArith Bool Lia.
From Coq.Strings Require Import Byte.
From GM Require Import Codec.Packet Topic.MatchSpec Broker.Backend Broker.BackendSpec
  Broker.BackendProofs Broker.BackendProofsPublish Broker.BackendProofsSteps.
Import ListNotations.
Open Scope N_scope.

Lemma has_match_true subs t :
  has_match subs t = true <-> exists f q, In (f, q) subs /\ topic_matches f t = true.
Proof.
  unfold has_match. rewrite existsb_exists. split.
  - intros [[f q] [H1 H2]]. exists f, q; auto.
  - intros [f [q [H1 H2]]]. exists (f, q); auto.
Qed.

Lemma has_match_false subs t :
  has_match subs t = false <-> forall f q, In (f, q) subs -> topic_matches f t = false.
Proof.
  split.
  - intros H f q Hin. destruct (topic_matches f t) eqn:E; [|reflexivity].
    assert (X : has_match subs t = true) by (apply has_match_true; exists f, q; auto). congruence.
  - intros H. destruct (has_match subs t) eqn:E; [|reflexivity].
    apply has_match_true in E as [f [q [H1 H2]]]. rewrite (H f q H1) in H2. discriminate.
Qed.

Definition copy (m : message) : message := Msg (m_topic m) (m_payload m) (m_qos m) false.

(* C06_targets for a Publish that returned nil: every session of the state before is still there with the
   same subscriptions, active connection and other queue; its queue for this QoS class gained exactly one
   copy (retain cleared, topic/payload/QoS as published) if it holds a matching filter and the queue has
   room, and is unchanged if it holds no matching filter; nothing else can happen to it. *)
Theorem targets_reading st c m got st' k s :
  targets_ok st (OPublish c m got) ROk st' = true -> name_ok (m_topic m) = true ->
  In (k, s) (sessions st) ->
  exists s', get_session st' k = Some s' /\
    s_subs s' = s_subs s /\ s_act s' = s_act s /\ other_queue m s' = other_queue m s /\
    ((exists f q, In (f, q) (s_subs s) /\ topic_matches f (m_topic m) = true) ->
       is_full (st_cap st) (queue_of m s) = false -> queue_of m s' = queue_of m s ++ [copy m]) /\
    ((forall f q, In (f, q) (s_subs s) -> topic_matches f (m_topic m) = false) -> queue_of m s' = queue_of m s) /\
    (queue_of m s' = queue_of m s \/ queue_of m s' = queue_of m s ++ [copy m]).
Proof.
  intros H Hn Hin. cbn [targets_ok] in H. rewrite Hn in H.
  apply andb_true_iff in H as [H _]. apply andb_true_iff in H as [H _].
  rewrite forallb_forall in H. specialize (H (k, s) Hin). cbn [fst snd] in H.
  destruct (get_session st' k) as [s'|]; [|discriminate]. exists s'. split; [reflexivity|].
  unfold target_ok in H. rewrite !andb_true_iff in H. destruct H as [[[H1 H2] H3] H4].
  apply subs_eqb_eq in H1. apply msgs_eqb_eq in H2. apply n_opt_eqb_eq in H3.
  split; [auto|]. split; [auto|]. split; [auto|].
  unfold gained, kept in H4. fold (copy m) in H4.
  assert (K : forall b, (b = msgs_eqb (queue_of m s') (queue_of m s) \/ b = msgs_eqb (queue_of m s') (queue_of m s ++ [copy m])) ->
              b = true -> queue_of m s' = queue_of m s \/ queue_of m s' = queue_of m s ++ [copy m]).
  { intros b0 [->| ->] X; apply msgs_eqb_eq in X; auto. }
  destruct (has_match (s_subs s) (m_topic m)) eqn:HM.
  - split; [|split].
    + intros _ Full. rewrite Full in H4.
      destruct (s_act s) as [c'|]; [rewrite andb_false_r in H4|]; apply msgs_eqb_eq in H4; exact H4.
    + intros Hno. apply has_match_false in Hno. congruence.
    + destruct (s_act s) as [c'|].
      * destruct (mem_n c' (st_dying st) && is_full (st_cap st) (queue_of m s)); apply msgs_eqb_eq in H4; auto.
      * destruct (is_full (st_cap st) (queue_of m s)); apply msgs_eqb_eq in H4; auto.
  - apply msgs_eqb_eq in H4. split; [|split]; auto.
    intros Hex. apply has_match_true in Hex. congruence.
Qed.

(* C06_qos for a Dequeue that returned a message: it is the head of the chosen queue with topic, payload and
   retain flag intact, and its QoS is min(queued QoS, q) for a filter (f, q) of the session that matches the
   topic — or the queued QoS when the session holds no matching filter any more. *)
Theorem qos_reading st c temp m' st' :
  qos_ok st (ODequeue c temp) (RMsg m') st' = true ->
  exists k s m rest, session_of st c = Some (k, s) /\ (if temp then s_tq s else s_sq s) = m :: rest /\
    m_topic m' = m_topic m /\ m_payload m' = m_payload m /\ m_retain m' = m_retain m /\
    (name_ok (m_topic m) = true ->
       (exists f q, In (f, q) (s_subs s) /\ topic_matches f (m_topic m) = true /\ m_qos m' = N.min (m_qos m) q) \/
       ((forall f q, In (f, q) (s_subs s) -> topic_matches f (m_topic m) = false) /\ m_qos m' = m_qos m)).
Proof.
  intros H. cbn [qos_ok] in H. destruct (session_of st c) as [[k s]|]; [|discriminate].
  destruct (if temp then s_tq s else s_sq s) as [|m rest] eqn:Q; [discriminate|].
  exists k, s, m, rest. split; [reflexivity|]. split; [exact Q|].
  apply andb_true_iff in H as [H _]. apply andb_true_iff in H as [H _].
  unfold qos_capped in H. rewrite !andb_true_iff in H. destruct H as [[[H1 H2] H3] H4].
  apply bytes_eqb_eq in H1, H2. apply Bool.eqb_prop in H3. split; [auto|]. split; [auto|]. split; [auto|].
  intros Hn. rewrite Hn in H4. destruct (has_match (s_subs s) (m_topic m)) eqn:HM.
  - left. apply existsb_exists in H4 as [[f q] [Hin X]]. cbn [fst snd] in X. apply andb_true_iff in X as [X1 X2].
    apply N.eqb_eq in X2. exists f, q; auto.
  - right. split; [apply has_match_false; exact HM|apply N.eqb_eq; exact H4].
Qed.
