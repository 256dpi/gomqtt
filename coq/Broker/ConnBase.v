(* ConnBase.v — the one induction shared by all broker-connection theorems:
   a trace clause (scanner) holds of every accepted trace if some relation
   between model state and scanner state is preserved by every model step. *)
From Coq Require Import List NArith Bool.
From GM Require Import Base.Lts Codec.Packet Session.Store Broker.Conn Broker.ConnSpec.
Import ListNotations.

Lemma scan_run {S : Type} (f : S -> event -> option S) es : forall t,
  scan f t es = true <-> exists t', Lts.run f t es = Some t'.
Proof.
  induction es as [|e es IH]; intros t; cbn [scan Lts.run].
  - split; [intros _; exists t; reflexivity|reflexivity].
  - destruct (f t e) as [t1|]; [apply IH|]. split; [discriminate|intros [t' H]; discriminate H].
Qed.

Lemma run_unit es : Lts.run (fun (_ : unit) (_ : event) => Some tt) tt es = Some tt.
Proof. induction es as [|e es IH]; [reflexivity|exact IH]. Qed.

(* The clause [f] is to hold of the accepted traces that satisfy a
   trace hypothesis [h]; the relation also ties the states the three runs end in. *)
Section RunRel.
  Context {T U : Type}.
  Variable f : T -> event -> option T.
  Variable h : U -> event -> option U.
  Variable R : bc -> T -> U -> Prop.
  Hypothesis Hstep : forall s t u e s' u', R s t u -> step s e = Some s' -> h u e = Some u' ->
    exists t', f t e = Some t' /\ R s' t' u'.

  Lemma run_rel : forall es s t u s' u', R s t u -> Lts.run step s es = Some s' -> Lts.run h u es = Some u' ->
    exists t', Lts.run f t es = Some t' /\ R s' t' u'.
  Proof.
    induction es as [|e es IH]; intros s t u s' u' HR Hrun Hh; cbn [Lts.run] in *.
    - injection Hrun as <-. injection Hh as <-. exists t. split; [reflexivity|exact HR].
    - destruct (step s e) as [s1|] eqn:E; [|discriminate]. destruct (h u e) as [u1|] eqn:Eh; [|discriminate].
      destruct (Hstep s t u e s1 u1 HR E Eh) as (t1 & -> & HR1). eapply IH; eassumption.
  Qed.

  Theorem scan_sound2 (t0 : T) (u0 : U) : R bc_init t0 u0 ->
    forall es s', bc_run es = Some s' -> scan h u0 es = true -> scan f t0 es = true.
  Proof.
    intros H0 es s' Hrun Hh. apply scan_run in Hh as [u' Hh]. apply scan_run.
    destruct (run_rel es _ _ _ _ _ H0 Hrun Hh) as (t' & Ht & _). exists t'. exact Ht.
  Qed.
End RunRel.

Section ScanSound.
  Context {S : Type}.
  Variable f : S -> event -> option S.
  Variable R : bc -> S -> Prop.
  Hypothesis Hstep : forall s t e s', R s t -> step s e = Some s' -> exists t', f t e = Some t' /\ R s' t'.

  Lemma run_rel1 es s t s' : R s t -> Lts.run step s es = Some s' -> exists t', Lts.run f t es = Some t' /\ R s' t'.
  Proof.
    intros HR Hrun.
    apply (run_rel f (fun _ _ => Some tt) (fun s t _ => R s t)) with (es := es) (s := s) (u := tt) (u' := tt);
      [|exact HR|exact Hrun|apply run_unit].
    intros s0 t0 _ e s1 _ HR0 E _. exact (Hstep s0 t0 e s1 HR0 E).
  Qed.

  Lemma scan_sound_from : forall es s t s', R s t -> Lts.run step s es = Some s' -> scan f t es = true.
  Proof. intros es s t s' HR Hrun. apply scan_run. destruct (run_rel1 es s t s' HR Hrun) as (t' & Ht & _). exists t'. exact Ht. Qed.

  Theorem scan_sound (init : S) : R bc_init init -> forall es s', bc_run es = Some s' -> scan f init es = true.
  Proof. intros H0 es s' Hrun. eapply scan_sound_from; [exact H0|exact Hrun]. Qed.
End ScanSound.

(* invariants of the model alone *)
Section Invariant.
  Variable I : bc -> Prop.
  Hypothesis H0 : I bc_init.
  Hypothesis Hstep : forall s e s', I s -> step s e = Some s' -> I s'.
  Theorem bc_invariant : forall es s, bc_run es = Some s -> I s.
  Proof. intros es s. unfold bc_run. apply (Lts.invariant_all_traces _ _ step I bc_init H0 Hstep). Qed.
End Invariant.

(* a relation may assume an already proved invariant *)
Section ScanSoundInv.
  Context {S : Type}.
  Variable f : S -> event -> option S.
  Variable I : bc -> Prop.
  Variable R : bc -> S -> Prop.
  Hypothesis HI0 : I bc_init.
  Hypothesis HIstep : forall s e s', I s -> step s e = Some s' -> I s'.
  Hypothesis Hstep : forall s t e s', I s -> R s t -> step s e = Some s' -> exists t', f t e = Some t' /\ R s' t'.

  Lemma inv_rel_step s t e s' : I s /\ R s t -> step s e = Some s' -> exists t', f t e = Some t' /\ I s' /\ R s' t'.
  Proof.
    intros [Hi Hr] E. destruct (Hstep s t e s' Hi Hr E) as (t' & Ef & Hr').
    exists t'. split; [exact Ef|split; [eapply HIstep; eassumption|exact Hr']].
  Qed.

  Lemma run_rel_inv es s t s' : I s -> R s t -> Lts.run step s es = Some s' ->
    exists t', Lts.run f t es = Some t' /\ I s' /\ R s' t'.
  Proof. intros Hi Hr. apply (run_rel1 f (fun s t => I s /\ R s t) inv_rel_step). split; assumption. Qed.

  Theorem scan_sound_inv (init : S) : R bc_init init -> forall es s', bc_run es = Some s' -> scan f init es = true.
  Proof. intros H0. apply (scan_sound f (fun s t => I s /\ R s t) inv_rel_step). split; assumption. Qed.
End ScanSoundInv.
