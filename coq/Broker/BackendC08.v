(* BackendC08.v — the backend side of C08 (no accepted QoS>=1 message is lost for a
   persistent subscriber) on the MemoryBackend model:
   * offline_queue_ok: the stored queue of every stored session changes only by
     - a Publish appending one copy (QoS >= 1 and a matching filter; for an OFFLINE session:
       appended iff there is room),
     - a Dequeue from that queue by the connection holding the session (head removed),
     - a clean Setup of its client id (session deleted);
     every other step leaves it as it is — a queued message stays until dequeued;
   * session_present_ok: Setup reports "resumed" exactly when clean = false and a stored
     session for the id existed; a clean Setup deletes the stored session and hands out a
     fresh empty temporary one.
   (The packet stores live in the session.MemorySession object embedded in the Go session;
    deleting the memorySession drops them with it.  They are not part of this model.) *)
From Coq Require Import List NArith Bool Lia.
From Coq.Strings Require Import Byte.
From GM Require Import Codec.Packet Topic.MatchSpec Broker.Backend Broker.BackendSpec
  Broker.BackendProofs Broker.BackendProofsPublish Broker.BackendEffect Broker.BackendProofsSteps Broker.BackendOwn
  Broker.BackendProofsHist Broker.BackendLog.
Import ListNotations.
Open Scope N_scope.

Definition copy_of (m : message) : message := Msg (m_topic m) (m_payload m) (m_qos m) false.

Definition holds_stored (st : state) (c : conn) (id : bytes) : bool :=
  option_eqb skey_eqb (alookup N.eqb c (st_sess st)) (Some (KStored id)).

Definition clean_setup_of (st : state) (o : op) (r : result) (id : bytes) : bool :=
  match r with
  | RSetup false =>
      match o with
      | OSetup _ id' true => bytes_eqb id id'
      | OSetupEnd false => match st_pending st with Some p => p_clean p && bytes_eqb id (p_id p) | None => false end
      | _ => false
      end
  | _ => false
  end.

Definition offline_queue_ok (st : state) (o : op) (r : result) (st' : state) : bool :=
  forallb (fun e =>
    let id := fst e in let s := snd e in
    match alookup bytes_eqb id (st_stored st') with
    | None => clean_setup_of st o r id
    | Some s' =>
        match o with
        | OPublish c m _ =>
            if negb (use_temp m) && has_match (s_subs s) (m_topic m) && name_ok (m_topic m) then
              match s_act s, r with
              | None, ROk => msgs_eqb (s_sq s') (if is_full (st_cap st) (s_sq s) then s_sq s else s_sq s ++ [copy_of m])
              | _, ROk => msgs_eqb (s_sq s') (s_sq s) || msgs_eqb (s_sq s') (s_sq s ++ [copy_of m])
              | _, _ => msgs_eqb (s_sq s') (s_sq s)
              end
            else if name_ok (m_topic m) then msgs_eqb (s_sq s') (s_sq s)
            else msgs_eqb (s_sq s') (s_sq s) || msgs_eqb (s_sq s') (s_sq s ++ [copy_of m])
        | ODequeue c false =>
            if holds_stored st c id then msgs_eqb (s_sq s') (tl (s_sq s)) else msgs_eqb (s_sq s') (s_sq s)
        | _ => msgs_eqb (s_sq s') (s_sq s)
        end
    end) (st_stored st).

Definition fresh_temp (st' : state) (c : conn) : bool :=
  match alookup N.eqb c (st_temps st') with
  | Some s => session_eqb s (Sess [] [] [] (Some c))
  | None => false
  end.

(* Setup(c, id, clean) with a client id returned (session, resumed) *)
Definition present_check (st st' : state) (c : conn) (id : bytes) (clean resumed : bool) : bool :=
  Bool.eqb resumed (negb clean && is_some (alookup bytes_eqb id (st_stored st))) &&
  (if clean then negb (is_some (alookup bytes_eqb id (st_stored st'))) && fresh_temp st' c else true).

Definition session_present_ok (st : state) (o : op) (r : result) (st' : state) : bool :=
  match o, r with
  | OSetup c id clean, RSetup resumed =>
      if is_nil id then negb resumed && fresh_temp st' c       (* no client id: always a fresh temporary session *)
      else present_check st st' c id clean resumed
  | OSetupEnd false, RSetup resumed =>
      match st_pending st with
      | Some p => present_check st st' (p_conn p) (p_id p) (p_clean p) resumed
      | None => false end
  | _, _ => true
  end.

(* ------------------------------------------------------------------ proofs *)
(* the steps the clause expects to keep every stored queue *)
Definition keeps_stored (o : op) (r : result) : bool :=
  match o, r with
  | ODequeue _ false, _ | OPublish _ _ _, ROk => false
  | _, _ => true
  end.

Lemma calm_keeps_stored o r : calm o r = true -> (forall c, o <> ODequeue c false) -> keeps_stored o r = true.
Proof.
  intros H Hd. destruct o as [| | | | | |c [|]| |]; try reflexivity; [destruct r; try reflexivity; discriminate H|].
  exfalso. exact (Hd c eq_refl).
Qed.

Lemma offline_kept st o r st' :
  wf st -> keeps_stored o r = true ->
  (forall id s, alookup bytes_eqb id (st_stored st) = Some s ->
     exists s', alookup bytes_eqb id (st_stored st') = Some s' /\ s_sq s' = s_sq s) ->
  offline_queue_ok st o r st' = true.
Proof.
  intros W K H. apply forallb_forall. intros [id s] Hin. cbn [fst snd].
  destruct (H id s (In_alookup bytes_eqb bytes_eqb_eq id s _ (proj1 (proj2 W)) Hin)) as (s' & -> & ->).
  destruct o as [| | | | |c m got|c [|]| |]; try apply msgs_eqb_refl; [|discriminate K].
  destruct (negb (use_temp m) && has_match (s_subs s) (m_topic m) && name_ok (m_topic m)).
  - destruct (s_act s); destruct r; try apply msgs_eqb_refl; discriminate K.
  - rewrite msgs_eqb_refl. destruct (name_ok (m_topic m)); reflexivity.
Qed.

Lemma setup_finish_stored st c id clean i s :
  alookup bytes_eqb i (st_stored st) = Some s ->
  match alookup bytes_eqb i (st_stored (snd (setup_finish st c id clean))) with
  | Some s' => s_sq s' = s_sq s
  | None => clean = true /\ i = id /\ fst (setup_finish st c id clean) = RSetup false
  end.
Proof.
  intros L. change (alookup bytes_eqb i (st_stored ?x)) with (get_session x (KStored i)).
  rewrite (g_get _ _ _ _ _ _ (setup_finish_granted st c id clean)), setup_finish_result. unfold finish_session.
  destruct clean; cbn [skey_eqb andb negb get_session].
  - destruct (bytes_eqb i id) eqn:E; [apply bytes_eqb_eq in E; auto|rewrite L; reflexivity].
  - destruct (bytes_eqb i id) eqn:E; [|rewrite L; reflexivity]. apply bytes_eqb_eq in E; subst i. rewrite L. reflexivity.
Qed.

Lemma offline_finish st0 o st c id clean :
  wf st0 -> st_stored st = st_stored st0 -> (forall c0, o <> ODequeue c0 false) -> (forall c0 m got, o <> OPublish c0 m got) ->
  (forall i, fst (setup_finish st c id clean) = RSetup false -> clean = true -> clean_setup_of st0 o (RSetup false) i = bytes_eqb i id) ->
  offline_queue_ok st0 o (fst (setup_finish st c id clean)) (snd (setup_finish st c id clean)) = true.
Proof.
  intros W E Hd Hp Hc. apply forallb_forall. intros [i s] Hin. cbn [fst snd].
  pose proof (In_alookup bytes_eqb bytes_eqb_eq i s _ (proj1 (proj2 W)) Hin) as L. rewrite <- E in L.
  pose proof (setup_finish_stored st c id clean i s L) as X.
  destruct (alookup bytes_eqb i (st_stored (snd (setup_finish st c id clean)))) as [s'|].
  - rewrite X. destruct o as [| | | | |c0 m got|c0 [|]| |]; try apply msgs_eqb_refl;
      [exfalso; exact (Hp _ _ _ eq_refl)|exfalso; exact (Hd _ eq_refl)].
  - destruct X as (Hcl & -> & Hr). rewrite Hr, (Hc id Hr Hcl). apply bytes_eqb_refl.
Qed.

Lemma offline_effect st o r st' :
  effect st o r st' -> wf st -> OwnOk st -> (forall c, o <> ODequeue c false) -> offline_queue_ok st o r st' = true.
Proof.
  intros E W O Hd.
  destruct E as [o r I|o r st' B|c clean _ _|c id clean _ _ _ _|p P _|c k s0 o r s2 S Pu|c m got Hnb|c id _ _ _].
  - apply (offline_kept _ _ _ _ W (calm_keeps_stored o r I Hd)). intros id s L. exists s; auto.
  - apply (offline_kept _ _ _ _ W (calm_keeps_stored o r (book_calm _ _ _ _ B) Hd)).
    intros id s L. exists s. split; [|reflexivity]. destruct B; exact L.
  - apply offline_kept; [exact W|reflexivity|]. intros id s L. exists s; auto.
  - apply (offline_finish st _ (with_cid st c id) c id clean W eq_refl Hd); [discriminate|].
    intros i _ ->. reflexivity.
  - apply (offline_finish st _ st _ _ _ W eq_refl Hd); [discriminate|].
    intros i _ Hc. cbn [clean_setup_of]. rewrite P, Hc. reflexivity.
  - (* Subscribe, Unsubscribe, Dequeue from the temporary queue *)
    assert (Q : s_sq s2 = s_sq s0) by (destruct Pu; try reflexivity; exfalso; exact (Hd c eq_refl)).
    apply (offline_kept _ _ _ _ W); [destruct Pu; try reflexivity; exfalso; exact (Hd c eq_refl)|].
    intros id s L. pose proof (session_of_get _ _ _ _ S) as G.
    destruct k as [x|i]; cbn [put_session st_stored]; [exists s; auto|].
    rewrite (alookup_aset bytes_eqb bytes_eqb_eq). destruct (bytes_eqb id i) eqn:E; [|exists s; auto].
    apply bytes_eqb_eq in E; subst i. cbn [get_session] in G. rewrite L in G. injection G as <-. exists s2; auto.
  - (* Publish *)
    apply forallb_forall. intros [id s] Hin. cbn [fst snd].
    pose proof (In_alookup bytes_eqb bytes_eqb_eq id s _ (proj1 (proj2 W)) Hin) as L.
    destruct (name_ok (m_topic m)) eqn:Hn.
    + pose proof (publish_queue st c m got false (KStored id) s W O Hn L) as X.
      rewrite (surjective_pairing (publish st c m got)) in X. destruct X as [s' [G Q]].
      cbn [get_session] in G. rewrite G. cbn [queue] in Q. rewrite Q, publish_unfold, Hnb. cbn [fst].
      unfold enq_event. cbn [get_session]. rewrite L. cbn [queue]. fold (copy_of m).
      destruct (use_temp m); cbn [Bool.eqb negb andb]; [rewrite app_nil_r; apply msgs_eqb_refl|].
      destruct (has_match (s_subs s) (m_topic m)); cbn [andb]; [|rewrite app_nil_r; apply msgs_eqb_refl].
      destruct (is_full (st_cap st) (s_sq s)); cbn [negb andb];
        destruct (s_act s); destruct (pub_err st c m); rewrite ?app_nil_r, ?msgs_eqb_refl, ?orb_true_r; reflexivity.
    + rewrite andb_false_r.
      pose proof (get_session_published st c m got (KStored id) Hnb) as G. cbn [get_session] in G. rewrite L in G. rewrite G.
      cbn [option_map]. destruct (deliver_cases (pub_err st c m) got (KStored id) (classify st c m s) m s) as [-> | ->];
        [rewrite msgs_eqb_refl; reflexivity|].
      unfold enqueue. destruct (use_temp m); cbn [s_sq]; [rewrite msgs_eqb_refl; reflexivity|].
      fold (copy_of m). unfold live_copy. fold (copy_of m). rewrite msgs_eqb_refl, orb_true_r. reflexivity.
  - apply offline_kept; [exact W|reflexivity|]. intros i s L.
    change (alookup bytes_eqb i (st_stored ?x)) with (get_session x (KStored i)). rewrite terminated_get. cbn [skey_eqb].
    change (get_session st (KStored i)) with (alookup bytes_eqb i (st_stored st)). rewrite L. cbn [option_map].
    eexists; split; [reflexivity|]. destruct (releases st c (KStored i) s); reflexivity.
Qed.

Lemma offline_dequeue st c :
  wf st -> offline_queue_ok st (ODequeue c false) (fst (dequeue st c false)) (snd (dequeue st c false)) = true.
Proof.
  intros W. apply forallb_forall. intros [id s] Hin. cbn [fst snd].
  pose proof (In_alookup bytes_eqb bytes_eqb_eq id s _ (proj1 (proj2 W)) Hin) as L.
  assert (HS : holds_stored st c id = true -> session_of st c = Some (KStored id, s)).
  { unfold holds_stored, session_of. destruct (alookup N.eqb c (st_sess st)) as [k0|]; [|discriminate].
    cbn [option_eqb]. intros K. apply skey_eqb_eq in K; subst k0. cbn [get_session]. rewrite L. reflexivity. }
  unfold dequeue. destruct (session_of st c) as [[k s0]|] eqn:S.
  2:{ cbn [snd]. rewrite L. destruct (holds_stored st c id); [discriminate (HS eq_refl)|apply msgs_eqb_refl]. }
  pose proof (session_of_key _ _ _ _ (KStored id) S : holds_stored st c id = _) as HK. rewrite HK. destruct (s_sq s0) as [|m q] eqn:SQ; cbn [snd].
  - rewrite L. destruct (skey_eqb k (KStored id)) eqn:K; [|apply msgs_eqb_refl].
    rewrite HK in HS. injection (HS eq_refl) as _ <-. rewrite SQ. reflexivity.
  - change (alookup bytes_eqb id (st_stored ?x)) with (get_session x (KStored id)). rewrite get_put, skey_eqb_sym.
    destruct (skey_eqb k (KStored id)) eqn:K; [|cbn [get_session]; rewrite L; apply msgs_eqb_refl].
    rewrite HK in HS. injection (HS eq_refl) as _ <-. cbn [s_sq]. rewrite SQ. apply msgs_eqb_refl.
Qed.

Theorem step_offline_queue_ok st o :
  wf st -> OwnOk st -> let (r, st') := step st o in offline_queue_ok st o r st' = true.
Proof.
  intros W O. rewrite (surjective_pairing (step st o)).
  assert (D : (exists c, o = ODequeue c false) \/ forall c, o <> ODequeue c false)
    by (destruct o as [| | | | | |c [|]| |]; try (right; discriminate); left; exists c; reflexivity).
  destruct D as [[c ->]|D]; [apply offline_dequeue, W|apply (offline_effect _ _ _ _ (step_effect st o) W O D)].
Qed.

Lemma setup_finish_present st c id clean :
  present_check st (snd (setup_finish st c id clean)) c id clean
    (negb clean && is_some (alookup bytes_eqb id (st_stored st))) = true.
Proof.
  unfold present_check. rewrite Bool.eqb_reflx. destruct clean; [|reflexivity]. unfold fresh_temp.
  change (alookup bytes_eqb id (st_stored ?x)) with (get_session x (KStored id)).
  change (alookup N.eqb c (st_temps ?x)) with (get_session x (KTemp c)).
  rewrite !(g_get _ _ _ _ _ _ (setup_finish_granted st c id true)). cbn [skey_eqb andb]. rewrite bytes_eqb_refl, N.eqb_refl.
  apply session_eqb_refl.
Qed.

Theorem step_session_present_ok st o : let (r, st') := step st o in session_present_ok st o r st' = true.
Proof.
  rewrite (surjective_pairing (step st o)). unfold session_present_ok.
  destruct (step_effect st o) as [o r I|o r st' B|c clean _ _|c id clean _ _ Hid _|p P _|c k s0 o r s2 _ Pu|c m got _|c id _ _ _];
    try reflexivity.
  - destruct o as [| [|] | | | | | | |]; try reflexivity; destruct r; try reflexivity; discriminate I.
  - destruct B; reflexivity.
  - unfold fresh_temp. cbn [temp_session st_temps negb andb]. rewrite (alookup_aset N.eqb N.eqb_eq), N.eqb_refl. apply session_eqb_refl.
  - apply is_nil_false in Hid. rewrite Hid, setup_finish_result. apply (setup_finish_present (with_cid st c id)).
  - rewrite P, setup_finish_result. apply setup_finish_present.
  - destruct Pu; reflexivity.
Qed.

(* ------------------------------------------------------------------ along every history *)
Theorem offline_queue_along cap ops : holds_along offline_queue_ok cap ops.
Proof. apply holds_along_always. intros st o W O. apply step_offline_queue_ok; [exact W|apply own_ownok, O]. Qed.

Theorem session_present_along cap ops : holds_along session_present_ok cap ops.
Proof. apply holds_along_always. intros st o _ _. apply step_session_present_ok. Qed.

(* the same under the names of the property *)
Definition C08_offline_queue := offline_queue_along.
Definition C08_session_present := session_present_along.
