(* BackendFrame.v — "everything else is unchanged", as a clause on one observed step (frame_ok):
   * a session's subscriptions change only by a Subscribe / Unsubscribe of the connection that holds it;
   * a session's active connection changes only when a Setup completes on it (it becomes that connection)
     or when the connection holding it terminates while the session still names it (it becomes none);
   * a session disappears only as the temporary session of a terminating connection or as the stored
     session of a client id whose clean Setup completes; it appears only as the session a completing
     Setup hands out, and then it is empty and owned by that connection.
   (What happens to the queues is delivery_ok, Broker/BackendLog.v.) *)
From Coq Require Import List NArith Bool Lia.
From Coq.Strings Require Import Byte.
From GM Require Import Codec.Packet Topic.MatchSpec Broker.Backend Broker.BackendSpec
  Broker.BackendProofs Broker.BackendProofsPublish Broker.BackendEffect Broker.BackendProofsSteps Broker.BackendOwn
  Broker.BackendProofsHist Broker.BackendLog.
Import ListNotations.
Open Scope N_scope.

Definition holder (st : state) (c : conn) (k : skey) : bool :=
  option_eqb skey_eqb (alookup N.eqb c (st_sess st)) (Some k).

(* the session a completing Setup hands out, and to whom *)
Definition completes (st : state) (o : op) (r : result) : option (skey * conn) :=
  match r with
  | RSetup _ =>
      match o with
      | OSetup c id clean => Some ((if clean || is_nil id then KTemp c else KStored id), c)
      | OSetupEnd _ =>
          match st_pending st with
          | Some p => Some ((if p_clean p then KTemp (p_conn p) else KStored (p_id p)), p_conn p)
          | None => None
          end
      | _ => None
      end
  | _ => None
  end.

Definition deleted (st : state) (o : op) (r : result) (k : skey) : bool :=
  match r, o with
  | RSetup _, OSetup c id true => negb (is_nil id) && skey_eqb k (KStored id)
  | RSetup _, OSetupEnd _ =>
      match st_pending st with Some p => p_clean p && skey_eqb k (KStored (p_id p)) | None => false end
  | ROk, OTerminate c => skey_eqb k (KTemp c)
  | _, _ => false
  end.

Definition subs_may_change (st : state) (o : op) (k : skey) : bool :=
  match o with
  | OSubscribe c _ _ | OUnsubscribe c _ => holder st c k
  | _ => false
  end.

Definition act_after (st : state) (o : op) (r : result) (k : skey) (s : session) : option conn :=
  match completes st o r with
  | Some (k', c) => if skey_eqb k k' then Some c else s_act s
  | None =>
      match o, r with
      | OTerminate c, ROk =>                        (* released only if still held by the terminating connection *)
          if holder st c k && option_eqb N.eqb (s_act s) (Some c) then None else s_act s
      | _, _ => s_act s
      end
  end.

Definition frame_ok (st : state) (o : op) (r : result) (st' : state) : bool :=
  forallb (fun e =>
    match get_session st' (fst e) with
    | Some s' =>
        (subs_may_change st o (fst e) || subs_eqb (s_subs (snd e)) (s_subs s')) &&
        option_eqb N.eqb (s_act s') (act_after st o r (fst e) (snd e))
    | None => deleted st o r (fst e)
    end) (sessions st) &&
  forallb (fun e =>
    is_some (get_session st (fst e)) ||
    match completes st o r with
    | Some (k', c) => skey_eqb (fst e) k' && is_nil (s_subs (snd e)) && option_eqb N.eqb (s_act (snd e)) (Some c)
    | None => false
    end) (sessions st') &&
  (* a terminated connection's temporary session is released *)
  match o, r with
  | OTerminate c, ROk => negb (is_some (get_session st' (KTemp c)))
  | _, _ => true
  end.

(* ------------------------------------------------------------------ proofs *)
Lemma calm_completes st o r : calm o r = true -> completes st o r = None /\ (forall c, o = OTerminate c -> r <> ROk).
Proof. intros H. split; [destruct r; try reflexivity; discriminate H|]. intros c -> ->. discriminate H. Qed.

Lemma frame_same st o r st' :
  wf st -> wf st' -> (forall k, get_session st' k = get_session st k) -> calm o r = true ->
  frame_ok st o r st' = true.
Proof.
  intros W W' Hg Hc. destruct (calm_completes st o r Hc) as [Hn Ht]. unfold frame_ok.
  assert (R : match o, r with OTerminate c, ROk => negb (is_some (get_session st' (KTemp c))) | _, _ => true end = true).
  { destruct o; try reflexivity. destruct r; try reflexivity. exfalso. exact (Ht c eq_refl eq_refl). }
  rewrite R, andb_true_r.
  apply andb_true_iff; split; apply forallb_forall; intros [k s] Hin; cbn [fst snd].
  - rewrite Hg, (sessions_get st k s W Hin). rewrite subs_eqb_refl, orb_true_r. cbn [andb].
    unfold act_after. rewrite Hn. destruct o; try apply n_opt_eqb_refl. destruct r; try apply n_opt_eqb_refl.
    exfalso. exact (Ht c eq_refl eq_refl).
  - rewrite <- Hg, (sessions_get st' k s W' Hin). reflexivity.
Qed.

Lemma frame_complete st0 st o b st' K c S del :
  wf st0 -> wf st' -> granted st c K S del st' -> (forall k, get_session st k = get_session st0 k) ->
  completes st0 o (RSetup b) = Some (K, c) -> (forall k, deleted st0 o (RSetup b) k = del k) ->
  match o with OSubscribe _ _ _ | OUnsubscribe _ _ | OTerminate _ => False | _ => True end ->
  match get_session st0 K with Some s => s_subs S = s_subs s | None => s_subs S = [] end ->
  frame_ok st0 o (RSetup b) st' = true.
Proof.
  intros W W' Gr E0 Hcomp Hdel Ho HS.
  assert (Hg : forall k, get_session st' k = if skey_eqb k K then Some S else if del k then None else get_session st0 k)
    by (intros k; rewrite (g_get _ _ _ _ _ _ Gr), E0; reflexivity).
  pose proof (g_act _ _ _ _ _ _ Gr) as HA.
  unfold frame_ok.
  assert (R : match o, RSetup b with OTerminate c, ROk => negb (is_some (get_session st' (KTemp c))) | _, _ => true end = true)
    by (destruct o; reflexivity).
  rewrite R, andb_true_r.
  apply andb_true_iff; split; apply forallb_forall; intros [k s] Hin; cbn [fst snd].
  - pose proof (sessions_get st0 k s W Hin) as G. rewrite Hg.
    assert (SC : subs_may_change st0 o k = false) by (destruct o; try reflexivity; destruct Ho).
    rewrite SC. cbn [orb]. unfold act_after. rewrite Hcomp.
    destruct (skey_eqb k K) eqn:EK.
    + apply skey_eqb_eq in EK. subst k. rewrite G in HS. rewrite HS, HA, subs_eqb_refl, n_opt_eqb_refl. reflexivity.
    + destruct (del k) eqn:ED; [rewrite Hdel; exact ED|]. rewrite G, subs_eqb_refl, n_opt_eqb_refl. reflexivity.
  - pose proof (sessions_get st' k s W' Hin) as G'. rewrite Hg in G'. rewrite Hcomp.
    destruct (skey_eqb k K) eqn:EK.
    + injection G' as <-. destruct (get_session st0 k) eqn:G; [reflexivity|]. cbn [is_some orb andb].
      apply skey_eqb_eq in EK. subst k. rewrite G in HS. rewrite HS, HA. cbn [is_nil]. apply n_opt_eqb_refl.
    + destruct (del k); [discriminate|]. rewrite G'. reflexivity.
Qed.

Lemma frame_setup_finish st0 o st c id clean :
  wf st0 -> wf (snd (setup_finish st c id clean)) ->
  (forall k, get_session st k = get_session st0 k) ->
  alookup N.eqb c (st_temps st) = None ->
  (forall b, completes st0 o (RSetup b) = Some ((if clean then KTemp c else KStored id), c)) ->
  (forall b k, deleted st0 o (RSetup b) k = clean && skey_eqb k (KStored id)) ->
  match o with OSubscribe _ _ _ | OUnsubscribe _ _ | OTerminate _ => False | _ => True end ->
  frame_ok st0 o (fst (setup_finish st c id clean)) (snd (setup_finish st c id clean)) = true.
Proof.
  intros W W' Hg Tc Hcomp Hdel Ho. rewrite setup_finish_result.
  apply (frame_complete st0 st o _ _ _ c _ _ W W' (setup_finish_granted st c id clean) Hg (Hcomp _) (Hdel _) Ho).
  rewrite <- Hg. unfold finish_session. destruct clean; cbn [get_session]; [rewrite Tc; reflexivity|].
  destruct (alookup bytes_eqb id (st_stored st)); reflexivity.
Qed.

Lemma holder_of st c k s : session_of st c = Some (k, s) -> holder st c k = true.
Proof. intros S. unfold holder. rewrite (session_of_key _ _ _ _ k S). apply skey_eqb_refl. Qed.

(* a step that rewrites one session keeping its active connection, and its subscriptions unless `may` *)
Lemma frame_put st o r k0 s0 s2 :
  wf st -> get_session st k0 = Some s0 -> s_act s2 = s_act s0 ->
  completes st o r = None -> (forall c, o <> OTerminate c) ->
  (subs_may_change st o k0 = true \/ s_subs s2 = s_subs s0) ->
  frame_ok st o r (put_session st k0 s2) = true.
Proof.
  intros W G A Hc Ht Hs. pose proof (wf_put st k0 s2 W) as W'.
  assert (AA : forall k s, act_after st o r k s = s_act s).
  { intros k s. unfold act_after. rewrite Hc. destruct o; try reflexivity. exfalso; exact (Ht c eq_refl). }
  unfold frame_ok.
  assert (R : match o, r with OTerminate c, ROk => negb (is_some (get_session (put_session st k0 s2) (KTemp c))) | _, _ => true end = true).
  { destruct o; try reflexivity. exfalso; exact (Ht c eq_refl). }
  rewrite R, andb_true_r.
  apply andb_true_iff; split; apply forallb_forall; intros [k s] Hin; cbn [fst snd].
  - pose proof (sessions_get st k s W Hin) as Gk. rewrite get_put, AA. destruct (skey_eqb k k0) eqn:E.
    + apply skey_eqb_eq in E; subst k. rewrite G in Gk; injection Gk as <-. rewrite A, n_opt_eqb_refl, andb_true_r.
      destruct Hs as [Hs|Hs]; [rewrite Hs; reflexivity|rewrite Hs, subs_eqb_refl, orb_true_r; reflexivity].
    + rewrite Gk, subs_eqb_refl, n_opt_eqb_refl, orb_true_r. reflexivity.
  - pose proof (sessions_get _ k s W' Hin) as Gk. rewrite get_put in Gk. destruct (skey_eqb k k0) eqn:E.
    + apply skey_eqb_eq in E; subst k. rewrite G. reflexivity.
    + rewrite Gk. reflexivity.
Qed.

(* under Own, what Terminate releases is what frame_ok expects it to *)
Lemma releases_holder st c k s :
  Own st -> k <> KTemp c -> releases st c k s = holder st c k && option_eqb N.eqb (s_act s) (Some c).
Proof.
  intros O Hk. destruct k as [x|i]; [|reflexivity]. cbn [releases]. unfold holder.
  destruct (alookup N.eqb c (st_sess st)) as [[y|j]|] eqn:Sc; try reflexivity.
  cbn [option_eqb skey_eqb]. destruct (y =? x) eqn:E; [|reflexivity].
  apply N.eqb_eq in E; subst y. rewrite (o_shape _ O c x Sc) in Hk. exfalso; apply Hk; reflexivity.
Qed.

Theorem frame_effect st o r st' :
  effect st o r st' -> wf st -> wf st' -> Own st -> TempsOk st -> frame_ok st o r st' = true.
Proof.
  intros E W W' O [T1 T2].
  destruct E as [o r I|o r st' B|c clean _ H|c id clean _ H Hid _|p P _|c k s0 o r s2 S Pu|c m got Hnb|c id _ _ _].
  - apply frame_same; auto.
  - apply frame_same; [exact W|exact W'|apply (book_get _ _ _ _ B)|apply (book_calm _ _ _ _ B)].
  - apply (frame_complete st _ _ _ _ _ c _ _ W W' (temp_session_granted _ c) (with_cid_get st c [])); try reflexivity.
    + cbn [completes is_nil]. rewrite orb_true_r. reflexivity.
    + intros k. destruct clean; reflexivity.
    + cbn [get_session]. rewrite (T1 c H). reflexivity.
  - apply is_nil_false in Hid.
    apply (frame_setup_finish st (OSetup c id clean) _ c id clean W W' (with_cid_get st c id) (T1 c H)).
    + intros b1. cbn [completes]. rewrite Hid, orb_false_r. reflexivity.
    + intros b1 k. cbn [deleted]. destruct clean; [rewrite Hid; reflexivity|reflexivity].
    + exact I.
  - apply (frame_setup_finish st (OSetupEnd false) st _ _ _ W W' (fun k => eq_refl) (proj1 (T2 p P))).
    + intros b1. cbn [completes]. rewrite P. reflexivity.
    + intros b1 k. cbn [deleted]. rewrite P. reflexivity.
    + exact I.
  - apply (frame_put st _ _ k s0 _ W (session_of_get _ _ _ _ S) (put_act _ _ _ _ _ _ Pu)).
    + destruct Pu as [subs b _ room| | |]; [destruct (Nat.leb _ room)| | |]; reflexivity.
    + intros c0 ->. inversion Pu.
    + destruct Pu; [left|left|right|right]; try reflexivity; exact (holder_of _ _ _ _ S).
  - unfold frame_ok. rewrite andb_true_r.
    apply andb_true_iff; split; apply forallb_forall; intros [k s] Hin; cbn [fst snd].
    + rewrite (get_session_published st c m got k Hnb), (sessions_get st k s W Hin). cbn [option_map].
      rewrite deliver_subs, deliver_act, subs_eqb_refl.
      cbn [subs_may_change orb andb]. unfold act_after. destruct (pub_err st c m); cbn [completes]; apply n_opt_eqb_refl.
    + pose proof (sessions_get _ k s W' Hin) as G'. rewrite (get_session_published_some st c m got k s G'). reflexivity.
  - (* Terminate *)
    unfold frame_ok. rewrite terminated_get, skey_eqb_refl, andb_true_r.
    apply andb_true_iff; split; apply forallb_forall; intros [k s] Hin; cbn [fst snd].
    + rewrite terminated_get, (sessions_get st k s W Hin). cbn [deleted subs_may_change orb option_map].
      destruct (skey_eqb k (KTemp c)) eqn:E; [reflexivity|].
      unfold act_after. cbn [completes]. rewrite <- (releases_holder st c k s O) by (intros ->; rewrite skey_eqb_refl in E; discriminate).
      destruct (releases st c k s); cbn [release s_subs s_act]; rewrite subs_eqb_refl; apply n_opt_eqb_refl.
    + destruct (terminated_inv st c id k s (sessions_get _ k s W' Hin)) as (_ & s1 & -> & _). reflexivity.
Qed.

Theorem step_frame_ok st o :
  wf st -> Own st -> TempsOk st -> frame_ok st o (fst (step st o)) (snd (step st o)) = true.
Proof. intros W O T. exact (frame_effect _ _ _ _ (step_effect st o) W (wf_step st o W) O T). Qed.

Theorem frame_along cap ops :
  Forall (fun x => let '(st, o, r, st') := x in frame_ok st o r st' = true) (trace (init cap) ops).
Proof. apply trace_forall_init. intros st o. apply step_frame_ok. Qed.
