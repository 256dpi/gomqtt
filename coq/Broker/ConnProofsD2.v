(* ConnProofsD2.v — model-level progress statements for C14 about the broker-connection
   model BC (Conn.v): once the three coroutines have stopped the cleanup events are
   enabled one after the other up to EClosed (cleanup_enabled), and while the
   connection is dying every coroutine is at a stopping point or has an enabled next
   event of its own (dying_stops).  Plus the model invariants they need. *)
From Coq Require Import List NArith Bool Lia.
From GM Require Import Base.Lts Codec.Packet Session.Ids Session.Store Session.StoreProofs
  Broker.Conn Broker.ConnSpec Broker.ConnBase
  Broker.ConnProofsA_lib Broker.ConnProofsD0.
Import ListNotations.
Open Scope N_scope.

(* ============================================================ invariants == *)

(* a goroutine has at most one role *)
Definition roles_ok (s : bc) : Prop :=
  forall g,
    (gproc s = Some g -> gdeq s <> Some g /\ gack s <> Some g /\ gcl s <> Some g) /\
    (gdeq s = Some g -> gack s <> Some g /\ gcl s <> Some g) /\
    (gack s = Some g -> gcl s <> Some g).

(* the cleanup goroutine is known exactly while the cleanup is under way *)
Definition cl_ok (s : bc) : Prop :=
  match lp s with
  | LNone => gcl s = None
  | LWillR | LWillDie | LTerm | LTermDie => gcl s <> None
  | _ => True
  end.

(* a coroutine that has made a step is known by its goroutine *)
Definition known_ok (s : bc) : Prop :=
  (match pp s with PFirst | PDone => True | _ => gproc s <> None end) /\
  (match dp s with DOff | DToken | DDone => True | _ => gdeq s <> None end) /\
  (match ap s with ADieLog | ADieClose => gack s <> None | _ => True end).

(* the resend list is never empty *)
Definition resend_ok (s : bc) : Prop := forall ps, pp s = PResend ps -> ps <> [].

Definition inv (s : bc) : Prop := roles_ok s /\ cl_ok s /\ known_ok s /\ resend_ok s.

Lemma not_some_of_false r g : is_role r g = false -> r <> Some g.
Proof. apply is_role_false. Qed.

Lemma roles_ok_learn s g p d a c :
  roles_ok s -> role_free s g = true ->
  (p = Some g /\ d = gdeq s /\ a = gack s /\ c = gcl s) \/
  (p = gproc s /\ d = Some g /\ a = gack s /\ c = gcl s) \/
  (p = gproc s /\ d = gdeq s /\ a = Some g /\ c = gcl s) \/
  (p = gproc s /\ d = gdeq s /\ a = gack s /\ c = Some g) ->
  roles_ok (set_roles s p d a c).
Proof.
  intros Hok Hf Hc g'. destruct (role_free_inv _ _ Hf) as (F1 & F2 & F3 & F4).
  apply is_role_false in F1, F2, F3, F4. destruct (Hok g') as (H1 & H2 & H3). sf.
  (* g had no role, so the one it gets is its only one; g' <> g keeps what it had *)
  destruct Hc as [(-> & -> & -> & ->)|[(-> & -> & -> & ->)|[(-> & -> & -> & ->)|(-> & -> & -> & ->)]]];
    intuition congruence.
Qed.

(* what the processor does to the other coroutines' control points *)
Lemma step_proc_pcs s e s' : step_proc s e = Some s' ->
  (ap s' = ap s \/ ap s' = AIdle) /\ (resend_ok s -> resend_ok s').
Proof.
  intros H. unfold resend_ok. inv_proc H; try dispatch_cases Hd; pp_cases; sfp.
  all: repeat split; auto; try (intros _ xps Hx; discriminate Hx); try (intros _ xps Hx; injection Hx as <-; discriminate).
Qed.

Lemma step_ack_pcs s e s' : step_ack s e = Some s' ->
  match ap s' with AOff => False | _ => True end.
Proof.
  intros H. unfold step_ack in H.
  destruct (ap s) eqn:Eap; destruct e; try discriminate H; bm H; inv_some H;
    unfold ack_token_back; try match goal with |- context [match ?p with Connect _ => _ | _ => _ end] => destruct p end;
    sf; try rewrite Eap; exact I.
Qed.

Lemma roles_ok_eq s s' :
  gproc s' = gproc s -> gdeq s' = gdeq s -> gack s' = gack s -> gcl s' = gcl s -> roles_ok s -> roles_ok s'.
Proof. intros E1 E2 E3 E4 H. unfold roles_ok. rewrite E1, E2, E3, E4. exact H. Qed.

Lemma cl_ok_eq s s' : lp s' = lp s -> gcl s' = gcl s -> cl_ok s -> cl_ok s'.
Proof. intros E1 E2 H. unfold cl_ok. rewrite E1, E2. exact H. Qed.

Lemma inv_moved s s' :
  inv s -> gproc s' = gproc s -> gdeq s' = gdeq s -> gack s' = gack s -> gcl s' = gcl s -> lp s' = lp s ->
  (pp s' = pp s \/ gproc s <> None) ->
  (dp s' = dp s \/ dp s' = DToken \/ gdeq s <> None) ->
  (ap s' = ap s \/ ap s' = AIdle \/ gack s <> None) ->
  (resend_ok s -> resend_ok s') -> inv s'.
Proof.
  intros (I1 & I2 & (K1 & K2 & K3) & I4) E1 E2 E3 E4 E5 Hp Hd Ha Hr. split; [|split; [|split; [split; [|split]|]]].
  - eapply roles_ok_eq; eassumption.
  - eapply cl_ok_eq; eassumption.
  - rewrite E1. destruct Hp as [->|Hp]; [exact K1|destruct (pp s'); try exact I; exact Hp].
  - rewrite E2. destruct Hd as [->|[->|Hd]]; [exact K2|exact I|destruct (dp s'); try exact I; exact Hd].
  - rewrite E3. destruct Ha as [->|[->|Ha]]; [exact K3|exact I|destruct (ap s'); try exact I; exact Ha].
  - exact (Hr I4).
Qed.

Lemma known_ok_roles s p d a c :
  (gproc s <> None -> p <> None) -> (gdeq s <> None -> d <> None) -> (gack s <> None -> a <> None) ->
  known_ok s -> known_ok (set_roles s p d a c).
Proof.
  intros H1 H2 H3 (K1 & K2 & K3). unfold known_ok; sf. split; [|split].
  - destruct (pp s); auto.
  - destruct (dp s); auto.
  - destruct (ap s); auto.
Qed.

Lemma inv_view s s1 g e : inv s -> proc_view s s1 g e \/ deq_view s s1 g \/ ack_view s s1 g -> inv s1.
Proof.
  intros (I1 & I2 & I3 & I4) Hv.
  assert (Hl : forall p d a, role_free s g = true ->
            (p = Some g /\ d = gdeq s /\ a = gack s) \/ (p = gproc s /\ d = Some g /\ a = gack s) \/
            (p = gproc s /\ d = gdeq s /\ a = Some g) -> inv (set_roles s p d a (gcl s))).
  { intros p d a Hf Hc. split; [|split; [exact I2|split; [|exact I4]]].
    - apply (roles_ok_learn s g); [exact I1|exact Hf|].
      destruct Hc as [(-> & -> & ->)|[(-> & -> & ->)|(-> & -> & ->)]]; [left|right; left|right; right; left]; repeat split; reflexivity.
    - destruct Hc as [(-> & -> & ->)|[(-> & -> & ->)|(-> & -> & ->)]]; apply known_ok_roles; auto; intros _; discriminate. }
  destruct Hv as [[[-> _]|(_ & Hf & -> & _)]|[[[-> _]|(_ & Hf & ->)]|[[-> _]|(_ & Hf & ->)]]];
    try exact (conj I1 (conj I2 (conj I3 I4))); apply Hl; auto.
Qed.

Lemma inv_view_cl s s1 g : inv s -> cl_view s s1 g ->
  roles_ok s1 /\ known_ok s1 /\ resend_ok s1 /\ gcl s1 = Some g.
Proof.
  intros (I1 & I2 & I3 & I4) [[-> Hg]|(Hn & Hf & ->)]; [exact (conj I1 (conj I3 (conj I4 Hg)))|].
  split; [|split; [|split; [|reflexivity]]].
  - apply roles_ok_learn with (g := g); [exact I1|exact Hf|right; right; right; repeat split; reflexivity].
  - apply known_ok_roles; auto.
  - exact I4.
Qed.

(* the invariant after a cleanup step of a known cleanup goroutine (or EClosed) *)
Lemma inv_cleanup s e s' :
  roles_ok s -> known_ok s -> resend_ok s -> (gcl s <> None \/ e = EClosed) ->
  step_cleanup s e = Some s' -> inv s'.
Proof.
  intros I1 I3 I4 Hg Hp.
  assert (Hl : match lp s' with LNone => False | LWillR | LWillDie | LTerm | LTermDie => gcl s <> None | _ => True end).
  { destruct (step_cleanup_cases _ _ _ Hp); subst; pp_cases; sf;
    try exact I; destruct Hg as [Hg|Hg]; try exact Hg; discriminate Hg. }
  destruct (step_cleanup_shape _ _ _ Hp) as (p & d & a & l & -> & Hx). sf.
  split; [|split; [|split]].
  - apply (roles_ok_eq s); try reflexivity; exact I1.
  - unfold cl_ok; sf. destruct l; try exact I; try exact Hl. contradiction.
  - destruct I3 as (K1 & K2 & K3). unfold known_ok; sf.
    destruct Hx as [(-> & -> & -> & _)|(_ & _ & -> & -> & ->)]; [repeat split; assumption|].
    split; [exact I|split; [destruct (dp s); exact I|destruct (ap s); exact I]].
  - unfold resend_ok in *; sf. destruct Hx as [(-> & _)|(_ & _ & -> & _)]; [exact I4|intros xps Hx; discriminate Hx].
Qed.

Lemma inv_step s e s' : inv s -> step s e = Some s' -> inv s'.
Proof.
  (* not by step_sweep: [inv] mentions the role fields, which learning changes *)
  intros HI H. destruct (step_cases _ _ _ H) as
    [He Hlp Hs|He Ho Hs|He Hq Hs|Hc|He Hc|g s1 Ho Hg Hc Hi Hv Hp|g s1 Ho Hg Hc Hi Hr1 Hv Hp
    |g s1 Ho Hg Hc Hi Hr1 Hr2 Hv Hp|g s1 Ho Hg Hc Hi Hr1 Hr2 Hr3 Hv Hp|g He Ho Hc Hi Hf Hs].
  - subst s'. unfold inv, roles_ok, cl_ok, known_ok, resend_ok, new_conn; sf.
    repeat split; try discriminate; auto.
  - subst s'. exact HI.
  - subst s'. exact HI.
  - destruct (step_clo_shape _ _ _ Hc) as (si & cl & dy & q & ->).
    apply (inv_moved s); try reflexivity; auto.
  - destruct HI as (I1 & I2 & I3 & I4). eapply inv_cleanup; try eassumption. right; exact He.
  - (* processor *)
    assert (Hgp : gproc s1 <> None) by (destruct Hv as [[-> Hx]|(_ & _ & -> & _)]; [rewrite Hx|]; discriminate).
    destruct (step_proc_frame _ _ _ Hp) as (_ & F1 & F2 & F3 & F4 & F5).
    destruct (step_proc_dp _ _ _ Hp) as (_ & P1). destruct (step_proc_pcs _ _ _ Hp) as (P2 & P3).
    apply (inv_moved s1); try assumption; [exact (inv_view _ _ g e HI (or_introl Hv))|right; exact Hgp|tauto|tauto].
  - (* dequeuer *)
    assert (Hgd : gdeq s1 <> None) by (destruct Hv as [[-> Hx]|(_ & _ & ->)]; [rewrite Hx|]; discriminate).
    destruct (step_deq_shape _ _ _ Hp) as (se & d & dy & t1 & t2 & t3 & ->).
    apply (inv_moved s1); try reflexivity; auto. exact (inv_view _ _ g e HI (or_intror (or_introl Hv))).
  - (* acker *)
    assert (Hga : gack s1 <> None) by (destruct Hv as [[-> Hx]|(_ & _ & ->)]; [rewrite Hx|]; discriminate).
    destruct (step_ack_shape _ _ _ Hp) as (a & dy & t1 & t2 & t3 & q & ->).
    apply (inv_moved s1); try reflexivity; auto. exact (inv_view _ _ g e HI (or_intror (or_intror Hv))).
  - (* cleanup *)
    destruct (inv_view_cl _ _ _ HI Hv) as (I1 & I3 & I4 & Hgc).
    eapply inv_cleanup; try eassumption. left. rewrite Hgc. discriminate.
  - subst s'. apply (inv_moved s); try reflexivity; auto.
Qed.

Lemma inv_init : inv bc_init.
Proof.
  unfold inv, roles_ok, cl_ok, known_ok, resend_ok, bc_init; sf. repeat split; try discriminate; auto.
Qed.

Theorem inv_reachable : forall es s, bc_run es = Some s -> inv s.
Proof. exact (bc_invariant inv inv_init inv_step). Qed.

(* ================================================= C14_cleanup_enabled == *)

Definition og (r : option N) : N := match r with Some g => g | None => 0 end.
Definition clo_g (c : closure) : N :=
  match c_stat c with CDel g | CDieLog g | CDieClose g | CRun g => g | _ => 0 end.
(* a goroutine number that is not in use *)
Definition fresh_g (s : bc) : N :=
  1 + N.max (og (gproc s)) (N.max (og (gdeq s)) (N.max (og (gack s)) (N.max (og (gcl s))
        (fold_right N.max 0 (map clo_g (clos s)))))).

Lemma is_role_above r g : og r < g -> is_role r g = false.
Proof.
  destruct r as [g'|]; cbn [og is_role]; [|reflexivity]. intros H. apply N.eqb_neq. lia.
Qed.

Lemma fresh_role_free s : role_free s (fresh_g s) = true.
Proof.
  unfold role_free, fresh_g. rewrite !is_role_above; [reflexivity| | | |]; lia.
Qed.

Lemma clo_on_above l g : fold_right N.max 0 (map clo_g l) < g -> existsb (clo_on g) l = false.
Proof.
  induction l as [|c l IH]; cbn [map fold_right existsb]; [reflexivity|]. intros H.
  rewrite IH by lia. rewrite orb_false_r. unfold clo_on. unfold clo_g in H.
  destruct (c_stat c); try reflexivity; apply N.eqb_neq; lia.
Qed.

Lemma fresh_not_in_closure s : in_closure s (fresh_g s) = false.
Proof. unfold in_closure. apply clo_on_above. unfold fresh_g. lia. Qed.

(* g is the cleanup goroutine, has no other role and is not inside a closure *)
Definition cl_only (s : bc) (g : N) : Prop :=
  gcl s = Some g /\ is_role (gproc s) g = false /\ is_role (gdeq s) g = false /\ is_role (gack s) g = false /\
  in_closure s g = false.

Lemma cl_only_set_lp s g l : cl_only s g -> cl_only (set_lp s l) g.
Proof. intros H. unfold cl_only, in_closure in *; sf; exact H. Qed.

Lemma roles_ok_above s g : roles_ok s ->
  (gdeq s = Some g -> is_role (gproc s) g = false) /\
  (gack s = Some g -> is_role (gproc s) g = false /\ is_role (gdeq s) g = false) /\
  (gcl s = Some g -> is_role (gproc s) g = false /\ is_role (gdeq s) g = false /\ is_role (gack s) g = false).
Proof.
  intros Hok. destruct (Hok g) as (H1 & H2 & H3).
  split; [|split]; intros Hr; repeat split; apply is_role_false_of; tauto.
Qed.

Lemma cl_only_of_inv s g : inv s -> gcl s = Some g -> in_closure s g = false -> cl_only s g.
Proof.
  intros (I1 & _) Hg Hc. destruct (roles_ok_above s g I1) as (_ & _ & H). destruct (H Hg) as (R1 & R2 & R3).
  repeat split; assumption.
Qed.

(* [step] tests the roles in the order processor, dequeuer, acker, cleanup *)
Lemma step_of_role s e g :
  special_event e = false -> ev_g e = Some g -> lp s <> LEnd -> step_clo s e = None -> in_closure s g = false ->
  (gproc s = Some g -> step s e = step_proc s e) /\
  (is_role (gproc s) g = false -> gdeq s = Some g -> step s e = step_deq s e) /\
  (is_role (gproc s) g = false -> is_role (gdeq s) g = false -> gack s = Some g -> step s e = step_ack s e) /\
  (is_role (gproc s) g = false -> is_role (gdeq s) g = false -> is_role (gack s) g = false -> gcl s = Some g ->
   step s e = step_cleanup s e).
Proof.
  intros Hs Hg Hl Hc Hi. rewrite (step_is_gen _ _ Hs). unfold step_gen.
  assert (Ho : conn_open s = true) by (unfold conn_open; destruct (lp s); try reflexivity; contradiction).
  rewrite Ho, Hg, Hc, Hi. cbn [negb first_some].
  repeat split; intros; repeat match goal with H : is_role _ _ = false |- _ => rewrite H; clear H end;
    match goal with H : _ = Some g |- _ => rewrite H end; rewrite is_role_some; reflexivity.
Qed.

Lemma step_to_cleanup s e g :
  special_event e = false -> ev_g e = Some g -> lp s <> LEnd -> step_clo s e = None -> cl_only s g ->
  step s e = step_cleanup s e.
Proof. intros Hs Hg Hl Hc (G & R1 & R2 & R3 & Hi). apply (step_of_role s e g); assumption. Qed.

(* the first cleanup event of a fresh goroutine is handled by step_cleanup *)
Lemma step_learn_cleanup s e g :
  match e with EPub g' _ None | ETerm g' _ => g' = g | _ => False end ->
  lp s <> LEnd -> gcl s = None -> role_free s g = true -> in_closure s g = false ->
  step s e = step_cleanup (set_roles s (gproc s) (gdeq s) (gack s) (Some g)) e.
Proof.
  intros He Hl Hn Hf Hi. destruct (role_free_inv _ _ Hf) as (R1 & R2 & R3 & R4).
  assert (Ho : conn_open s = true) by (unfold conn_open; destruct (lp s); try reflexivity; contradiction).
  destruct e; try contradiction; [destruct k; [contradiction|]|]; subst g0.
  all: unfold step; rewrite Ho; cbn [negb ev_g step_clo first_some].
  all: rewrite Hi, R1, R2, R3, R4; unfold bind, learn_cl, guard; rewrite Hn, Hf; reflexivity.
Qed.

Definition with_cl (s : bc) (g : N) : bc := set_roles s (gproc s) (gdeq s) (gack s) (Some g).

Lemma cl_only_start s g l : role_free s g = true -> in_closure s g = false -> cl_only (set_lp (freeze (with_cl s g)) l) g.
Proof.
  intros Hf Hi. destruct (role_free_inv _ _ Hf) as (R1 & R2 & R3 & R4).
  unfold cl_only, in_closure, with_cl in *; sf. repeat split; assumption.
Qed.

(* ---- the statement ---- *)

(* the first cleanup event, by a goroutine g that is new to the connection *)
Definition cl_next_start (s : bc) (g : N) : Prop :=
  match ph s, will s with
  | Connecting, _ => exists s', step s EClosed = Some s' /\ lp s' = LEnd
  | Connected, Some w => exists s', step s (EPub g w None) = Some s' /\ lp s' = LWillR /\ cl_only s' g
  | _, _ => forall ok, exists s', step s (ETerm g ok) = Some s' /\ lp s' = (if ok then LClosed else LTermDie) /\ cl_only s' g
  end.

(* the next cleanup event of the cleanup goroutine g *)
Definition cl_next_cont (s : bc) (g : N) : Prop :=
  match lp s with
  | LWillR => forall ok, exists s', step s (EPubRet g ok) = Some s' /\ lp s' = (if ok then LTerm else LWillDie) /\ cl_only s' g
  | LWillDie => exists s', step s (EDie g KBackend) = Some s' /\ lp s' = LTerm /\ cl_only s' g
  | LTerm => forall ok, exists s', step s (ETerm g ok) = Some s' /\ lp s' = (if ok then LClosed else LTermDie) /\ cl_only s' g
  | LTermDie => exists s', step s (EDie g KBackend) = Some s' /\ lp s' = LClosed /\ cl_only s' g
  | _ => True
  end.

(* the cleanup can proceed: the coroutines have stopped, resp. the cleanup goroutine is
   not held inside an acknowledgement closure *)
Definition cl_ready (s : bc) : Prop :=
  match lp s with
  | LNone => all_stopped s = true
  | LEnd => False
  | LClosed => True
  | _ => forall g, gcl s = Some g -> in_closure s g = false
  end.

Lemma cl_next_start_holds s g :
  inv s -> lp s = LNone -> all_stopped s = true -> role_free s g = true -> in_closure s g = false ->
  cl_next_start s g.
Proof.
  intros (_ & I2 & _) Hl Hst Hf Hi. unfold cl_ok in I2. rewrite Hl in I2.
  assert (Hne : lp s <> LEnd) by (rewrite Hl; discriminate).
  (* Publish of the will and Terminate are the first events of a goroutine new to the connection *)
  assert (Hs : forall e l, match e with EPub g' _ None | ETerm g' _ => g' = g | _ => False end ->
            step_cleanup (with_cl s g) e = Some (set_lp (freeze (with_cl s g)) l) ->
            exists s', step s e = Some s' /\ lp s' = l /\ cl_only s' g).
  { intros e l He E. eexists. rewrite (step_learn_cleanup s e g He Hne I2 Hf Hi). split; [exact E|].
    split; [reflexivity|apply cl_only_start; assumption]. }
  assert (Hterm : phase_geq_connected (ph s) = true -> (ph s = Connected -> will s = None) ->
            forall ok, exists s', step s (ETerm g ok) = Some s' /\ lp s' = (if ok then LClosed else LTermDie) /\ cl_only s' g).
  { intros Hph Hw ok. apply Hs; [reflexivity|]. unfold step_cleanup, with_cl, all_stopped, proc_can_stop, deq_can_stop, ack_can_stop in *; sf.
    rewrite Hl, Hst, Hph. destruct (ph s); try reflexivity. rewrite (Hw eq_refl). reflexivity. }
  unfold cl_next_start. destruct (ph s) eqn:Eph.
  - eexists. split; [cbn [step]; unfold step_cleanup; rewrite Hl, Hst, Eph; reflexivity|reflexivity].
  - destruct (will s) as [w|] eqn:Ew; [|apply Hterm; [reflexivity|reflexivity]].
    apply Hs; [reflexivity|]. unfold step_cleanup, guard, with_cl, all_stopped, proc_can_stop, deq_can_stop, ack_can_stop in *; sf.
    rewrite Hl, Hst, Eph, Ew, message_eqb_refl. reflexivity.
  - apply Hterm; [reflexivity|discriminate].
Qed.

Lemma cl_next_cont_holds s g : cl_only s g -> cl_next_cont s g.
Proof.
  intros Hc.
  assert (Hs : forall e l, special_event e = false -> ev_g e = Some g -> step_clo s e = None ->
            step_cleanup s e = Some (set_lp s l) -> lp s <> LEnd ->
            exists s', step s e = Some s' /\ lp s' = l /\ cl_only s' g).
  { intros e l He Hg Hcl E Hne. eexists. rewrite (step_to_cleanup s e g He Hg Hne Hcl Hc).
    split; [exact E|]. split; [reflexivity|apply cl_only_set_lp, Hc]. }
  unfold cl_next_cont. destruct (lp s) eqn:Hl; try exact I; try intros ok;
    (apply Hs; [reflexivity|reflexivity|reflexivity|unfold step_cleanup; rewrite Hl; reflexivity|discriminate]).
Qed.

Lemma cl_closed s : lp s = LClosed -> exists s', step s EClosed = Some s' /\ lp s' = LEnd.
Proof. intros Hl. eexists. split; [cbn [step]; unfold step_cleanup; rewrite Hl; reflexivity|reflexivity]. Qed.

(* ---- runs to EClosed ---- *)

Definition closes_within (n : nat) (s : bc) : Prop :=
  exists es s', (length es <= n)%nat /\ Lts.run step s (es ++ [EClosed]) = Some s' /\ lp s' = LEnd.

Lemma closes_now s s' : step s EClosed = Some s' -> lp s' = LEnd -> closes_within 0 s.
Proof. intros E Hl. exists [], s'. split; [apply le_n|]. split; [|exact Hl]. cbn [app Lts.run]. rewrite E. reflexivity. Qed.

Lemma closes_later n s e s1 : step s e = Some s1 -> closes_within n s1 -> closes_within (S n) s.
Proof.
  intros E (es & s' & Hn & Hr & Hl). exists (e :: es), s'. split; [apply le_n_S, Hn|]. split; [|exact Hl].
  cbn [app Lts.run]. rewrite E. exact Hr.
Qed.

Lemma closes_mono n m s : (n <= m)%nat -> closes_within n s -> closes_within m s.
Proof. intros Hnm (es & s' & Hn & H). exists es, s'. split; [lia|exact H]. Qed.

Lemma closes_closed s : lp s = LClosed -> closes_within 0 s.
Proof. intros Hl. destruct (cl_closed s Hl) as (s' & E & El). exact (closes_now _ _ E El). Qed.

Lemma closes_term s g : cl_only s g -> lp s = LTerm \/ lp s = LTermDie -> closes_within 1 s.
Proof.
  intros Hc Hl. pose proof (cl_next_cont_holds s g Hc) as Hn. unfold cl_next_cont in Hn.
  assert (Hx : exists e s', step s e = Some s' /\ lp s' = LClosed).
  { destruct Hl as [Hl|Hl]; rewrite Hl in Hn; [destruct (Hn true) as (s' & E & El & _)|destruct Hn as (s' & E & El & _)]; eauto. }
  destruct Hx as (e & s' & E & El). exact (closes_later _ _ _ _ E (closes_closed s' El)).
Qed.

Lemma closes_will s g : cl_only s g -> lp s = LWillR \/ lp s = LWillDie -> closes_within 2 s.
Proof.
  intros Hc Hl. pose proof (cl_next_cont_holds s g Hc) as Hn. unfold cl_next_cont in Hn.
  assert (Hx : exists e s', step s e = Some s' /\ lp s' = LTerm /\ cl_only s' g).
  { destruct Hl as [Hl|Hl]; rewrite Hl in Hn; [destruct (Hn true) as (s' & Hs')|destruct Hn as (s' & Hs')]; eauto. }
  destruct Hx as (e & s' & E & El & Hc'). apply (closes_later _ _ _ _ E). apply (closes_term s' g Hc'). left; exact El.
Qed.

Lemma cl_reaches_closed s : inv s -> cl_ready s -> closes_within 3 s.
Proof.
  intros HI Hr. pose proof HI as (_ & I2 & _). unfold cl_ok in I2. unfold cl_ready in Hr.
  assert (Hknown : lp s <> LNone -> lp s <> LClosed -> lp s <> LEnd -> exists g, cl_only s g).
  { intros H1 H2 H3. destruct (gcl s) as [g|] eqn:Eg; [|destruct (lp s); contradiction].
    exists g. apply cl_only_of_inv; [exact HI|exact Eg|]. destruct (lp s); try contradiction; apply Hr; reflexivity. }
  destruct (lp s) eqn:Hl.
  - pose proof (cl_next_start_holds s _ HI Hl Hr (fresh_role_free s) (fresh_not_in_closure s)) as Hn.
    unfold cl_next_start in Hn. destruct (ph s).
    + destruct Hn as (s' & E & El). apply (closes_mono 0); [lia|exact (closes_now _ _ E El)].
    + destruct (will s).
      * destruct Hn as (s' & E & El & Hc). apply (closes_later _ _ _ _ E). apply (closes_will s' _ Hc). left; exact El.
      * destruct (Hn true) as (s' & E & El & Hc). apply (closes_mono 1); [lia|].
        exact (closes_later _ _ _ _ E (closes_closed s' El)).
    + destruct (Hn true) as (s' & E & El & Hc). apply (closes_mono 1); [lia|].
      exact (closes_later _ _ _ _ E (closes_closed s' El)).
  - destruct Hknown as (g & Hc); try discriminate. apply (closes_mono 2); [lia|]. apply (closes_will s g Hc). left; exact Hl.
  - destruct Hknown as (g & Hc); try discriminate. apply (closes_mono 2); [lia|]. apply (closes_will s g Hc). right; exact Hl.
  - destruct Hknown as (g & Hc); try discriminate. apply (closes_mono 1); [lia|]. apply (closes_term s g Hc). left; exact Hl.
  - destruct Hknown as (g & Hc); try discriminate. apply (closes_mono 1); [lia|]. apply (closes_term s g Hc). right; exact Hl.
  - apply (closes_mono 0); [lia|]. exact (closes_closed s Hl).
  - contradiction.
Qed.

Theorem cleanup_enabled : forall es s, bc_run es = Some s ->
  (* a goroutine number new to the connection always exists *)
  (exists g, role_free s g = true /\ in_closure s g = false) /\
  (* once the three coroutines have stopped, any such goroutine can begin the cleanup:
     the will when due, else Terminate, else (client never authenticated) Closed *)
  (lp s = LNone -> all_stopped s = true ->
   forall g, role_free s g = true -> in_closure s g = false -> cl_next_start s g) /\
  (* while the cleanup is under way its goroutine is known ... *)
  (match lp s with LWillR | LWillDie | LTerm | LTermDie => exists g, gcl s = Some g | _ => True end) /\
  (* ... and, unless it is held inside an acknowledgement closure, its next event is enabled *)
  (forall g, gcl s = Some g -> in_closure s g = false -> cl_next_cont s g) /\
  (lp s = LClosed -> exists s', step s EClosed = Some s' /\ lp s' = LEnd) /\
  (* so the closed signal can fire within four further events *)
  (cl_ready s ->
   exists es' s', (length es' <= 3)%nat /\ Lts.run step s (es' ++ [EClosed]) = Some s' /\ lp s' = LEnd).
Proof.
  intros es s Hrun. pose proof (inv_reachable es s Hrun) as HI.
  split; [exists (fresh_g s); split; [apply fresh_role_free|apply fresh_not_in_closure]|].
  split; [intros Hl Hst g Hf Hi; apply cl_next_start_holds; assumption|].
  split.
  { destruct HI as (_ & I2 & _). unfold cl_ok in I2.
    destruct (lp s); try exact I; (destruct (gcl s) as [g|]; [exists g; reflexivity|contradiction]). }
  split; [intros g Hg Hi; apply cl_next_cont_holds, cl_only_of_inv; assumption|].
  split; [apply cl_closed|].
  apply cl_reaches_closed, HI.
Qed.

(* ===================================================== C14_dying_stops == *)

(* no goroutine is inside an acknowledgement closure *)
Definition clos_idle (s : bc) : bool := forallb clo_idle (clos s).

Lemma in_closure_idle s g : clos_idle s = true -> in_closure s g = false.
Proof.
  unfold clos_idle, in_closure. induction (clos s) as [|c l IH]; cbn [forallb existsb]; [reflexivity|].
  intros H. apply andb_true_iff in H as [H1 H2]. rewrite (IH H2), orb_false_r.
  unfold clo_idle in H1. unfold clo_on. destruct (c_stat c); try discriminate H1; reflexivity.
Qed.

Lemma clo_stat_find_idle l f :
  forallb clo_idle l = true -> f CReg = false -> f CDone = false -> clo_stat_find l f = None.
Proof.
  intros H Hr Hd. induction l as [|c l IH]; cbn [clo_stat_find forallb] in *; [reflexivity|].
  apply andb_true_iff in H as [H1 H2]. unfold clo_idle in H1.
  destruct (c_stat c); try discriminate H1; rewrite ?Hr, ?Hd; apply IH, H2.
Qed.

Lemma clo_del_find_idle l g id : forallb clo_idle l = true -> clo_del_find l g id = None.
Proof.
  intros H. induction l as [|c l IH]; cbn [clo_del_find forallb] in *; [reflexivity|].
  apply andb_true_iff in H as [H1 H2]. unfold clo_idle in H1.
  destruct (c_stat c); try discriminate H1; apply IH, H2.
Qed.

(* with all closures idle, only EAckCall / EAckRet are closure events *)
Lemma step_clo_idle s e : clos_idle s = true -> special_event e = false -> step_clo s e = None.
Proof.
  unfold clos_idle. intros H Hs. destruct e; cbn [special_event] in Hs; try discriminate Hs; cbn [step_clo]; try reflexivity.
  - rewrite clo_stat_find_idle; [reflexivity|exact H|reflexivity|reflexivity].
  - destruct d; [|reflexivity]. rewrite clo_del_find_idle; [reflexivity|exact H].
  - destruct k; try reflexivity. rewrite clo_stat_find_idle; [reflexivity|exact H|reflexivity|reflexivity].
Qed.

(* a closure key that is not in use *)
Definition fresh_k (s : bc) : N := 1 + fold_right N.max 0 (map c_k (clos s)).

Lemma clo_find_above l k : fold_right N.max 0 (map c_k l) < k -> clo_find l k = None.
Proof.
  induction l as [|c l IH]; cbn [map fold_right clo_find]; [reflexivity|]. intros H.
  destruct (N.eqb_spec (c_k c) k) as [E|_]; [lia|]. apply IH. lia.
Qed.

Lemma fresh_k_free s : clo_find (clos s) (fresh_k s) = None.
Proof. apply clo_find_above. unfold fresh_k. lia. Qed.

(* ---- classification of the control points ---- *)

Inductive pkind := KStop | KOwn | KRet.

(* processor: KStop = may have returned (proc_can_stop holds once dying);
   KRet = inside a backend call (Authenticate, Setup, Restore, Subscribe, Unsubscribe,
   Publish), waiting for it to return;  KOwn = its next event is an action of its own
   (a send, a receive that fails on the closed connection, a session operation, the
   next backend call, die / close) *)
Definition proc_kind (x : ppc) : pkind :=
  match x with
  | PDone | PLoop | PSubW _ _ | PUnsubW _ _ | PPub1W _ _ | PPub2W _ => KStop
  | PAuth _ | PSetup _ | PRestore | PSubR | PUnsubR | PPubR => KRet
  | _ => KOwn
  end.

(* dequeuer: DWait = inside Backend.Dequeue *)
Definition deq_kind (x : dpc) : pkind :=
  match x with
  | DOff | DToken | DDone => KStop
  | DWait => KRet
  | _ => KOwn
  end.

Definition ack_kind (x : apc) : pkind :=
  match x with AOff | AIdle | ADone => KStop | _ => KOwn end.

(* the return of a backend call *)
Definition ret_event (e : event) : bool :=
  match e with
  | EAuth _ _ | ESetup _ _ | ERestore _ _ | ESubRet _ _ | EUnsubRet _ _ | EPubRet _ _ | EDeqRet _ _ => true
  | _ => false
  end.

(* an action of the connection's own goroutine: needs nothing from the peer (no packet
   received), nothing from the backend (no call returning, no closure invoked) *)
Definition own_event (e : event) : bool :=
  match e with
  | ERxErr _ | ETx _ _ _ _ | EConnClose _ | ESub _ _ _ | EUnsub _ _ _ | EPub _ _ _ | EDeqCall _ | EDeqAck _
  | ENextId _ _ | ESave _ _ _ _ | ELookup _ _ _ _ | EDelete _ _ _ _ | EAll _ _ _ | EDie _ _ => true
  | _ => false
  end.

(* the next event of the processor (goroutine g; k a closure key not in use; ok: does the
   operation succeed) *)
Definition proc_next (s : bc) (g k : N) (ok : bool) : option event :=
  match pp s with
  | PFirst => Some (ERxErr g)
  | PAuth _ => Some (EAuth g (if ok then AOk else AErr))
  | PDeny => Some (ETx g (Connack false 5) false ok)
  | PSetup _ => Some (ESetup g SErr)
  | PConnack c r => Some (ETx g (Connack (negb (c_clean c) && r) 0) false ok)
  | PAll => Some (EAll g Outgoing (if ok then Some (store_all (s_out (sess s))) else None))
  | PResend (p :: _) => Some (ETx g (set_dup p) true ok)
  | PResend [] => None
  | PRestore => Some (ERestore g ok)
  | PSubR => Some (ESubRet g ok)
  | PUnsubR => Some (EUnsubRet g ok)
  | PPub0 m => Some (EPub g m None)
  | PPubR => Some (EPubRet g ok)
  | PPubrec id => Some (ETx g (Pubrec id) true ok)
  | PAckDel id => Some (EDelete g Outgoing id ok)
  | PRecSave id => Some (ESave g Outgoing (Pubrel id) ok)
  | PRelTx id => Some (ETx g (Pubrel id) true ok)
  | PRelLookup id => Some (ELookup g Incoming id (if ok then LRes (store_lookup (s_in (sess s)) id) else LErr))
  | PRelPub _ m => Some (EPub g m (Some k))
  | PCompTx id => Some (ETx g (Pubcomp id) true ok)
  | PPing => Some (ETx g Pingresp true ok)
  | PDisc | PDieClose => Some (EConnClose g)
  | PDieLog kd => Some (EDie g kd)
  | PDone | PLoop | PSubW _ _ | PUnsubW _ _ | PPub1W _ _ | PPub2W _ => None
  end.

Definition deq_next (s : bc) (g : N) (ok : bool) : option event :=
  match dp s with
  | DWait => Some (EDeqRet g (if ok then QNone else QErr))
  | DNextId _ _ => Some (ENextId g (fst (next_id (s_counter (sess s)))))
  | DSave p _ => Some (ESave g Outgoing p ok)
  | DBackAck _ => Some (EDeqAck g)
  | DSend p => Some (ETx g p true ok)
  | DDieLog kd => Some (EDie g kd)
  | DDieClose => Some (EConnClose g)
  | DOff | DToken | DDone => None
  end.

Definition ack_next (s : bc) (g : N) : option event :=
  match ap s with
  | ADieLog => Some (EDie g KTransport)
  | ADieClose => Some (EConnClose g)
  | _ => None
  end.

Lemma opt_packet_eqb_refl r : opt_packet_eqb r r = true.
Proof. unfold opt_packet_eqb. apply option_eqb_refl, packet_eqb_refl. Qed.

Lemma list_packet_eqb_refl l : list_eqb packet_eqb l l = true.
Proof. apply list_eqb_refl, packet_eqb_refl. Qed.

Lemma own_step s g :
  inv s -> lp s = LNone -> clos_idle s = true ->
  (gproc s = Some g -> forall e, special_event e = false -> ev_g e = Some g ->
   (exists s', step_proc s e = Some s') -> exists s', step s e = Some s' /\ gproc s' = Some g) /\
  (gdeq s = Some g -> forall e, special_event e = false -> ev_g e = Some g ->
   (exists s', step_deq s e = Some s') -> exists s', step s e = Some s' /\ gdeq s' = Some g) /\
  (gack s = Some g -> forall e, special_event e = false -> ev_g e = Some g ->
   (exists s', step_ack s e = Some s') -> exists s', step s e = Some s' /\ gack s' = Some g).
Proof.
  intros (I1 & _) Hl Hc.
  assert (Hne : lp s <> LEnd) by (rewrite Hl; discriminate).
  pose proof (fun e Hs Hg => step_of_role s e g Hs Hg Hne (step_clo_idle s e Hc Hs) (in_closure_idle s g Hc)) as Sr.
  destruct (roles_ok_above s g I1) as (Rd & Ra & _).
  split; [|split]; intros Hr e Hs Hg (s' & E); destruct (Sr e Hs Hg) as (Sp & Sd & Sa & _); exists s'.
  - rewrite (Sp Hr). split; [exact E|]. destruct (step_proc_frame _ _ _ E) as (_ & F & _). rewrite F. exact Hr.
  - rewrite (Sd (Rd Hr) Hr). split; [exact E|].
    destruct (step_deq_shape _ _ _ E) as (se & d & dy & t1 & t2 & t3 & ->). exact Hr.
  - destruct (Ra Hr) as (R1 & R2). rewrite (Sa R1 R2 Hr). split; [exact E|].
    destruct (step_ack_shape _ _ _ E) as (a & dy & t1 & t2 & t3 & q & ->). exact Hr.
Qed.

Lemma proc_progress s g k ok :
  inv s -> lp s = LNone -> clos_idle s = true -> dying s = true ->
  (gproc s = Some g \/ (gproc s = None /\ role_free s g = true)) -> clo_find (clos s) k = None ->
  match proc_next s g k ok with
  | Some e => ev_g e = Some g /\ (ret_event e = true <-> proc_kind (pp s) = KRet) /\
              (ret_event e = false -> own_event e = true) /\ exists s', step s e = Some s' /\ gproc s' = Some g
  | None => proc_kind (pp s) = KStop /\ proc_can_stop s = true
  end.
Proof.
  intros HI Hl Hc Hdy Hg Hk. pose proof HI as (_ & _ & (K1 & _) & I4).
  destruct Hg as [Hg|(Hg & Hf)].
  - (* the processor is known: it is enough that step_proc accepts the event *)
    pose proof (proj1 (own_step s g HI Hl Hc) Hg) as Hstep.
    unfold proc_next, proc_can_stop. destruct (pp s) eqn:Epp; try (split; [reflexivity|first [reflexivity|exact Hdy]]).
    all: try match goal with |- context [match ?l with [] => _ | _ :: _ => _ end] =>
           destruct l as [|xp xrest]; [exfalso; apply (I4 [] Epp); reflexivity|] end.
    all: (split; [reflexivity|split; [cbn [ret_event proc_kind]; split; intros Hx; try discriminate Hx; reflexivity|
                 split; [intros Hx; first [reflexivity|discriminate Hx]|]]]).
    all: apply Hstep; [reflexivity|reflexivity|]; unfold step_proc, die_p, guard; rewrite Epp.
    all: rewrite ?N.eqb_refl, ?message_eqb_refl, ?packet_eqb_refl, ?Bool.eqb_reflx; cbn [andb].
    all: try (destruct ok; eexists; reflexivity).
    + (* All: what is listed is the store *)
      destruct ok; cbn beta iota; rewrite ?list_packet_eqb_refl; eexists; reflexivity.
    + (* Lookup: the result is what the store holds *)
      destruct ok; cbn beta iota; rewrite ?opt_packet_eqb_refl; [|eexists; reflexivity].
      destruct (store_lookup _ _) as [[]|]; eexists; reflexivity.
    + (* Publish of a released message: the closure key is new *)
      unfold clo_reg. rewrite Hk. eexists; reflexivity.
    + (* die-log *)
      match goal with |- context [match ?kd with KTransport => _ | _ => _ end] => destruct kd end; eexists; reflexivity.
  - (* the processor has not made a step yet *)
    assert (Hp : pp s = PFirst \/ pp s = PDone).
    { destruct (pp s); try (exfalso; apply K1; exact Hg); auto. }
    unfold proc_next, proc_can_stop. destruct Hp as [Epp|Epp]; rewrite Epp; [|split; reflexivity].
    split; [reflexivity|split; [cbn [ret_event proc_kind]; split; intros Hx; discriminate Hx|split; [reflexivity|]]].
    destruct (role_free_inv _ _ Hf) as (R1 & R2 & R3 & R4).
    unfold step. unfold conn_open. rewrite Hl. cbn [negb ev_g step_clo first_some].
    rewrite (in_closure_idle _ g Hc), R1, R2, R3, R4. unfold bind, learn_proc, guard. rewrite Hg, Hf.
    unfold step_proc, die_p. change (pp (set_roles s (Some g) (gdeq s) (gack s) (gcl s))) with (pp s). rewrite Epp.
    eexists; split; [reflexivity|reflexivity].
Qed.

Lemma deq_progress s g ok :
  inv s -> lp s = LNone -> clos_idle s = true -> dying s = true -> (gdeq s <> None -> gdeq s = Some g) ->
  match deq_next s g ok with
  | Some e => ev_g e = Some g /\ (ret_event e = true <-> deq_kind (dp s) = KRet) /\
              (ret_event e = false -> own_event e = true) /\ exists s', step s e = Some s' /\ gdeq s' = Some g
  | None => deq_kind (dp s) = KStop /\ deq_can_stop s = true
  end.
Proof.
  intros HI Hl Hc Hdy Hg. pose proof HI as (_ & _ & (_ & K2 & _) & _).
  unfold deq_next, deq_can_stop. destruct (dp s) eqn:Edp; try (split; [reflexivity|first [reflexivity|exact Hdy]]).
  all: pose proof (proj1 (proj2 (own_step s g HI Hl Hc)) (Hg K2)) as Hstep.
  all: (split; [reflexivity|split; [cbn [ret_event deq_kind]; split; intros Hx; try discriminate Hx; reflexivity|
               split; [intros Hx; first [reflexivity|discriminate Hx]|]]]).
  all: apply Hstep; [reflexivity|reflexivity|]; unfold step_deq, guard; rewrite Edp.
  all: rewrite ?N.eqb_refl, ?packet_eqb_refl; cbn [andb].
  all: try (destruct ok; eexists; reflexivity).
  - (* the id handed out is the next one of the counter *)
    destruct (next_id (s_counter (sess s))) as [i c]. cbn [fst]. rewrite N.eqb_refl. eexists; reflexivity.
  - (* die-log *)
    match goal with |- context [match ?kd with KTransport => _ | _ => _ end] => destruct kd end; eexists; reflexivity.
Qed.

Lemma ack_progress s g :
  inv s -> lp s = LNone -> clos_idle s = true -> dying s = true -> (gack s <> None -> gack s = Some g) ->
  match ack_next s g with
  | Some e => ev_g e = Some g /\ ret_event e = false /\ own_event e = true /\
              exists s', step s e = Some s' /\ gack s' = Some g
  | None => ack_kind (ap s) = KStop /\ ack_can_stop s = true
  end.
Proof.
  intros HI Hl Hc Hdy Hg. pose proof HI as (_ & _ & (_ & _ & K3) & _).
  unfold ack_next, ack_can_stop. destruct (ap s) eqn:Eap; try (split; [reflexivity|first [reflexivity|exact Hdy]]).
  all: (split; [reflexivity|split; [reflexivity|split; [reflexivity|]]]).
  all: apply (proj2 (proj2 (own_step s g HI Hl Hc)) (Hg K3)); [reflexivity|reflexivity|].
  all: unfold step_ack; rewrite Eap; eexists; reflexivity.
Qed.

(* the goroutine of a coroutine (for the processor: any unused number if it has not
   made a step yet) *)
Definition proc_g (s : bc) : N := match gproc s with Some g => g | None => fresh_g s end.

Theorem dying_stops : forall es s, bc_run es = Some s ->
  dying s = true -> lp s = LNone -> clos_idle s = true ->
  forall ok,
  (* processor *)
  match proc_next s (proc_g s) (fresh_k s) ok with
  | Some e => ev_g e = Some (proc_g s) /\ (ret_event e = true <-> proc_kind (pp s) = KRet) /\
              (ret_event e = false -> own_event e = true) /\
              exists s', step s e = Some s' /\ gproc s' = Some (proc_g s)
  | None => proc_kind (pp s) = KStop /\ proc_can_stop s = true
  end /\
  (* dequeuer *)
  match deq_next s (og (gdeq s)) ok with
  | Some e => ev_g e = Some (og (gdeq s)) /\ (ret_event e = true <-> deq_kind (dp s) = KRet) /\
              (ret_event e = false -> own_event e = true) /\
              exists s', step s e = Some s' /\ gdeq s' = Some (og (gdeq s))
  | None => deq_kind (dp s) = KStop /\ deq_can_stop s = true
  end /\
  (* acker *)
  match ack_next s (og (gack s)) with
  | Some e => ev_g e = Some (og (gack s)) /\ ret_event e = false /\ own_event e = true /\
              exists s', step s e = Some s' /\ gack s' = Some (og (gack s))
  | None => ack_kind (ap s) = KStop /\ ack_can_stop s = true
  end.
Proof.
  intros es s Hrun Hdy Hl Hc ok. pose proof (inv_reachable es s Hrun) as HI.
  split; [|split].
  - apply proc_progress; try assumption; [|apply fresh_k_free].
    unfold proc_g. destruct (gproc s) as [g|] eqn:E; [left; reflexivity|right; split; [reflexivity|apply fresh_role_free]].
  - apply deq_progress; try assumption. destruct (gdeq s); [reflexivity|intros Hx; contradiction].
  - apply ack_progress; try assumption. destruct (gack s); [reflexivity|intros Hx; contradiction].
Qed.

Lemma kind_of_event (k : pkind) e :
  (ret_event e = true <-> k = KRet) -> (ret_event e = false -> own_event e = true) -> k <> KStop ->
  if ret_event e then k = KRet else own_event e = true /\ k = KOwn.
Proof.
  intros Hr Ho Hk. destruct (ret_event e); [apply Hr; reflexivity|]. split; [apply Ho; reflexivity|].
  destruct k; [contradiction|reflexivity|]. destruct Hr as [_ Hr]. discriminate (Hr eq_refl).
Qed.

(* consequences in words: every control point is classified, and the classification
   of the enabled event agrees with it *)
Corollary dying_stops_summary : forall es s, bc_run es = Some s ->
  dying s = true -> lp s = LNone -> clos_idle s = true ->
  (proc_kind (pp s) = KStop -> proc_can_stop s = true) /\
  (deq_kind (dp s) = KStop -> deq_can_stop s = true) /\
  (ack_kind (ap s) = KStop -> ack_can_stop s = true) /\
  (proc_kind (pp s) <> KStop -> exists e s', step s e = Some s' /\ ev_g e = Some (proc_g s) /\
      (if ret_event e then proc_kind (pp s) = KRet else own_event e = true /\ proc_kind (pp s) = KOwn)) /\
  (deq_kind (dp s) <> KStop -> exists e s', step s e = Some s' /\ ev_g e = Some (og (gdeq s)) /\
      (if ret_event e then deq_kind (dp s) = KRet else own_event e = true /\ deq_kind (dp s) = KOwn)) /\
  (ack_kind (ap s) <> KStop -> exists e s', step s e = Some s' /\ ev_g e = Some (og (gack s)) /\
      ret_event e = false /\ own_event e = true).
Proof.
  intros es s Hrun Hdy Hl Hc. destruct (dying_stops es s Hrun Hdy Hl Hc true) as (Hp & Hd & Ha).
  split; [|split; [|split; [|split; [|split]]]].
  - intros Hk. unfold proc_can_stop. destruct (pp s); try discriminate Hk; try reflexivity; exact Hdy.
  - intros Hk. unfold deq_can_stop. destruct (dp s); try discriminate Hk; try reflexivity; exact Hdy.
  - intros Hk. unfold ack_can_stop. destruct (ap s); try discriminate Hk; try reflexivity; exact Hdy.
  - intros Hk. destruct (proc_next s (proc_g s) (fresh_k s) true) as [e|]; [|destruct Hp as [Hx _]; contradiction].
    destruct Hp as (Hg & Hr & Ho & s' & Hs & _). exists e, s'. split; [exact Hs|split; [exact Hg|]].
    exact (kind_of_event _ e Hr Ho Hk).
  - intros Hk. destruct (deq_next s (og (gdeq s)) true) as [e|]; [|destruct Hd as [Hx _]; contradiction].
    destruct Hd as (Hg & Hr & Ho & s' & Hs & _). exists e, s'. split; [exact Hs|split; [exact Hg|]].
    exact (kind_of_event _ e Hr Ho Hk).
  - intros Hk. destruct (ack_next s (og (gack s))) as [e|]; [|destruct Ha as [Hx _]; contradiction].
    destruct Ha as (Hg & Hr & Ho & s' & Hs & _). exists e, s'. repeat split; assumption.
Qed.
