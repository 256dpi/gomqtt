(* ConnProofsA_sc.v — C20_single_connack: on every trace the model accepts, at most
   one CONNACK is sent per connection, and after a second CONNECT or a
   server-only packet the processor sends nothing any more. *)
From Coq Require Import List NArith Bool Lia.
From GM Require Import Base.Lts Codec.Packet Session.Ids Session.Store
  Broker.Conn Broker.ConnSpec Broker.ConnBase Broker.ConnProofsA_lib Broker.ConnProofsA_inv.
Import ListNotations.
Open Scope N_scope.

(* control points at which the CONNACK is still to come *)
Definition pre_connack (p : ppc) : bool :=
  match p with PFirst | PAuth _ | PDeny | PSetup _ | PConnack _ _ => true | _ => false end.

Definition is_connack (p : packet) : bool := match p with Connack _ _ => true | _ => false end.

Definition sc_R (s : bc) (t : sc_st) : Prop :=
  (pp s = PFirst -> sc_first t = []) /\
  (forall g, nmem g (sc_mute t) = true -> gproc s = Some g /\ dead_pp (pp s) = true) /\
  (sc_connacks t <> 0 -> pre_connack (pp s) = false).

Definition sc_neutral (e : event) : bool :=
  match e with ENewConn | ERx _ _ | ETx _ _ _ _ => false | _ => true end.

Lemma sc_neutral_step t e : sc_neutral e = true -> sc_step t e = Some t.
Proof. destruct e; cbn; intros H; try discriminate H; reflexivity. Qed.

Lemma clo_event_sc_neutral e : clo_event e = true -> sc_neutral e = true.
Proof. destruct e; cbn; intros H; try discriminate H; reflexivity. Qed.

Lemma sc_R_mono s s' t : gproc s' = gproc s -> (pp s' = PFirst -> pp s = PFirst) ->
  (dead_pp (pp s) = true -> dead_pp (pp s') = true) -> (pre_connack (pp s) = false -> pre_connack (pp s') = false) ->
  sc_R s t -> sc_R s' t.
Proof.
  intros Hg H1 H2 H3 (S1 & S2 & S3). unfold sc_R. rewrite Hg. repeat split.
  - intros Hx. apply S1, H1, Hx.
  - apply (S2 _ H).
  - apply H2, (S2 _ H).
  - intros Hc. apply H3, S3, Hc.
Qed.

Lemma sc_not_muted s t g : sc_R s t -> is_role (gproc s) g = false -> nmem g (sc_mute t) = false.
Proof.
  intros (_ & S2 & _) Hr. destruct (nmem g (sc_mute t)) eqn:Hm; [|reflexivity].
  destruct (S2 _ Hm) as [Hx _]. rewrite Hx, is_role_some in Hr. discriminate Hr.
Qed.

Lemma sc_R_cleanup s e s' t : step_cleanup s e = Some s' -> sc_R s t -> sc_R s' t.
Proof.
  intros H. destruct (step_cleanup_frame _ _ _ H) as (_ & _ & _ & Hg & _ & _ & [Hp|Hp] & _); apply sc_R_mono; rewrite ?Hp; auto; discriminate.
Qed.

(* the processor never returns to PFirst, stays dead once dead, and never returns
   to a control point before the CONNACK *)
Lemma step_proc_mono s e s' : step_proc s e = Some s' ->
  pp s' <> PFirst /\ (dead_pp (pp s) = true -> dead_pp (pp s') = true) /\
  (pre_connack (pp s) = false -> pre_connack (pp s') = false).
Proof.
  intros Hp. inv_proc Hp; try dispatch_cases Hd; sfp; pp_cases; cbn [dead_pp pre_connack];
    (split; [discriminate|]); split; intros Hx; try reflexivity; exfalso; pp_split; try rewrite Hpp in Hx; discriminate Hx.
Qed.

(* the only packets the processor sends *)
Lemma step_proc_tx s g p a ok s' : pp_ok (pp s) -> step_proc s (ETx g p a ok) = Some s' ->
  dead_pp (pp s) = false /\
  (is_connack p = true -> pre_connack (pp s) = true /\ pre_connack (pp s') = false).
Proof.
  intros Hok Hp. inv_proc_ev Hp; injection Ee as <- <- <- <-; pp_split; rewrite Hpp in *;
    (split; [reflexivity|]); intros Hc; try discriminate Hc; sfp; pp_cases; try (split; reflexivity).
  (* a re-sent packet comes from the outgoing store *)
  all: pose proof (all_ok_head _ _ _ Hok) as Hh; destruct p0; discriminate.
Qed.

Lemma step_proc_rx_loop s g p s' : step_proc s (ERx g p) = Some s' ->
  pp s = PFirst \/ (server_only p = true -> dead_pp (pp s') = true).
Proof.
  intros Hp. inv_proc_ev Hp; injection Ee as <- <-; [left; exact Hpp|right].
  intros Hso. destruct p0; try discriminate Hso; cbn [dispatch_pp] in Hd; injection Hd as <-; reflexivity.
Qed.

Ltac sc_proj := cbn [sc_connacks sc_first sc_mute] in *.

Lemma sc_step_lemma s t e s' :
  inv_store s -> sc_R s t -> step s e = Some s' -> exists t', sc_step t e = Some t' /\ sc_R s' t'.
Proof.
  intros Hi HR. refine (step_sweep (fun s t => inv_store s /\ sc_R s t) (fun t e s' => exists t', sc_step t e = Some t' /\ sc_R s' t')
                          _ _ _ _ _ _ _ _ _ _ s t e s' (conj Hi HR)); clear s t e s' Hi HR.
  - (* roles *) intros s t g d a c HP _ _. exact HP.
  - (* new *) intros s t _ _. eexists. split; [reflexivity|]. unfold sc_R; sf; sc_proj. repeat split; intros; try discriminate; auto.
    contradiction.
  - (* close-req *) intros s t [_ HR]. exists t. split; [reflexivity|exact HR].
  - (* quiescent *) intros s t [_ HR] _. exists t. split; [reflexivity|exact HR].
  - (* kill *) intros s t g [_ HR] _. exists t. split; [reflexivity|exact HR].
  - (* closure *) intros s t e s' [_ HR] Hc. exists t. split; [apply sc_neutral_step, clo_event_sc_neutral, (step_clo_event _ _ _ Hc)|].
    destruct (step_clo_shape _ _ _ Hc) as (se & cl & dy & q & ->). exact HR.
  - (* processor *)
    intros s s1 t e s' g [(_ & _ & Hppok & _) HR] _ Hv Hg Hp.
    assert (Hgp1 : gproc s1 = Some g) by (destruct Hv as [[-> Hx]|(_ & _ & -> & _)]; [exact Hx|reflexivity]).
    (* while the processor is unknown nobody is muted *)
    assert (HR1 : sc_R s1 t).
    { destruct Hv as [[-> _]|(Hn & _ & -> & _)]; [exact HR|]. destruct HR as (S1 & S2 & S3). repeat split; auto;
        destruct (S2 _ H) as [Hx _]; congruence. }
    assert (Hok1 : pp_ok (pp s1)) by (destruct Hv as [[-> _]|(_ & _ & -> & _)]; exact Hppok).
    clear HR Hv Hppok s. rename s1 into s.
    destruct (step_proc_frame _ _ _ Hp) as (_ & Fg & _).
    destruct (step_proc_mono _ _ _ Hp) as (M1 & M2 & M3).
    assert (Hkeep : sc_R s' t) by (apply (sc_R_mono s); auto; intros Hx; contradiction).
    destruct (sc_neutral e) eqn:Hn; [exists t; split; [apply sc_neutral_step, Hn|exact Hkeep]|].
    destruct Hkeep as (K1 & K2 & K3). destruct t as [connacks first mute]. sc_proj.
    destruct e; try discriminate Hn; cbn [ev_g] in Hg; try discriminate Hg; injection Hg as ->; cbn [sc_step]; sc_proj.
    + (* ERx: the first packet is noted, a server-only packet after it mutes the processor *)
      destruct (nmem g first) eqn:Hf; [destruct (server_only p) eqn:Hso|]; (eexists; split; [reflexivity|]);
        unfold sc_R; sc_proj; repeat split; auto; try contradiction; try (edestruct K2 as [? ?]; [eassumption|assumption]).
      * rewrite nmem_cons in H. apply orb_true_iff in H as [H|H]; [apply N.eqb_eq in H; congruence|apply (K2 _ H)].
      * rewrite nmem_cons in H. apply orb_true_iff in H as [H|H]; [|apply (K2 _ H)].
        destruct (step_proc_rx_loop _ _ _ _ Hp) as [Hx|Hx]; [|exact (Hx Hso)].
        destruct HR1 as (S1 & _). specialize (S1 Hx). sc_proj. rewrite S1 in Hf. discriminate Hf.
    + (* ETx: a muted processor is dead and sends nothing; the CONNACK is the first *)
      destruct (step_proc_tx _ _ _ _ _ _ Hok1 Hp) as [T1 T2].
      destruct (nmem g mute) eqn:Hm; [destruct HR1 as (_ & S2 & _); destruct (S2 _ Hm) as [_ Hx]; congruence|].
      destruct p; try (eexists; split; [reflexivity|exact (conj K1 (conj K2 K3))]).
      destruct (T2 eq_refl) as [T3 T4].
      destruct (N.ltb_spec 0 connacks) as [Hc0|Hc0].
      { destruct HR1 as (_ & _ & S3). sc_proj. rewrite S3 in T3 by lia. discriminate T3. }
      eexists. split; [reflexivity|exact (conj K1 (conj K2 (fun _ => T4)))].
  - (* dequeuer: sends PUBLISH packets, and is not the processor *)
    intros s t e s' g [(_ & _ & _ & Hdpok & _) HR] _ Hg _ R1 Hp. exists t. split.
    + pose proof (step_deq_event _ _ _ Hp) as Hev. destruct e; try discriminate Hev; try reflexivity.
      cbn [ev_g] in Hg. injection Hg as ->. destruct (step_deq_tx _ _ _ _ _ _ Hdpok Hp) as [_ Hpub].
      cbn [sc_step]. rewrite (sc_not_muted _ _ _ HR R1). destruct p; try discriminate Hpub; reflexivity.
    + destruct (step_deq_shape _ _ _ Hp) as (se & d & dy & t1 & t2 & t3 & ->). exact HR.
  - (* acker: sends acknowledgements, and is not the processor *)
    intros s t e s' g [(_ & _ & _ & _ & Hackok) HR] _ Hg _ R1 _ Hp. exists t. split.
    + pose proof (step_ack_event _ _ _ Hp) as Hev. destruct e; try discriminate Hev; try reflexivity.
      cbn [ev_g] in Hg. injection Hg as ->. destruct (step_ack_tx _ _ _ _ _ _ Hackok Hp) as [_ Hack].
      cbn [sc_step]. rewrite (sc_not_muted _ _ _ HR R1). destruct p; try discriminate Hack; reflexivity.
    + destruct (step_ack_shape _ _ _ Hp) as (a & dy & t1 & t2 & t3 & q & ->). exact HR.
  - (* cleanup *) intros s t e s' [_ HR] _ Hp. exists t. split; [|exact (sc_R_cleanup _ _ _ _ Hp HR)].
    apply sc_neutral_step. apply step_cleanup_event in Hp. destruct e; try discriminate Hp; reflexivity.
Qed.

Theorem c20_single_connack_holds : forall es s, bc_run es = Some s -> c20_single_connack es = true.
Proof.
  unfold c20_single_connack.
  apply (scan_sound_inv sc_step inv_store sc_R inv_store_init inv_store_step sc_step_lemma).
  unfold sc_R; cbn. repeat split; intros; try discriminate; auto; try contradiction.
Qed.
