(* BackendC13Protocol.v — the PROTOCOL part of C13 on the MemoryBackend model
   (Setup split into OSetup -> RSetupWait old / OMarkClosed / OSetupEnd):
     order      a takeover completes only after the displaced connection was terminated and then
                marked closed, both after the newcomer's Setup started waiting; while it waits no
                other Setup is enabled (setup mutex);
     many       any number of connections presenting one client id, in any interleaving: at most one
                of them is active, it is the one whose Setup completed last, every earlier one is
                terminated;
     chain      the takeover machinery (non-clean Setup, SetupEnd, MarkClosed, Terminate) never
                changes the subscriptions or the stored queue of a stored session.
   The cleanup-order assumption "a connection is marked closed only after its Terminate"
   (broker/client.go: cleanup() then close(closed); C12_will / C14_lifecycle on the connection
   model) is built into the model: OMarkClosed c is RMisuse unless c has terminated. *)
From Coq Require Import List NArith Bool Lia.
From Coq.Strings Require Import Byte.
From GM Require Import Codec.Packet Topic.MatchSpec Broker.Backend Broker.BackendSpec
  Broker.BackendProofs Broker.BackendProofsPublish Broker.BackendEffect Broker.BackendProofsSteps Broker.BackendProofsHist
  Broker.BackendC13 Broker.BackendC13Proofs Broker.BackendLog.
Import ListNotations.
Open Scope N_scope.

Definition stepT := (state * op * result * state)%type.

Lemma forallb_firstn {A} (f : A -> bool) l : forall n, forallb f l = true -> forallb f (firstn n l) = true.
Proof.
  induction l as [|x l IH]; intros [|n] H; cbn [firstn forallb] in *; try reflexivity.
  apply andb_true_iff in H as [H1 H2]. rewrite H1, (IH n H2). reflexivity.
Qed.

Lemma forallb_app_l {A} (f : A -> bool) l1 l2 : forallb f (l1 ++ l2) = true -> forallb f l1 = true.
Proof. rewrite forallb_app. intros H. apply andb_true_iff in H as [H _]. exact H. Qed.

(* ------------------------------------------------------------------ who terminated, who was marked closed *)
Definition terminated_in (c : conn) (l : list stepT) : Prop :=
  exists s s', In (s, OTerminate c, ROk, s') l.

(* a successful OMarkClosed c in l, with a successful OTerminate c before it *)
Definition closed_after_term (c : conn) (l : list stepT) : Prop :=
  exists a s s' b, l = a ++ (s, OMarkClosed c, ROk, s') :: b /\ terminated_in c a.

Lemma terminated_in_app c l l' : terminated_in c l -> terminated_in c (l ++ l').
Proof. intros (s & s' & H). exists s, s'. apply in_or_app; left; exact H. Qed.

Lemma closed_after_term_app c l l' : closed_after_term c l -> closed_after_term c (l ++ l').
Proof. intros (a & s & s' & b & -> & H). exists a, s, s', (b ++ l'). split; [rewrite <- app_assoc; reflexivity|exact H]. Qed.

Lemma closed_after_term_app_l c l' l : closed_after_term c l -> closed_after_term c (l' ++ l).
Proof.
  intros (a & s & s' & b & -> & (t & t' & H)). exists (l' ++ a), s, s', b. split; [apply app_assoc|].
  exists t, t'. apply in_or_app; right; exact H.
Qed.

(* the connection-lifecycle fields change only by the operation made for it *)
Lemma life_effect st o r st' :
  effect st o r st' ->
  (st_term st' = st_term st \/ exists c, o = OTerminate c /\ r = ROk /\ st_term st' = add_n c (st_term st)) /\
  (st_closed st' = st_closed st \/
   exists c, o = OMarkClosed c /\ r = ROk /\ mem_n c (st_term st) = true /\ st_closed st' = add_n c (st_closed st)).
Proof.
  intros [o0 r0 _|o0 r0 st0 B|c clean _ _|c id clean _ _ _ _|p _ _|c k s0 o0 r0 s2 _ _|c m got Hnb|c id _ _ _].
  - auto.
  - destruct B as [| | |c T|]; auto. split; [auto|]. right. exists c. auto.
  - auto.
  - split; left; [exact (g_term _ _ _ _ _ _ (setup_finish_granted _ c id clean))|exact (g_closed _ _ _ _ _ _ (setup_finish_granted _ c id clean))].
  - split; left; [apply (g_term _ _ _ _ _ _ (setup_finish_granted st _ _ _))|apply (g_closed _ _ _ _ _ _ (setup_finish_granted st _ _ _))].
  - destruct k; auto.
  - rewrite publish_unfold, Hnb. auto.
  - split; [right; exists c; auto|auto].
Qed.

(* in every history whoever is in st_term has terminated *)
Definition Lifecycle (past : list stepT) (st : state) : Prop :=
  forall c, mem_n c (st_term st) = true -> terminated_in c past.

Lemma lifecycle_step past st o :
  Lifecycle past st -> Lifecycle (past ++ [(st, o, fst (step st o), snd (step st o))]) (snd (step st o)).
Proof.
  intros L c H. destruct (proj1 (life_effect _ _ _ _ (step_effect st o))) as [E|(c0 & -> & Er & E)].
  - rewrite E in H. apply terminated_in_app, L, H.
  - rewrite E, mem_add_n in H. apply orb_true_iff in H as [H|H]; [|apply terminated_in_app, L, H].
    apply N.eqb_eq in H; subst c0. rewrite Er. exists st, (snd (step st (OTerminate c))).
    apply in_or_app; right; left; reflexivity.
Qed.

Lemma lifecycle_all cap ops : Lifecycle (trace (init cap) ops) (run_state (init cap) ops).
Proof. apply (history_invariant Lifecycle); [discriminate|apply lifecycle_step]. Qed.

(* while a takeover is pending no other Setup is enabled, and the pending Setup stays until its SetupEnd *)
Theorem setup_excluded st p c id clean :
  st_pending st = Some p -> step st (OSetup c id clean) = (RNotEnabled, st).
Proof. intros H. cbn [step]. unfold setup. rewrite H. reflexivity. Qed.

Theorem pending_persists st p o :
  st_pending st = Some p -> (forall t, o <> OSetupEnd t) -> st_pending (snd (step st o)) = Some p.
Proof.
  intros P Hn.
  destruct (step_effect st o) as [o r _|o r st' B|c clean P0 _|c id clean P0 _ _ _|p0 _ _|c k s0 o r s2 _ _|c m got Hnb|c id _ _ _];
    try congruence.
  - destruct B; try congruence; try exact P. exfalso. exact (Hn true eq_refl).
  - exfalso. exact (Hn false eq_refl).
  - destruct k; exact P.
  - rewrite publish_unfold, Hnb. exact P.
  - exact P.
Qed.

(* ------------------------------------------------------------------ (a) order, every history: the whole sequence
   Setup starts waiting  <  Terminate old  <  MarkClosed old  <  SetupEnd *)
Definition is_wait (p : pending) (x : stepT) : Prop :=
  exists s s', x = (s, OSetup (p_conn p) (p_id p) (p_clean p), RSetupWait (p_old p), s').

Definition Phase (past : list stepT) (st : state) : Prop :=
  forall p, st_pending st = Some p ->
    exists a w mid, past = a ++ w :: mid /\ is_wait p w /\
      (mem_n (p_old p) (st_term st) = true -> terminated_in (p_old p) mid) /\
      (mem_n (p_old p) (st_closed st) = true -> closed_after_term (p_old p) mid).

Lemma existing_get st id s : existing_session st id = Some s -> exists k, get_session st k = Some s.
Proof.
  unfold existing_session. destruct (alookup bytes_eqb id (st_stored st)) as [s0|] eqn:L.
  - intros E; injection E as ->. exists (KStored id). exact L.
  - destruct (alookup bytes_eqb id (st_active st)) as [cx|]; [|discriminate]. intros E. exists (KTemp cx). exact E.
Qed.

(* how the pending Setup changes *)
Lemma pending_step st o :
  Inv st ->
  let st' := snd (step st o) in
  st_pending st' = st_pending st \/ st_pending st' = None \/
  (st_pending st = None /\ exists c id clean c1,
     o = OSetup c id clean /\ fst (step st o) = RSetupWait c1 /\ st_pending st' = Some (Backend.Pend c id clean c1) /\
     mem_n c1 (st_term st) = false /\ mem_n c1 (st_closed st) = false /\
     st_term st' = st_term st /\ st_closed st' = st_closed st).
Proof.
  intros (C & _). cbv zeta.
  destruct (step_effect st o) as [o r _|o r st' B|c clean _ _|c id clean _ _ _ _|p _ _|c k s0 o r s2 _ _|c m got Hnb|c id _ _ _];
    auto.
  - destruct B as [|c id clean s c1 P _ _ Ex A| | |]; auto.
    right; right. split; [exact P|]. exists c, id, clean, c1. repeat split.
    (* the displaced connection holds a session, hence has neither terminated nor closed *)
    + destruct (existing_get st id s Ex) as [k G]. exact (proj1 (i_s1 _ C c1 k (i_s2 _ C k s c1 G A))).
    + destruct (existing_get st id s Ex) as [k G]. pose proof (proj1 (i_s1 _ C c1 k (i_s2 _ C k s c1 G A))) as NT.
      destruct (mem_n c1 (st_closed st)) eqn:Cl; [|reflexivity]. rewrite (i_closed _ C c1 Cl) in NT. discriminate.
  - right; left. apply (g_pending _ _ _ _ _ _ (setup_finish_granted _ c id clean)).
  - right; left. apply (g_pending _ _ _ _ _ _ (setup_finish_granted st _ _ _)).
  - left. destruct k; reflexivity.
  - left. rewrite publish_unfold, Hnb. reflexivity.
Qed.

Lemma phase_step past st o :
  Inv st -> Phase past st ->
  Phase (past ++ [(st, o, fst (step st o), snd (step st o))]) (snd (step st o)).
Proof.
  intros I Ph p P'. set (x := (st, o, fst (step st o), snd (step st o))).
  destruct (pending_step st o I) as [E|[E|(E0 & c & id & clean & c1 & Eo & Er & E & NT & NC & ET & EC)]].
  - (* same pending Setup: the new step is appended to the middle part *)
    rewrite E in P'. destruct (Ph p P') as (a & w & mid & -> & W & T & Cl).
    exists a, w, (mid ++ [x]). split; [rewrite <- app_assoc; reflexivity|]. split; [exact W|]. split.
    + intros H. destruct (proj1 (life_effect _ _ _ _ (step_effect st o))) as [Et|(c0 & Eo & Er & Et)].
      * rewrite Et in H. apply terminated_in_app, T, H.
      * rewrite Et, mem_add_n in H. apply orb_true_iff in H as [H|H]; [|apply terminated_in_app, T, H].
        apply N.eqb_eq in H. exists st, (snd (step st o)). apply in_or_app; right; left.
        unfold x. rewrite Er. subst o. rewrite H. reflexivity.
    + intros H. destruct (proj2 (life_effect _ _ _ _ (step_effect st o))) as [Ec|(c0 & Eo & Er & Tc & Ec)].
      * rewrite Ec in H. apply closed_after_term_app, Cl, H.
      * rewrite Ec, mem_add_n in H. apply orb_true_iff in H as [H|H]; [|apply closed_after_term_app, Cl, H].
        apply N.eqb_eq in H. subst c0.
        exists mid, st, (snd (step st o)), []. split; [unfold x; rewrite Er; subst o; reflexivity|]. apply T. exact Tc.
  - rewrite E in P'. discriminate.
  - rewrite E in P'. injection P' as <-. cbn [p_old p_conn p_id p_clean].
    exists past, x, []. split; [reflexivity|]. split.
    + exists st, (snd (step st o)). unfold x. rewrite Er, Eo. reflexivity.
    + rewrite ET, EC, NT, NC. split; discriminate.
Qed.

Lemma phase_all cap ops :
  Inv (run_state (init cap) ops) /\ Phase (trace (init cap) ops) (run_state (init cap) ops).
Proof.
  apply (history_invariant (fun past st => Inv st /\ Phase past st)).
  - split; [apply inv_init|discriminate].
  - intros past st o [I Ph]. split; [apply inv_step; assumption|apply phase_step; assumption].
Qed.

Theorem order_full cap ops l1 st b st' l2 :
  trace (init cap) ops = l1 ++ (st, OSetupEnd false, RSetup b, st') :: l2 ->
  exists p a w mid, st_pending st = Some p /\ l1 = a ++ w :: mid /\ is_wait p w /\ closed_after_term (p_old p) mid.
Proof.
  intros H. destruct (trace_split _ _ _ _ _ H) as (ops1 & o & ops2 & E1 & E2 & E3 & E4).
  injection E3 as Es Eo Er Es'. subst o.
  destruct (phase_all cap ops1) as [_ Ph]. rewrite <- E2, <- Es in Ph.
  cbn [step] in Er. rewrite <- Es in Er. unfold setup_end in Er.
  destruct (st_pending st) as [p|] eqn:P; [|discriminate].
  destruct (mem_n (p_old p) (st_closed st)) eqn:C; [|discriminate].
  destruct (Ph p P) as (a & w & mid & El & W & _ & Cl).
  exists p, a, w, mid. repeat split; auto.
Qed.

(* a weaker form: Terminate old, then MarkClosed old, precede the completion *)
Theorem order_any cap ops l1 st b st' l2 :
  trace (init cap) ops = l1 ++ (st, OSetupEnd false, RSetup b, st') :: l2 ->
  exists p, st_pending st = Some p /\ closed_after_term (p_old p) l1.
Proof.
  intros H. destruct (order_full _ _ _ _ _ _ _ H) as (p & a & w & mid & P & -> & _ & Cl).
  exists p. split; [exact P|]. apply (closed_after_term_app_l _ (a ++ [w])) in Cl. rewrite <- app_assoc in Cl. exact Cl.
Qed.

(* ------------------------------------------------------------------ (b) many contenders for one client id *)
(* the step completes a Setup: which client id, which connection *)
Definition completion_of (x : stepT) : option (bytes * conn) :=
  let '(st, o, r, _) := x in
  match r with
  | RSetup _ =>
      match o with
      | OSetup c id _ => Some (id, c)
      | OSetupEnd _ => match st_pending st with Some p => Some (p_id p, p_conn p) | None => None end
      | _ => None
      end
  | _ => None
  end.

(* the connections whose Setup for client id `id` completed, in order *)
Definition completions (id : bytes) (l : list stepT) : list conn :=
  flat_map (fun x => match completion_of x with
                     | Some (i, c) => if bytes_eqb i id then [c] else []
                     | None => [] end) l.

Lemma completions_snoc id l x :
  completions id (l ++ [x]) =
  completions id l ++ match completion_of x with Some (i, c) => if bytes_eqb i id then [c] else [] | None => [] end.
Proof. unfold completions. rewrite flat_map_app. cbn [flat_map]. rewrite app_nil_r. reflexivity. Qed.

Record Many (past : list stepT) (st : state) : Prop := {
  k1 : forall id c, id <> [] -> sess_of st c <> None -> cid_of st c = id -> exists l, completions id past = l ++ [c];
  k2 : forall id c, In c (completions id past) ->
         (sess_of st c <> None \/ mem_n c (st_term st) = true) /\ cid_of st c = id;
  k3 : forall id, NoDup (completions id past)
}.

Lemma nodup_snoc {A} (l : list A) x : NoDup l -> ~ In x l -> NoDup (l ++ [x]).
Proof.
  induction l as [|y l IH]; intros ND Hn; cbn [app]; [constructor; [intros []|constructor]|].
  inversion ND as [|? ? Hy ND']; subst. constructor.
  - rewrite in_app_iff. intros [H|[H|[]]]; [contradiction|subst; apply Hn; left; reflexivity].
  - apply IH; [exact ND'|intros H; apply Hn; right; exact H].
Qed.

(* a step that completes no Setup *)
Lemma many_keep past st x st' :
  Many past st -> completion_of x = None ->
  (forall c, sess_of st' c <> None -> sess_of st c <> None) ->
  (forall c, sess_of st c <> None \/ mem_n c (st_term st) = true -> cid_of st' c = cid_of st c) ->
  (forall c, sess_of st c <> None \/ mem_n c (st_term st) = true ->
             sess_of st' c <> None \/ mem_n c (st_term st') = true) ->
  Many (past ++ [x]) st'.
Proof.
  intros M Hx Hs Hc Ht.
  assert (E : forall id, completions id (past ++ [x]) = completions id past)
    by (intros id; rewrite completions_snoc, Hx, app_nil_r; reflexivity).
  constructor.
  - intros id c Hid H1 H2. rewrite E. pose proof (Hs c H1) as H1'. rewrite (Hc c (or_introl H1')) in H2.
    exact (k1 _ _ M id c Hid H1' H2).
  - intros id c Hin. rewrite E in Hin. destruct (k2 _ _ M id c Hin) as [H1 H2]. split; [exact (Ht c H1)|rewrite (Hc c H1); exact H2].
  - intros id. rewrite E. exact (k3 _ _ M id).
Qed.

(* a step that completes the Setup of connection c0 for client id id0: st1 is st with the client id recorded *)
Lemma many_add past st x st1 st' id0 c0 K S del :
  Many past st -> completion_of x = Some (id0, c0) -> granted st1 c0 K S del st' ->
  st_sess st1 = st_sess st -> st_term st1 = st_term st ->
  (forall c, c <> c0 -> cid_of st1 c = cid_of st c) -> cid_of st1 c0 = id0 ->
  sess_of st c0 = None -> mem_n c0 (st_term st) = false ->
  (id0 <> [] -> forall c, sess_of st c <> None -> cid_of st c <> id0) ->
  Many (past ++ [x]) st'.
Proof.
  intros M Hx Gr Es Et Hc C0 NS NT Hfree.
  assert (Sess' : forall c, sess_of st' c = if c =? c0 then Some K else sess_of st c).
  { intros c. unfold sess_of. rewrite (g_sess _ _ _ _ _ _ Gr), Es. apply (alookup_aset N.eqb N.eqb_eq). }
  assert (Cid' : forall c, cid_of st' c = cid_of st1 c) by (intros c; unfold cid_of; rewrite (g_cid _ _ _ _ _ _ Gr); reflexivity).
  assert (E : forall id, completions id (past ++ [x]) = completions id past ++ (if bytes_eqb id0 id then [c0] else []))
    by (intros id; rewrite completions_snoc, Hx; reflexivity).
  assert (Notin : forall id, ~ In c0 (completions id past)).
  { intros id Hin. destruct (k2 _ _ M id c0 Hin) as [[H|H] _]; congruence. }
  constructor.
  - intros id c Hid H1 H2. rewrite E. rewrite Sess' in H1. rewrite Cid' in H2. destruct (c =? c0) eqn:Ec.
    + apply N.eqb_eq in Ec; subst c. rewrite C0 in H2. rewrite H2, bytes_eqb_refl. eexists; reflexivity.
    + apply N.eqb_neq in Ec. rewrite (Hc c Ec) in H2.
      destruct (bytes_eqb id0 id) eqn:Ei.
      * apply bytes_eqb_eq in Ei. exfalso.
        assert (Hid0 : id0 <> []) by (rewrite Ei; exact Hid). apply (Hfree Hid0 c H1). rewrite Ei. exact H2.
      * rewrite app_nil_r. exact (k1 _ _ M id c Hid H1 H2).
  - intros id c Hin. rewrite E in Hin. rewrite Sess', Cid', (g_term _ _ _ _ _ _ Gr), Et. apply in_app_iff in Hin as [Hin|Hin].
    + destruct (k2 _ _ M id c Hin) as [H1 H2].
      assert (Hne : c <> c0) by (intros ->; exact (Notin id Hin)).
      rewrite (proj2 (N.eqb_neq _ _) Hne), (Hc c Hne). auto.
    + destruct (bytes_eqb id0 id) eqn:Ei; [|destruct Hin]. destruct Hin as [<-|[]].
      apply bytes_eqb_eq in Ei. rewrite N.eqb_refl. split; [left; discriminate|congruence].
  - intros id. rewrite E. destruct (bytes_eqb id0 id); [|rewrite app_nil_r; exact (k3 _ _ M id)].
    apply nodup_snoc; [exact (k3 _ _ M id)|exact (Notin id)].
Qed.

Lemma calm_completion st o r st' : calm o r = true -> completion_of (st, o, r, st') = None.
Proof. destruct r; try reflexivity; discriminate. Qed.

Lemma many_effect past st o r st' :
  effect st o r st' -> Inv st -> Many past st -> Many (past ++ [(st, o, r, st')]) st'.
Proof.
  intros E (C & Pe) M.
  assert (Fresh : forall c id x, alookup N.eqb c (st_cid st) = None ->
                    sess_of st x <> None \/ mem_n x (st_term st) = true -> cid_of (with_cid st c id) x = cid_of st x).
  { intros c id x H Hx. destruct (fresh_conn st c C H) as [NS NT]. rewrite cid_of_with.
    destruct (x =? c) eqn:Ex; [|reflexivity]. apply N.eqb_eq in Ex; subst x. destruct Hx; congruence. }
  destruct E as [o r I|o r st' B|c clean _ H|c id clean _ H Hid Ex|p P Cl|c k s0 o r s2 _ Pu|c m got Hnb|c id _ _ _].
  - apply (many_keep past st _ st M (calm_completion _ _ _ _ I)); auto.
  - apply (many_keep past st _ _ M (calm_completion _ _ _ _ (book_calm _ _ _ _ B)));
      destruct B as [c id clean _ H|c id clean s c1 _ H _ _ _| | |]; auto; intros x Hx; exact (Fresh c id x H Hx).
  - destruct (fresh_conn st c C H) as [NS NT].
    refine (many_add past st _ (with_cid st c []) _ [] c _ _ _ M _ (temp_session_granted _ c) eq_refl eq_refl _ _ NS NT _).
    + reflexivity.
    + intros x Hx. rewrite cid_of_with, (proj2 (N.eqb_neq _ _) Hx). reflexivity.
    + rewrite cid_of_with, N.eqb_refl. reflexivity.
    + intros Hn; contradiction.
  - destruct (fresh_conn st c C H) as [NS NT]. rewrite setup_finish_result.
    refine (many_add past st _ (with_cid st c id) _ id c _ _ _ M _ (setup_finish_granted _ c id clean) eq_refl eq_refl _ _ NS NT _).
    + reflexivity.
    + intros x Hx. rewrite cid_of_with, (proj2 (N.eqb_neq _ _) Hx). reflexivity.
    + rewrite cid_of_with, N.eqb_refl. reflexivity.
    + intros _ x Hx. apply neq_none_some in Hx as [k Hx]. exact (existing_free st id C Hid Ex x k Hx).
  - destruct (Pe p P) as (P1 & P2 & P3 & P4 & P5). rewrite setup_finish_result.
    refine (many_add past st _ st _ (p_id p) (p_conn p) _ _ _ M _ (setup_finish_granted st _ _ _) eq_refl eq_refl _ _ P3 P4 _).
    + cbn [completion_of]. rewrite P. reflexivity.
    + reflexivity.
    + unfold cid_of. rewrite P2. reflexivity.
    + intros _ x Hx Hc. apply neq_none_some in Hx as [k Hx]. pose proof (P5 x k Hx Hc) as ->.
      destruct (i_s1 _ C (p_old p) k Hx) as (NT & _). rewrite (i_closed _ C _ Cl) in NT. discriminate.
  - apply (many_keep past st _ _ M); [destruct Pu as [subs b _ room| | |]; [destruct (Nat.leb _ room)| | |]; reflexivity| | |];
      intros x Hx; destruct k; exact Hx || reflexivity.
  - apply (many_keep past st _ _ M); [destruct (pub_err st c m); reflexivity| | |];
      rewrite publish_unfold, Hnb; intros x Hx; exact Hx || reflexivity.
  - apply (many_keep past st _ _ M); [reflexivity| | |].
    + intros x Hx. unfold sess_of in *; cbn [terminated st_sess] in Hx. rewrite (alookup_aremove N.eqb N.eqb_eq) in Hx.
      destruct (x =? c); [congruence|exact Hx].
    + intros x _. reflexivity.
    + intros x Hx. unfold sess_of; cbn [terminated st_sess st_term]. rewrite (alookup_aremove N.eqb N.eqb_eq), mem_add_n.
      destruct (x =? c); [right; reflexivity|exact Hx].
Qed.

Lemma many_all cap ops :
  Inv (run_state (init cap) ops) /\ Many (trace (init cap) ops) (run_state (init cap) ops).
Proof.
  apply (history_invariant (fun past st => Inv st /\ Many past st)).
  - split; [apply inv_init|]. constructor.
    + intros id c _ H. exfalso; apply H; reflexivity.
    + intros id c [].
    + intros id. constructor.
  - intros past st o [I M]. split; [apply inv_step; assumption|apply (many_effect _ _ _ _ _ (step_effect st o) I M)].
Qed.

(* a connection is active for client id `id`: some session names it as its active connection *)
Definition active_for (st : state) (id : bytes) (c : conn) : Prop :=
  exists k s, get_session st k = Some s /\ s_act s = Some c /\ cid_of st c = id.

(* (b) any number of connections presenting one client id, any interleaving: at every point of
   the history at most one of them is active; it is the connection whose Setup for that id completed last; every
   connection whose Setup for that id completed earlier has terminated *)
Theorem many_contenders cap ops id :
  id <> [] ->
  let st := run_state (init cap) ops in
  let tr := trace (init cap) ops in
  (forall c, active_for st id c ->
     (exists l, completions id tr = l ++ [c] /\
                forall c', In c' l -> mem_n c' (st_term st) = true /\ terminated_in c' tr) /\
     (forall c2, active_for st id c2 -> c2 = c)) /\
  (forall c', In c' (completions id tr) -> active_for st id c' \/ terminated_in c' tr) /\
  NoDup (completions id tr).
Proof.
  intros Hid st tr. destruct (many_all cap ops) as [I M]. fold st tr in I, M.
  pose proof I as (C & _). pose proof (lifecycle_all cap ops) as L1. fold st tr in L1.
  assert (Sess : forall c, active_for st id c -> sess_of st c <> None /\ cid_of st c = id).
  { intros c (k & s & G & A & Hc). split; [rewrite (i_s2 _ C k s c G A); discriminate|exact Hc]. }
  split; [|split].
  - intros c Hc. destruct (Sess c Hc) as [S1 S2]. destruct (k1 _ _ M id c Hid S1 S2) as [l El]. split.
    + exists l. split; [exact El|]. intros c' Hin.
      assert (Hin' : In c' (completions id tr)) by (rewrite El; apply in_or_app; left; exact Hin).
      destruct (k2 _ _ M id c' Hin') as [[H|H] Hcid].
      * (* still holding a session: then it would be the last one too *)
        destruct (k1 _ _ M id c' Hid H Hcid) as [l' El']. rewrite El in El'. apply app_inj_tail in El' as [-> ->].
        exfalso. pose proof (k3 _ _ M id) as ND. rewrite El in ND. apply NoDup_remove_2 in ND. apply ND. rewrite app_nil_r. exact Hin.
      * split; [exact H|exact (L1 c' H)].
    + intros c2 Hc2. destruct (Sess c2 Hc2) as [T1 T2]. destruct (k1 _ _ M id c2 Hid T1 T2) as [l2 El2].
      rewrite El in El2. apply app_inj_tail in El2 as [_ ->]. reflexivity.
  - intros c' Hin. destruct (k2 _ _ M id c' Hin) as [[H|H] Hcid]; [|right; exact (L1 c' H)].
    left. apply neq_none_some in H as [k H]. destruct (i_s1 _ C c' k H) as (_ & _ & s & G & A). exists k, s. auto.
  - exact (k3 _ _ M id).
Qed.

(* ------------------------------------------------------------------ (c) the takeover machinery keeps the session *)
(* the operations a chain of non-clean takeovers consists of *)
Definition takeover_op (o : op) : bool :=
  match o with
  | OSetup _ _ false | OSetupEnd _ | OMarkClosed _ | OTerminate _ => true
  | _ => false
  end.

Definition NonCleanPending (st : state) : Prop :=
  match st_pending st with Some p => p_clean p = false | None => True end.

Lemma setup_finish_nonclean_stored st c id' id s :
  alookup bytes_eqb id (st_stored st) = Some s ->
  exists s', alookup bytes_eqb id (st_stored (snd (setup_finish st c id' false))) = Some s' /\
             s_subs s' = s_subs s /\ s_sq s' = s_sq s.
Proof.
  intros L. change (alookup bytes_eqb id (st_stored (snd ?x))) with (get_session (snd x) (KStored id)).
  rewrite (g_get _ _ _ _ _ _ (setup_finish_granted st c id' false)). cbn [skey_eqb andb finish_session get_session].
  destruct (bytes_eqb id id') eqn:E; [|exists s; auto]. apply bytes_eqb_eq in E; subst id'. rewrite L. eexists; split; [reflexivity|auto].
Qed.

Theorem takeover_step_keeps st o id s :
  takeover_op o = true -> NonCleanPending st ->
  alookup bytes_eqb id (st_stored st) = Some s ->
  NonCleanPending (snd (step st o)) /\
  exists s', alookup bytes_eqb id (st_stored (snd (step st o))) = Some s' /\
             s_subs s' = s_subs s /\ s_sq s' = s_sq s.
Proof.
  intros T NP L. unfold NonCleanPending in *.
  destruct (step_effect st o) as [o r _|o r st' B|c clean _ _|c id' clean _ _ _ _|p P _|c k s0 o r s2 _ Pu|c m got _|c id' _ _ _].
  - split; [exact NP|exists s; auto].
  - destruct B as [c id' clean _ _|c id' clean s1 c1 _ _ _ _ _|p _|c _|]; try discriminate T;
      (split; [|exists s; auto]); try exact I; try exact NP.
    destruct clean; [discriminate T|reflexivity].
  - split; [exact I|exists s; auto].
  - destruct clean; [discriminate T|]. rewrite (g_pending _ _ _ _ _ _ (setup_finish_granted _ c id' false)).
    split; [exact I|exact (setup_finish_nonclean_stored (with_cid st c id') c id' id s L)].
  - rewrite P in NP. rewrite NP, (g_pending _ _ _ _ _ _ (setup_finish_granted st _ _ false)).
    split; [exact I|exact (setup_finish_nonclean_stored st _ _ id s L)].
  - destruct Pu; discriminate T.
  - discriminate T.
  - split; [exact NP|]. change (alookup bytes_eqb id (st_stored ?x)) with (get_session x (KStored id)).
    rewrite terminated_get. cbn [skey_eqb get_session]. rewrite L. cbn [option_map].
    eexists; split; [reflexivity|]. destruct (releases st c (KStored id) s); auto.
Qed.

(* a whole chain c1 -> c2 -> ... -> cn: any sequence of takeover operations *)
Theorem handover_chain ops : forall st id s,
  forallb takeover_op ops = true -> NonCleanPending st ->
  alookup bytes_eqb id (st_stored st) = Some s ->
  exists s', alookup bytes_eqb id (st_stored (run_state st ops)) = Some s' /\
             s_subs s' = s_subs s /\ s_sq s' = s_sq s.
Proof.
  induction ops as [|o ops IH]; intros st id s T NP L.
  - exists s; auto.
  - cbn [forallb] in T. apply andb_true_iff in T as [T1 T2]. rewrite run_state_cons.
    destruct (takeover_step_keeps st o id s T1 NP L) as [NP' (s1 & L1 & E1 & E2)].
    destruct (IH _ id s1 T2 NP' L1) as (s' & L' & E1' & E2'). exists s'. split; [exact L'|]. split; congruence.
Qed.

(* and in the delivery log a takeover operation is no event for the stored queue: nothing enqueued, nothing
   dequeued, no reset — the stored queue after a chain is the one the publishes and dequeues of the history
   accumulated (C06_delivery_log) *)
Theorem takeover_no_event k st o r :
  takeover_op o = true ->
  enq_event k false st o r = [] /\ deq_count k false st o r = 0%nat /\ reset_event k false st o r = false.
Proof.
  intros T. unfold enq_event, deq_count, reset_event. cbn [andb].
  destruct o; try discriminate; repeat split; try reflexivity; destruct (get_session st k); reflexivity.
Qed.

(* subscriptions change only through Subscribe / Unsubscribe (C06_resub, C06_unsub say how): every other step keeps
   the subscriptions of every session that exists before and after it *)
Lemma setup_finish_subs st c id clean k s s' :
  alookup N.eqb c (st_temps st) = None ->
  get_session st k = Some s -> get_session (snd (setup_finish st c id clean)) k = Some s' -> s_subs s' = s_subs s.
Proof.
  intros Tc G G'. rewrite (g_get _ _ _ _ _ _ (setup_finish_granted st c id clean)) in G'. unfold finish_session in G'.
  destruct clean; cbn [andb] in G'.
  - destruct (skey_eqb k (KTemp c)) eqn:E; [apply skey_eqb_eq in E; subst k; cbn [get_session] in G; congruence|].
    destruct (skey_eqb k (KStored id)); congruence.
  - destruct (skey_eqb k (KStored id)) eqn:E; [|congruence].
    apply skey_eqb_eq in E; subst k. cbn [get_session] in G. rewrite G in G'. injection G' as <-. reflexivity.
Qed.

Theorem subs_only_by_subscribe st o k s s' :
  TempsOk st ->
  match o with OSubscribe _ _ _ | OUnsubscribe _ _ => False | _ => True end ->
  get_session st k = Some s -> get_session (snd (step st o)) k = Some s' -> s_subs s' = s_subs s.
Proof.
  intros [T1 T2] Ho G.
  destruct (step_effect st o) as [o r _|o r st' B|c clean _ H|c id clean _ H _ _|p P _|c k0 s0 o r s2 S Pu|c m got Hnb|c id _ _ _];
    intros G'.
  - congruence.
  - rewrite (book_get _ _ _ _ B) in G'. congruence.
  - rewrite (g_get _ _ _ _ _ _ (temp_session_granted _ c)), with_cid_get in G'. destruct (skey_eqb k (KTemp c)) eqn:E; [|congruence].
    apply skey_eqb_eq in E; subst k. cbn [get_session] in G. rewrite (T1 c H) in G. discriminate.
  - exact (setup_finish_subs (with_cid st c id) c id clean k s s' (T1 c H) G G').
  - exact (setup_finish_subs st _ _ _ k s s' (proj1 (T2 p P)) G G').
  - rewrite get_put in G'. destruct (skey_eqb k k0) eqn:E; [|congruence].
    apply skey_eqb_eq in E; subst k0. rewrite (session_of_get _ _ _ _ S) in G. injection G as <-. injection G' as <-.
    destruct Pu; try destruct Ho; reflexivity.
  - rewrite (get_session_published st c m got k Hnb), G in G'. injection G' as <-. apply deliver_subs.
  - destruct (terminated_inv st c id k s' G') as (_ & s1 & G1 & ->). replace s1 with s by congruence.
    destruct (releases st c k s); reflexivity.
Qed.
