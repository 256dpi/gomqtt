(* BackendC13Proofs.v — the uniqueness invariant of C13 (state part) holds after every history:
     unique_state : unique_ok (run_state (init cap) ops) = true.
   The proof goes through a stronger inductive invariant (Inv). *)
From Coq Require Import List NArith Bool Lia.
From Coq.Strings Require Import Byte.
From GM Require Import Codec.Packet Topic.MatchSpec Broker.Backend Broker.BackendSpec
  Broker.BackendProofs Broker.BackendProofsPublish Broker.BackendEffect Broker.BackendProofsSteps Broker.BackendProofsHist
  Broker.BackendC13.
Import ListNotations.
Open Scope N_scope.

Definition sess_of (st : state) (c : conn) : option skey := alookup N.eqb c (st_sess st).

Record Core (st : state) : Prop := {
  i_wf : wf st;
  i_act_nd : NoDup (map fst (st_active st));
  (* a connection that holds a session is live, the session is its own temporary one or the stored
     one of its client id, and that session names it as active *)
  i_s1 : forall c k, sess_of st c = Some k ->
           mem_n c (st_term st) = false /\
           (k = KTemp c \/ (k = KStored (cid_of st c) /\ cid_of st c <> [])) /\
           exists s, get_session st k = Some s /\ s_act s = Some c;
  (* and conversely *)
  i_s2 : forall k s c, get_session st k = Some s -> s_act s = Some c -> sess_of st c = Some k;
  (* the active map lists exactly the session-holding connections with a client id *)
  i_ac1 : forall id c, alookup bytes_eqb id (st_active st) = Some c ->
           id <> [] /\ cid_of st c = id /\ sess_of st c <> None;
  i_ac2 : forall c k, sess_of st c = Some k -> cid_of st c <> [] ->
           alookup bytes_eqb (cid_of st c) (st_active st) = Some c;
  (* a stored session and a temporary session never coexist for one client id *)
  i_x : forall id c, alookup bytes_eqb id (st_stored st) <> None -> sess_of st c = Some (KTemp c) -> cid_of st c <> id;
  i_st : forall id, alookup bytes_eqb id (st_stored st) <> None -> id <> [];
  i_t1 : forall c s, alookup N.eqb c (st_temps st) = Some s -> s_act s = Some c;
  i_cid : forall c, (sess_of st c <> None \/ mem_n c (st_term st) = true) -> alookup N.eqb c (st_cid st) <> None;
  i_closed : forall c, mem_n c (st_closed st) = true -> mem_n c (st_term st) = true
}.

Definition Pend (st : state) : Prop :=
  forall p, st_pending st = Some p ->
    p_id p <> [] /\ alookup N.eqb (p_conn p) (st_cid st) = Some (p_id p) /\
    sess_of st (p_conn p) = None /\ mem_n (p_conn p) (st_term st) = false /\
    (forall c k, sess_of st c = Some k -> cid_of st c = p_id p -> c = p_old p).

Definition Inv (st : state) : Prop := Core st /\ Pend st.

(* ------------------------------------------------------------------ small facts *)
Lemma mem_add_n c x l : mem_n c (add_n x l) = (c =? x) || mem_n c l.
Proof.
  unfold add_n. destruct (mem_n x l) eqn:E.
  - destruct (c =? x) eqn:C; [apply N.eqb_eq in C; subst; rewrite E; reflexivity|reflexivity].
  - unfold mem_n. cbn [existsb]. reflexivity.
Qed.

Lemma neq_none_some {A} (o : option A) : o <> None <-> exists x, o = Some x.
Proof. destruct o; split; [eauto|congruence|congruence|intros [x H]; discriminate]. Qed.

Lemma skey_neq_eqb a b : a <> b -> skey_eqb a b = false.
Proof. intros H. destruct (skey_eqb a b) eqn:E; [apply skey_eqb_eq in E; contradiction|reflexivity]. Qed.

Lemma cid_shape st c k : Core st -> sess_of st c = Some k -> k = KStored (cid_of st c) \/ k = KTemp c.
Proof. intros C H. destruct (i_s1 _ C c k H) as (_ & [X|[X _]] & _); auto. Qed.

Lemma inv_init cap : Inv (init cap).
Proof.
  split; [constructor|discriminate].
  - apply wf_init.
  - constructor.
  - discriminate.
  - intros k s c H. destruct k; discriminate.
  - discriminate.
  - discriminate.
  - intros id c H; exfalso; apply H; reflexivity.
  - intros id H; exfalso; apply H; reflexivity.
  - discriminate.
  - intros c [H|H]; [exfalso; apply H; reflexivity|discriminate].
  - discriminate.
Qed.

(* ------------------------------------------------------------------ steps that only rewrite queues and subscriptions *)
Record frame (st st' : state) : Prop := {
  f_sess : st_sess st' = st_sess st;
  f_cid : st_cid st' = st_cid st;
  f_term : st_term st' = st_term st;
  f_active : st_active st' = st_active st;
  f_pending : st_pending st' = st_pending st;
  f_closed : forall c, mem_n c (st_closed st') = true -> mem_n c (st_closed st) = true \/ mem_n c (st_term st) = true;
  f_wf : wf st';
  f_act : forall k, option_map s_act (get_session st' k) = option_map s_act (get_session st k)
}.

Lemma frame_get st st' k s' :
  frame st st' -> get_session st' k = Some s' -> exists s, get_session st k = Some s /\ s_act s = s_act s'.
Proof. intros F. exact (same_act_some _ _ s' (f_act _ _ F k)). Qed.

Lemma frame_get' st st' k s :
  frame st st' -> get_session st k = Some s -> exists s', get_session st' k = Some s' /\ s_act s' = s_act s.
Proof. intros F. exact (same_act_some _ _ s (eq_sym (f_act _ _ F k))). Qed.

Lemma inv_frame st st' : Inv st -> frame st st' -> Inv st'.
Proof.
  intros (C & P) F.
  assert (Ecid : forall c, cid_of st' c = cid_of st c) by (intros c; unfold cid_of; rewrite (f_cid _ _ F); reflexivity).
  assert (Esess : forall c, sess_of st' c = sess_of st c) by (intros c; unfold sess_of; rewrite (f_sess _ _ F); reflexivity).
  assert (Est : forall id, alookup bytes_eqb id (st_stored st') <> None <-> alookup bytes_eqb id (st_stored st) <> None).
  { intros id. pose proof (f_act _ _ F (KStored id)) as X. cbn [get_session] in X.
    destruct (alookup bytes_eqb id (st_stored st')), (alookup bytes_eqb id (st_stored st)); cbn in X; try discriminate; split; congruence. }
  split.
  - constructor.
    + exact (f_wf _ _ F).
    + rewrite (f_active _ _ F). exact (i_act_nd _ C).
    + intros c k H. rewrite Esess in H. destruct (i_s1 _ C c k H) as (H1 & H2 & s & G & A).
      rewrite (f_term _ _ F), Ecid. split; [exact H1|]. split; [exact H2|].
      destruct (frame_get' _ _ _ _ F G) as [s' [G' A']]. exists s'; split; [exact G'|congruence].
    + intros k s' c G A. destruct (frame_get _ _ _ _ F G) as [s [G0 A0]]. rewrite Esess.
      apply (i_s2 _ C k s c G0). congruence.
    + intros id c H. rewrite (f_active _ _ F) in H. rewrite Ecid, Esess. exact (i_ac1 _ C id c H).
    + intros c k H Hn. rewrite Esess in H. rewrite Ecid in *. rewrite (f_active _ _ F). exact (i_ac2 _ C c k H Hn).
    + intros id c H1 H2. rewrite Esess in H2. rewrite Ecid. apply (i_x _ C id c); [apply Est; exact H1|exact H2].
    + intros id H. apply (i_st _ C id). apply Est; exact H.
    + intros c s' G. destruct (frame_get _ _ (KTemp c) s' F G) as [s [G0 A0]]. rewrite <- A0. exact (i_t1 _ C c s G0).
    + intros c H. rewrite Esess, (f_term _ _ F) in H. rewrite (f_cid _ _ F). exact (i_cid _ C c H).
    + intros c H. rewrite (f_term _ _ F). destruct (f_closed _ _ F c H) as [H1|H1]; [exact (i_closed _ C c H1)|exact H1].
  - intros p H. rewrite (f_pending _ _ F) in H. destruct (P p H) as (P1 & P2 & P3 & P4 & P5).
    rewrite (f_cid _ _ F), Esess, (f_term _ _ F). repeat split; auto.
    intros c k Hs Hc. rewrite Esess in Hs. rewrite Ecid in Hc. exact (P5 c k Hs Hc).
Qed.

(* ------------------------------------------------------------------ Setup *)
Lemma fresh_conn st c :
  Core st -> alookup N.eqb c (st_cid st) = None -> sess_of st c = None /\ mem_n c (st_term st) = false.
Proof.
  intros C H. split.
  - destruct (sess_of st c) eqn:E; [|reflexivity]. exfalso. apply (i_cid _ C c); [left; congruence|exact H].
  - destruct (mem_n c (st_term st)) eqn:E; [|reflexivity]. exfalso. apply (i_cid _ C c); [right; exact E|exact H].
Qed.

Lemma cid_of_with st c id x : cid_of (with_cid st c id) x = if x =? c then id else cid_of st x.
Proof. unfold cid_of, with_cid. cbn [st_cid]. rewrite (alookup_aset N.eqb N.eqb_eq). destruct (x =? c); reflexivity. Qed.

Lemma core_with_cid st c id : Core st -> alookup N.eqb c (st_cid st) = None -> Core (with_cid st c id).
Proof.
  intros C H. destruct (fresh_conn st c C H) as [NS NT].
  assert (Same : forall x, sess_of st x <> None -> cid_of (with_cid st c id) x = cid_of st x).
  { intros x Hx. rewrite cid_of_with. destruct (x =? c) eqn:E; [|reflexivity]. apply N.eqb_eq in E; subst x. congruence. }
  constructor; try exact (i_wf _ C); try exact (i_act_nd _ C);
    try exact (i_s2 _ C); try exact (i_st _ C); try exact (i_t1 _ C); try exact (i_closed _ C).
  - intros x k Hs. change (sess_of st x = Some k) in Hs. rewrite (Same x) by congruence. exact (i_s1 _ C x k Hs).
  - intros i x Ha. change (alookup bytes_eqb i (st_active st) = Some x) in Ha.
    destruct (i_ac1 _ C i x Ha) as (H1 & H2 & H3). rewrite (Same x H3). auto.
  - intros x k Hs Hn. change (sess_of st x = Some k) in Hs. rewrite (Same x) in * by congruence. exact (i_ac2 _ C x k Hs Hn).
  - intros i x Hst Hs. change (sess_of st x = Some (KTemp x)) in Hs. rewrite (Same x) by congruence. exact (i_x _ C i x Hst Hs).
  - intros x Hx. change (sess_of st x <> None \/ mem_n x (st_term st) = true) in Hx.
    unfold with_cid; cbn [st_cid]. rewrite (alookup_aset N.eqb N.eqb_eq). destruct (x =? c); [discriminate|exact (i_cid _ C x Hx)].
Qed.

(* what setup_finish needs of the state it starts from *)
Record PreFinish (st : state) (c : conn) (id : bytes) : Prop := {
  pf_core : Core st;
  pf_id : id <> [];
  pf_cid : alookup N.eqb c (st_cid st) = Some id;
  pf_nosess : sess_of st c = None;
  pf_noterm : mem_n c (st_term st) = false;
  pf_free : forall c' k, sess_of st c' = Some k -> cid_of st c' <> id     (* no live connection with this client id *)
}.

Lemma pf_active_none st c id : PreFinish st c id -> alookup bytes_eqb id (st_active st) = None.
Proof.
  intros PF. destruct (alookup bytes_eqb id (st_active st)) as [c1|] eqn:A; [|reflexivity].
  destruct (i_ac1 _ (pf_core _ _ _ PF) id c1 A) as (_ & H2 & H3).
  apply neq_none_some in H3 as [k H3]. exfalso. exact (pf_free _ _ _ PF c1 k H3 H2).
Qed.

Lemma pf_stored_offline st c id s :
  PreFinish st c id -> alookup bytes_eqb id (st_stored st) = Some s -> s_act s = None.
Proof.
  intros PF L. destruct (s_act s) as [c1|] eqn:A; [|reflexivity]. exfalso.
  pose proof (i_s2 _ (pf_core _ _ _ PF) (KStored id) s c1 L A) as S.
  destruct (i_s1 _ (pf_core _ _ _ PF) c1 _ S) as (_ & [H|[H Hn]] & _); [discriminate|].
  injection H as H. exact (pf_free _ _ _ PF c1 _ S (eq_sym H)).
Qed.

Lemma pf_no_act st c id k s : PreFinish st c id -> get_session st k = Some s -> s_act s <> Some c.
Proof.
  intros PF G A. pose proof (i_s2 _ (pf_core _ _ _ PF) k s c G A) as S. rewrite (pf_nosess _ _ _ PF) in S. discriminate.
Qed.

(* Connection c, which has called Setup with client id `id` (possibly none) and holds no session, is handed session K:
   its own temporary one, or the stored one of its id.  No live connection has this id; a clean Setup removes the
   stored session of the id. *)
Lemma inv_granted st c id K S del st' :
  Core st -> granted st c K S del st' -> wf st' ->
  alookup N.eqb c (st_cid st) = Some id -> sess_of st c = None -> mem_n c (st_term st) = false ->
  (id <> [] -> forall c' k, sess_of st c' = Some k -> cid_of st c' <> id) ->
  (K = KTemp c \/ K = KStored id /\ id <> []) ->
  st_active st' = (if is_nil id then st_active st else aset bytes_eqb id c (st_active st)) ->
  (forall k, del k = true -> k = KStored id /\ K = KTemp c) ->
  (K = KTemp c -> id <> [] -> del (KStored id) = true) ->
  Inv st'.
Proof.
  intros C Gr W' CID NS NT Hfree HK Eact Hdel Hclean.
  assert (CIDc : cid_of st c = id) by (unfold cid_of; rewrite CID; reflexivity).
  assert (Ecid_of : forall x, cid_of st' x = cid_of st x) by (intros x; unfold cid_of; rewrite (g_cid _ _ _ _ _ _ Gr); reflexivity).
  assert (Sess' : forall x, sess_of st' x = if x =? c then Some K else sess_of st x).
  { intros x. unfold sess_of. rewrite (g_sess _ _ _ _ _ _ Gr). apply (alookup_aset N.eqb N.eqb_eq). }
  assert (Act' : forall i x, alookup bytes_eqb i (st_active st') = Some x <->
                   (id <> [] /\ i = id /\ x = c) \/ ((id <> [] -> i <> id) /\ alookup bytes_eqb i (st_active st) = Some x)).
  { intros i x. rewrite Eact. destruct id as [|b0 id0]; cbn [is_nil].
    - split; [intros H; right; split; [intros Hn; contradiction|exact H]|intros [(Hn & _)|[_ H]]; [contradiction|exact H]].
    - rewrite (alookup_aset bytes_eqb bytes_eqb_eq). destruct (bytes_eqb i (b0 :: id0)) eqn:E.
      + apply bytes_eqb_eq in E. split; [intros H; injection H as <-; left; repeat split; [discriminate|exact E]|].
        intros [(_ & _ & ->)|[Hn _]]; [reflexivity|exfalso; apply Hn; [discriminate|exact E]].
      + apply bytes_eqb_neq in E. split; [intros H; right; split; [intros _; exact E|exact H]|].
        intros [(_ & Hi & _)|[_ H]]; [contradiction|exact H]. }
  assert (Keep : forall c' k s, c' <> c -> sess_of st c' = Some k -> get_session st k = Some s -> get_session st' k = Some s).
  { intros c' k s Hc Hs G. destruct (i_s1 _ C c' k Hs) as (_ & Sh & _). rewrite (g_get _ _ _ _ _ _ Gr).
    assert (Hk : k <> K /\ k <> KStored id).
    { destruct Sh as [->|[-> Hn]].
      - split; [|discriminate]. destruct HK as [->|[-> _]]; [intros X; injection X as X; contradiction|discriminate].
      - assert (Hi : cid_of st c' <> id) by (intros X; rewrite X in Hn; exact (Hfree Hn c' _ Hs X)).
        split; [destruct HK as [->|[-> _]]; [discriminate|]|]; intros X; injection X as X; exact (Hi X). }
    rewrite (skey_neq_eqb _ _ (proj1 Hk)). destruct (del k) eqn:D; [|exact G].
    destruct (Hdel k D) as [-> _]. exfalso. exact (proj2 Hk eq_refl). }
  assert (Old : forall k s', get_session st' k = Some s' -> (k = K /\ s' = S) \/ (k <> K /\ get_session st k = Some s')).
  { intros k s' G. rewrite (g_get _ _ _ _ _ _ Gr) in G. destruct (skey_eqb k K) eqn:E.
    - apply skey_eqb_eq in E. injection G as <-. left; auto.
    - right. split; [intros ->; rewrite skey_eqb_refl in E; discriminate|]. destruct (del k); [discriminate|exact G]. }
  assert (StoredOld : forall i, alookup bytes_eqb i (st_stored st') <> None ->
                        (K = KStored id /\ i = id /\ id <> []) \/ alookup bytes_eqb i (st_stored st) <> None).
  { intros i Hst. apply neq_none_some in Hst as [s' L]. destruct (Old (KStored i) s' L) as [[E _]|[_ G]].
    - left. destruct HK as [->|[-> Hid]]; [discriminate|injection E as ->; auto].
    - right. cbn [get_session] in G. congruence. }
  split; [constructor|intros p H; rewrite (g_pending _ _ _ _ _ _ Gr) in H; discriminate].
  - exact W'.
  - rewrite Eact. destruct (is_nil id); [|apply (nodup_aset bytes_eqb bytes_eqb_eq)]; exact (i_act_nd _ C).
  - (* i_s1 *)
    intros c' k H. rewrite Sess' in H. rewrite (g_term _ _ _ _ _ _ Gr), Ecid_of.
    destruct (c' =? c) eqn:E.
    + apply N.eqb_eq in E; subst c'. injection H as <-. split; [exact NT|].
      split; [|exists S; split; [rewrite (g_get _ _ _ _ _ _ Gr), skey_eqb_refl; reflexivity|exact (g_act _ _ _ _ _ _ Gr)]].
      rewrite CIDc. destruct HK as [->|[-> Hid]]; auto.
    + apply N.eqb_neq in E. destruct (i_s1 _ C c' k H) as (H1 & H2 & s & G & A).
      split; [exact H1|]. split; [exact H2|]. exists s; split; [exact (Keep c' k s E H G)|exact A].
  - (* i_s2 *)
    intros k s' c1 G A. rewrite Sess'. destruct (Old k s' G) as [[-> ->]|[Hn G0]].
    + rewrite (g_act _ _ _ _ _ _ Gr) in A. injection A as <-. rewrite N.eqb_refl. reflexivity.
    + pose proof (i_s2 _ C k s' c1 G0 A) as S1. destruct (c1 =? c) eqn:E; [|exact S1]. apply N.eqb_eq in E; subst c1. congruence.
  - (* i_ac1 *)
    intros i c1 H. rewrite Ecid_of, Sess'. apply Act' in H as [(Hid & -> & ->)|[_ H]].
    + rewrite N.eqb_refl. repeat split; [exact Hid|exact CIDc|discriminate].
    + destruct (i_ac1 _ C i c1 H) as (H1 & H2 & H3). repeat split; [exact H1|exact H2|]. destruct (c1 =? c); [discriminate|exact H3].
  - (* i_ac2 *)
    intros c' k H Hn. rewrite Sess' in H. rewrite Ecid_of in *. apply Act'. destruct (c' =? c) eqn:E.
    + apply N.eqb_eq in E; subst c'. left. rewrite CIDc in *. auto.
    + apply N.eqb_neq in E. right. split; [intros Hid; exact (Hfree Hid c' k H)|exact (i_ac2 _ C c' k H Hn)].
  - (* i_x *)
    intros i c' Hst Hs. rewrite Sess' in Hs. rewrite Ecid_of. destruct (c' =? c) eqn:E.
    + (* the new temporary session: a stored session of its id would have been removed *)
      apply N.eqb_eq in E; subst c'. injection Hs as HKc. rewrite CIDc. intros <-.
      destruct (StoredOld id Hst) as [(E & _)|Hst0]; [congruence|]. pose proof (i_st _ C id Hst0) as Hid.
      apply Hst. change (get_session st' (KStored id) = None). rewrite (g_get _ _ _ _ _ _ Gr), HKc. cbn [skey_eqb].
      rewrite (Hclean HKc Hid). reflexivity.
    + destruct (StoredOld i Hst) as [(_ & -> & Hid)|Hst0]; [exact (Hfree Hid c' _ Hs)|exact (i_x _ C i c' Hst0 Hs)].
  - (* i_st *)
    intros i Hst. destruct (StoredOld i Hst) as [(_ & -> & Hid)|Hst0]; [exact Hid|exact (i_st _ C i Hst0)].
  - (* i_t1 *)
    intros c' s' L. destruct (Old (KTemp c') s' L) as [[E ->]|[_ G0]]; [|exact (i_t1 _ C c' s' G0)].
    destruct HK as [->|[-> _]]; [injection E as ->; exact (g_act _ _ _ _ _ _ Gr)|discriminate].
  - (* i_cid *)
    intros c' H. rewrite (g_cid _ _ _ _ _ _ Gr). rewrite Sess', (g_term _ _ _ _ _ _ Gr) in H. destruct (c' =? c) eqn:E.
    + apply N.eqb_eq in E; subst c'. rewrite CID; discriminate.
    + exact (i_cid _ C c' H).
  - intros c' H. rewrite (g_closed _ _ _ _ _ _ Gr) in H. rewrite (g_term _ _ _ _ _ _ Gr). exact (i_closed _ C c' H).
Qed.

Lemma inv_setup_finish st c id clean : PreFinish st c id -> Inv (snd (setup_finish st c id clean)).
Proof.
  intros PF. pose proof (pf_id _ _ _ PF) as Hid.
  apply (inv_granted st c id _ _ _ _ (pf_core _ _ _ PF) (setup_finish_granted st c id clean)
           (wf_setup_finish st c id clean (i_wf _ (pf_core _ _ _ PF))) (pf_cid _ _ _ PF) (pf_nosess _ _ _ PF) (pf_noterm _ _ _ PF)
           (fun _ => pf_free _ _ _ PF)).
  - destruct clean; auto.
  - rewrite setup_finish_active, (proj2 (is_nil_false id) Hid). reflexivity.
  - intros k D. apply andb_true_iff in D as [-> D]. apply skey_eqb_eq in D. auto.
  - destruct clean; [intros _ _; cbn; apply bytes_eqb_refl|discriminate].
Qed.

(* the session Setup looks up for a client id (stored first, then the temporary one of the active connection) *)
Lemma existing_owner st id s c1 :
  Core st -> id <> [] -> existing_session st id = Some s -> s_act s = Some c1 ->
  forall c' k, sess_of st c' = Some k -> cid_of st c' = id -> c' = c1.
Proof.
  intros C Hid E A c' k Hs Hc.
  assert (A' : alookup bytes_eqb id (st_active st) = Some c').
  { rewrite <- Hc. apply (i_ac2 _ C c' k Hs). rewrite Hc; exact Hid. }
  unfold existing_session in E. destruct (alookup bytes_eqb id (st_stored st)) as [s0|] eqn:L.
  - injection E as ->. pose proof (i_s2 _ C (KStored id) s c1 L A) as S1.
    destruct (i_s1 _ C c1 _ S1) as (_ & [X|[X Xn]] & _); [discriminate|]. injection X as X.
    pose proof (i_ac2 _ C c1 _ S1 Xn) as A1. rewrite <- X in A1. congruence.
  - rewrite A' in E. pose proof (i_t1 _ C c' s E) as T. congruence.
Qed.

Lemma existing_free st id :
  Core st -> id <> [] -> (forall s, existing_session st id = Some s -> s_act s = None) ->
  forall c' k, sess_of st c' = Some k -> cid_of st c' <> id.
Proof.
  intros C Hid E c' k Hs Hc.
  assert (A' : alookup bytes_eqb id (st_active st) = Some c').
  { rewrite <- Hc. apply (i_ac2 _ C c' k Hs). rewrite Hc; exact Hid. }
  destruct (i_s1 _ C c' k Hs) as (_ & Sh & s' & G & A).
  unfold existing_session in E. destruct (alookup bytes_eqb id (st_stored st)) as [s0|] eqn:L.
  - destruct Sh as [->|[-> _]].
    + apply (i_x _ C id c'); [congruence|exact Hs|exact Hc].
    + rewrite Hc in G. cbn [get_session] in G. rewrite L in G. injection G as <-. rewrite (E s0 eq_refl) in A. discriminate.
  - rewrite A' in E. destruct Sh as [->|[-> _]].
    + cbn [get_session] in G. rewrite (E s' G) in A. discriminate.
    + rewrite Hc in G. cbn [get_session] in G. congruence.
Qed.

(* ------------------------------------------------------------------ Terminate *)
Lemma inv_terminate st (c : conn) id :
  Inv st -> alookup N.eqb c (st_cid st) = Some id -> mem_n c (st_term st) = false ->
  (forall p, st_pending st = Some p -> p_conn p <> c) -> Inv (terminated st c id).
Proof.
  intros (C & Pe) CID T PC. set (st' := terminated st c id).
  assert (CIDc : cid_of st c = id) by (unfold cid_of; rewrite CID; reflexivity).
  assert (Sess' : forall x, sess_of st' x = if x =? c then None else sess_of st x).
  { intros x. unfold sess_of, st'. cbn [terminated st_sess]. apply (alookup_aremove N.eqb N.eqb_eq). }
  assert (Term' : forall x, mem_n x (st_term st') = (x =? c) || mem_n x (st_term st)) by (intros x; apply mem_add_n).
  assert (Act' : forall i x, alookup bytes_eqb i (st_active st') = Some x <-> alookup bytes_eqb i (st_active st) = Some x /\ x <> c).
  { intros i x. unfold st'. cbn [terminated st_active].
    destruct (option_eqb N.eqb (alookup bytes_eqb id (st_active st)) (Some c)) eqn:E.
    - apply n_opt_eqb_eq in E. rewrite (alookup_aremove bytes_eqb bytes_eqb_eq). destruct (bytes_eqb i id) eqn:Ei.
      + apply bytes_eqb_eq in Ei; subst i. split; [discriminate|intros [H Hn]; congruence].
      + apply bytes_eqb_neq in Ei. split; [intros H; split; [exact H|]|intros [H _]; exact H].
        intros ->. destruct (i_ac1 _ C i c H) as (_ & H2 & _). congruence.
    - split; [intros H; split; [exact H|]|intros [H _]; exact H].
      intros ->. destruct (i_ac1 _ C i c H) as (_ & H2 & _). rewrite CIDc in H2. subst i. rewrite H, n_opt_eqb_refl in E. discriminate. }
  assert (Keep : forall k s x, get_session st k = Some s -> s_act s = Some x -> x <> c -> get_session st' k = Some s).
  { intros k s x G A Hx. unfold st'. rewrite terminated_get, G. cbn [option_map].
    assert (Hk : skey_eqb k (KTemp c) = false).
    { apply skey_neq_eqb. intros ->. pose proof (i_t1 _ C c s G). congruence. }
    rewrite Hk. destruct k as [y|i]; [reflexivity|]. cbn [releases]. rewrite A. cbn [option_eqb].
    rewrite (proj2 (N.eqb_neq x c) Hx), andb_false_r. reflexivity. }
  assert (Old : forall k s' x, get_session st' k = Some s' -> s_act s' = Some x -> get_session st k = Some s' /\ x <> c).
  { intros k s' x G A. destruct (terminated_inv st c id k s' G) as (Hk & s & G0 & ->).
    destruct (releases st c k s) eqn:R; [discriminate A|]. split; [exact G0|]. intros ->.
    pose proof (i_s2 _ C k s c G0 A) as S1. destruct (i_s1 _ C c k S1) as (_ & [->|[-> _]] & _); [exact (Hk eq_refl)|].
    cbn [releases] in R. unfold sess_of in S1. rewrite S1, A in R. cbn [option_eqb] in R. rewrite skey_eqb_refl, N.eqb_refl in R. discriminate. }
  assert (Stored' : forall i, alookup bytes_eqb i (st_stored st') <> None -> alookup bytes_eqb i (st_stored st) <> None).
  { intros i H. apply neq_none_some in H as [s' L]. destruct (terminated_inv st c id (KStored i) s' L) as (_ & s & G0 & _).
    cbn [get_session] in G0. congruence. }
  split; [constructor|].
  - apply (wf_effect st (OTerminate c) ROk); [apply fx_term; assumption|exact (i_wf _ C)].
  - unfold st'. cbn [terminated st_active]. destruct (option_eqb _ _ _); [apply (nodup_aremove bytes_eqb bytes_eqb_eq)|]; exact (i_act_nd _ C).
  - intros x k Hx. rewrite Sess' in Hx. destruct (x =? c) eqn:E; [discriminate|].
    destruct (i_s1 _ C x k Hx) as (H1 & H2 & s1 & G1 & A1). rewrite Term', E. split; [exact H1|]. split; [exact H2|].
    exists s1. split; [|exact A1]. apply N.eqb_neq in E. exact (Keep k s1 x G1 A1 E).
  - intros k s' x G' A'. destruct (Old k s' x G' A') as [G0 Hx]. rewrite Sess', (proj2 (N.eqb_neq x c) Hx). exact (i_s2 _ C k s' x G0 A').
  - intros i x Ha. apply Act' in Ha as [Ha Hx]. destruct (i_ac1 _ C i x Ha) as (H1 & H2 & H3).
    rewrite Sess', (proj2 (N.eqb_neq x c) Hx). auto.
  - intros x k Hx Hn. rewrite Sess' in Hx. destruct (x =? c) eqn:E; [discriminate|]. apply N.eqb_neq in E.
    apply Act'. split; [exact (i_ac2 _ C x k Hx Hn)|exact E].
  - intros i x Hst Hx. rewrite Sess' in Hx. destruct (x =? c); [discriminate|]. exact (i_x _ C i x (Stored' i Hst) Hx).
  - intros i Hst. exact (i_st _ C i (Stored' i Hst)).
  - intros x s' L. destruct (terminated_inv st c id (KTemp x) s' L) as (_ & s & G0 & ->). exact (i_t1 _ C x s G0).
  - intros x Hx. rewrite Sess', Term' in Hx. change (st_cid st') with (st_cid st).
    destruct (x =? c) eqn:E; [apply N.eqb_eq in E; subst x; congruence|exact (i_cid _ C x Hx)].
  - intros x Hx. change (st_closed st') with (st_closed st) in Hx. rewrite Term', (i_closed _ C x Hx). apply orb_true_r.
  - intros p Hp. change (st_pending st') with (st_pending st) in Hp. destruct (Pe p Hp) as (P1 & P2 & P3 & P4 & P5).
    rewrite Sess', Term', (proj2 (N.eqb_neq _ _) (PC p Hp)). repeat split; auto.
    intros x k Hx Hc. rewrite Sess' in Hx. destruct (x =? c); [discriminate|]. exact (P5 x k Hx Hc).
Qed.

(* ------------------------------------------------------------------ every step, every history *)
Lemma inv_effect st o r st' : effect st o r st' -> Inv st -> Inv st'.
Proof.
  intros E I. pose proof I as (C & Pe). pose proof (wf_effect _ _ _ _ E (i_wf _ C)) as W'.
  destruct E as [o r _|o r st' B|c clean _ H|c id clean _ H Hid Ex|p P Cl|c k s0 o r s2 S Pu|c m got Hnb|c id H T PC].
  - exact I.
  - destruct B as [c id clean _ H|c id clean s c1 _ H Hid Ex A|p _|c T|].
    + split; [exact (core_with_cid st c id C H)|discriminate].
    + (* takeover: wait for c1 *)
      pose proof (core_with_cid st c id C H) as C1. destruct (fresh_conn st c C H) as [NS NT].
      split; [destruct C1; constructor; assumption|].
      intros p Hp. injection Hp as <-. cbn [p_id p_conn p_old]. split; [exact Hid|].
      split; [apply with_cid_own|].
      split; [exact NS|]. split; [exact NT|]. exact (existing_owner _ id s c1 C1 Hid Ex A).
    + split; [destruct C; constructor; assumption|discriminate].
    + apply (inv_frame st _ I). constructor; try reflexivity; [|exact W'].
      intros x Hx. cbn [closed_conn st_closed] in Hx. rewrite mem_add_n in Hx. apply orb_true_iff in Hx as [Hx|Hx]; [|left; exact Hx].
      apply N.eqb_eq in Hx; subst x. right; exact T.
    + split; [destruct C; constructor; assumption|exact Pe].
  - pose proof (core_with_cid st c [] C H) as C1. destruct (fresh_conn st c C H) as [NS NT].
    apply (inv_granted _ c [] _ _ _ _ C1 (temp_session_granted _ c) W'); auto; try discriminate.
    apply with_cid_own.
  - pose proof (core_with_cid st c id C H) as C1. destruct (fresh_conn st c C H) as [NS NT].
    apply inv_setup_finish. constructor; auto.
    + apply with_cid_own.
    + exact (existing_free _ id C1 Hid Ex).
  - (* the displaced connection has closed, hence terminated: no live connection has the id *)
    destruct (Pe p P) as (P1 & P2 & P3 & P4 & P5). apply inv_setup_finish. constructor; auto.
    intros c' k Hs Hc. pose proof (P5 c' k Hs Hc) as ->.
    destruct (i_s1 _ C (p_old p) k Hs) as (NT & _). rewrite (i_closed _ C _ Cl) in NT. discriminate.
  - apply (inv_frame st _ I). constructor; try (destruct k; reflexivity); [intros x Hx; left; destruct k; exact Hx|exact W'|].
    intros k'. exact (put_keeps_act st c k s0 o r s2 k' S Pu).
  - apply (inv_frame st _ I). constructor; try (rewrite publish_unfold, Hnb; reflexivity); [|exact W'|].
    + intros x Hx. left. rewrite publish_unfold, Hnb in Hx. exact Hx.
    + intros k. exact (publish_keeps_act st c m got k Hnb).
  - exact (inv_terminate st c id I H T PC).
Qed.

Lemma inv_step st o : Inv st -> Inv (snd (step st o)).
Proof. apply inv_effect with (1 := step_effect st o). Qed.

Lemma inv_run ops : forall st, Inv st -> Inv (run_state st ops).
Proof. apply run_state_inv, inv_step. Qed.

Lemma inv_unique st : Inv st -> unique_ok st = true.
Proof.
  intros (C & _). unfold unique_ok. rewrite !andb_true_iff. split; [split|].
  - apply nodup_keys_iff. exact (i_act_nd _ C).
  - apply forallb_forall. intros [id c] Hin. cbn [fst snd].
    pose proof (In_alookup bytes_eqb bytes_eqb_eq id c _ (i_act_nd _ C) Hin) as A.
    destruct (i_ac1 _ C id c A) as (H1 & H2 & H3). apply neq_none_some in H3 as [k H3].
    destruct (i_s1 _ C c k H3) as (_ & _ & s & G & As).
    unfold sess_of in H3. rewrite H3, G, As, H2. rewrite n_opt_eqb_refl, bytes_eqb_refl. reflexivity.
  - apply forallb_forall. intros [k s] Hin. cbn [fst snd].
    pose proof (sessions_get st k s (i_wf _ C) Hin) as G.
    destruct (s_act s) as [c|] eqn:A; [|reflexivity].
    pose proof (i_s2 _ C k s c G A) as S. destruct (i_s1 _ C c k S) as (NT & _ & _).
    unfold sess_of in S. rewrite NT, S. cbn [option_eqb negb andb]. rewrite skey_eqb_refl.
    destruct (is_nil (cid_of st c)) eqn:E; [reflexivity|]. cbn [orb andb].
    apply is_nil_false in E. rewrite (i_ac2 _ C c k S E). apply n_opt_eqb_refl.
Qed.

(* C13, state part: after EVERY history (kill timeouts, failed Setups and backend Close included), client id ->
   active connection is a partial function, every entry names the connection that holds the session of that id, and
   a session's active connection is a live one that holds exactly that session and is the registered connection of
   its client id. *)
Theorem unique_state cap ops : unique_ok (run_state (init cap) ops) = true.
Proof. apply inv_unique, inv_run, inv_init. Qed.
