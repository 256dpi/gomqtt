(* ConnProofsD5.v — every trace accepted by the broker-connection model BC satisfies
   c15_resend_first (ConnSpec5.v): between Setup and Restore only the processor sends,
   CONNACK and then the stored packets in listing order, and nothing is dequeued. *)
From Coq Require Import List NArith Bool Lia.
From GM Require Import Base.Lts Codec.Packet Session.Ids Session.Store Session.StoreProofs
  Broker.Conn Broker.ConnSpec Broker.ConnSpec2 Broker.ConnSpec5 Broker.ConnBase
  Broker.ConnProofsC1 Broker.ConnProofsA_lib Broker.ConnProofsA_inv Broker.ConnProofsD0 Broker.ConnProofsD1.
Import ListNotations.
Open Scope N_scope.

(* the processor's control point during the resend window, against the scanner's to-do list *)
Definition rf_pc (x : ppc) (todo : option (list packet)) : Prop :=
  match x, todo with
  | PConnack _ _, None | PAll, None => True
  | PResend ps, Some q => q = map set_dup ps
  | PRestore, Some [] => True
  | _, _ => dead_pp x = true
  end.

(* while the window is open dequeuer and acker are off, as they are before Restore (INV of
   ConnProofsC1.v) and stay when the processor dies *)
Definition rf_R (s : bc) (t : rf_st) : Prop :=
  match t with
  | RfIdle => True
  | RfOpen g todo => dp s = DOff /\ ap s = AOff /\ gproc s = Some g /\ rf_pc (pp s) todo
  end.

Lemma clo_quiet_rf e : clo_event e = true -> quiet rf_step e. Proof. quiet_by e. Qed.
Lemma cleanup_quiet_rf e : cleanup_event e = true -> quiet rf_step e. Proof. quiet_by e. Qed.

Lemma rf_idle_step e : e <> ENewConn -> (forall g a b c d f, e <> ESetup g (SOk a b c d f)) -> rf_step RfIdle e = Some RfIdle.
Proof.
  intros H1 H2. destruct e; try reflexivity; try (exfalso; apply H1; reflexivity).
  destruct r; [reflexivity|]. exfalso. eapply H2. reflexivity.
Qed.

Lemma rf_proc s t e s' g :
  INV s -> rf_R s t -> gproc s = Some g -> ev_g e = Some g -> step_proc s e = Some s' ->
  exists t', rf_step t e = Some t' /\ rf_R s' t'.
Proof.
  intros HI HR Hgp Hg Hp. destruct t as [|g0 todo].
  - (* outside the window: it opens when Setup succeeds *)
    inv_proc Hp; try (exists RfIdle; split; [reflexivity|exact I]).
    cbn [ev_g] in Hg. injection Hg as ->. eexists. split; [reflexivity|].
    destruct (I_pre _ HI) as (A & B); [rewrite Hpp; reflexivity|]. repeat split; assumption.
  - (* inside the window *)
    destruct HR as (A & B & C & D). rewrite Hgp in C. injection C as <-.
    inv_proc Hp; pc_split; cbn [ev_g] in Hg; injection Hg as ->.
    all: match goal with H : pp _ = _ |- _ => rewrite H in D | _ => destruct (pp s); try discriminate end.
    all: cbn [rf_pc dead_pp] in D.
    (* the processor is on its way out *)
    all: try (exists (RfOpen g todo); split; [reflexivity|repeat split; first [assumption|reflexivity]]; fail).
    all: destruct todo as [[|q rest]|]; try discriminate D; try contradiction.
    + (* CONNACK *)
      exists (RfOpen g None). split; [cbn [rf_step]; rewrite N.eqb_refl; reflexivity|].
      repeat split; try assumption. destruct ok0; [exact I|reflexivity].
    + (* the stored packets are listed *)
      eexists. split; [cbn [rf_step]; rewrite N.eqb_refl; reflexivity|].
      repeat split; try assumption. sfp. unfold resend_next. destruct (store_all _); [exact I|reflexivity].
    + (* the next one is re-sent *)
      injection D as -> ->. eexists. split; [cbn [rf_step]; rewrite N.eqb_refl, packet_eqb_refl; reflexivity|].
      repeat split; try assumption. sfp. destruct ok0; [|reflexivity]. destruct rest0; [exact I|reflexivity].
    + (* Restore: the window closes *)
      exists RfIdle. split; [cbn [rf_step]; rewrite N.eqb_refl; reflexivity|exact I].
Qed.

Lemma rf_step_ok s t e s' : INV s -> rf_R s t -> step s e = Some s' -> exists t', rf_step t e = Some t' /\ rf_R s' t'.
Proof.
  intros HI HR. generalize (conj HI HR). clear HI HR. revert s t e s'.
  apply (step_sweep (fun s t => INV s /\ rf_R s t) (fun t e s' => exists t', rf_step t e = Some t' /\ rf_R s' t')).
  - (* roles *) intros s t g d a c (HI & HR) Hf Hl. split; [exact (INV_learns _ g _ _ _ HI Hf Hl)|exact HR].
  - (* new *) intros s t _ _. exists RfIdle. split; [reflexivity|exact I].
  - (* close-req *) intros s t (_ & HR). exists t. split; [destruct t; reflexivity|exact HR].
  - (* quiescent *) intros s t (_ & HR) _. exists t. split; [destruct t; reflexivity|exact HR].
  - (* kill *) intros s t g (_ & HR) _. exists t. split; [destruct t; reflexivity|exact HR].
  - (* closure *) intros s t e s' (_ & HR) Hc. apply sim_keep; [exact (clo_quiet_rf _ (step_clo_event _ _ _ Hc))|].
    destruct (step_clo_shape _ _ _ Hc) as (se & cl & dy & q & ->). exact HR.
  - (* processor *) intros s s1 t e s' g (HI & HR) _ Hv Hg Hp.
    assert (HR1 : rf_R s1 t /\ gproc s1 = Some g).
    { destruct Hv as [[-> Hgp]|(Hgp & _ & -> & _)]; [split; assumption|split; [|reflexivity]].
      destruct t as [|g0 todo]; [exact I|]. destruct HR as (_ & _ & C & _). congruence. }
    exact (rf_proc _ _ _ _ g (INV_proc_view _ _ _ _ HI Hv) (proj1 HR1) (proj2 HR1) Hg Hp).
  - (* dequeuer: switched off during the window *)
    intros s t e s' g (_ & HR) _ _ _ _ Hp.
    assert (Hoff : dp s <> DOff) by (intros E; unfold step_deq in Hp; rewrite E in Hp; destruct e; discriminate Hp).
    destruct t as [|g0 todo]; [|destruct HR as (A & _); contradiction].
    exists RfIdle. split; [pose proof (step_deq_event _ _ _ Hp) as He; destruct e; try discriminate He; reflexivity|exact I].
  - (* acker: switched off during the window *)
    intros s t e s' g (_ & HR) _ _ _ _ _ Hp.
    assert (Hoff : ap s <> AOff) by (intros E; unfold step_ack in Hp; rewrite E in Hp; destruct e; discriminate Hp).
    destruct t as [|g0 todo]; [|destruct HR as (_ & B & _); contradiction].
    exists RfIdle. split; [pose proof (step_ack_event _ _ _ Hp) as He; destruct e; try discriminate He; reflexivity|exact I].
  - (* cleanup *) intros s t e s' (_ & HR) _ Hp. apply sim_keep; [exact (cleanup_quiet_rf _ (step_cleanup_event _ _ _ Hp))|].
    destruct t as [|g0 todo]; [exact I|]. destruct HR as (A & B & C & D).
    destruct (step_cleanup_shape _ _ _ Hp) as (p & d & a & l & -> & Hx). unfold rf_R; sf.
    destruct Hx as [(-> & -> & -> & _)|(_ & _ & -> & -> & ->)]; [repeat split; assumption|].
    rewrite A, B. repeat split; assumption.
Qed.

Theorem c15_resend_first_holds : forall es s, bc_run es = Some s -> c15_resend_first es = true.
Proof. apply (scan_sound_inv rf_step INV rf_R INV_init INV_step rf_step_ok). exact I. Qed.
