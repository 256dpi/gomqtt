(* ConnClos.v — the closure table of the broker-connection model (Conn.v): lookup and
   update laws of clo_find / clo_set / clo_del_find / clo_stat_find, and the exact case
   analysis of a closure step. *)
From Coq Require Import List NArith Bool.
From GM Require Import Codec.Packet Session.Store Broker.Conn.
Import ListNotations.
Open Scope N_scope.

Definition ckeys (l : list closure) : list N := map c_k l.

Definition with_stat (c : closure) (st : cstat) : closure := Clo (c_k c) (c_conn c) (c_kind c) st.

Lemma clo_find_in l k c : clo_find l k = Some c -> In c l /\ c_k c = k.
Proof.
  induction l as [|x l IH]; cbn [clo_find]; [discriminate|].
  destruct (N.eqb_spec (c_k x) k) as [E|E]; intros H.
  - injection H as <-. split; [left; reflexivity|exact E].
  - destruct (IH H) as [H1 H2]. split; [right; exact H1|exact H2].
Qed.

Lemma clo_find_none l k : clo_find l k = None -> forall c, In c l -> c_k c <> k.
Proof.
  induction l as [|x l IH]; cbn [clo_find In]; [tauto|].
  destruct (N.eqb_spec (c_k x) k) as [E|E]; [discriminate|].
  intros H c [<-|Hc]; [exact E|apply IH; assumption].
Qed.

Lemma clo_find_none_keys l k : clo_find l k = None -> ~ In k (ckeys l).
Proof. intros H Hin. apply in_map_iff in Hin as (c & E & Hc). exact (clo_find_none _ _ H c Hc E). Qed.

Lemma clo_find_nodup l c : NoDup (ckeys l) -> In c l -> clo_find l (c_k c) = Some c.
Proof.
  induction l as [|x l IH]; cbn [ckeys map clo_find In]; [tauto|].
  intros Hnd [->|Hc]; [rewrite N.eqb_refl; reflexivity|].
  inversion Hnd as [|? ? Hx Hnd']; subst.
  destruct (N.eqb_spec (c_k x) (c_k c)) as [E|E]; [|apply IH; assumption].
  exfalso. apply Hx. rewrite E. apply in_map. exact Hc.
Qed.

Lemma ckeys_inj l x c : NoDup (ckeys l) -> In x l -> In c l -> c_k x = c_k c -> x = c.
Proof.
  intros Hnd Hx Hc E. pose proof (clo_find_nodup _ _ Hnd Hx) as F1. pose proof (clo_find_nodup _ _ Hnd Hc) as F2.
  rewrite E in F1. rewrite F2 in F1. congruence.
Qed.

Lemma clo_find_app l c k :
  clo_find (l ++ [c]) k = match clo_find l k with Some x => Some x | None => if c_k c =? k then Some c else None end.
Proof.
  induction l as [|x l IH]; cbn [clo_find app]; [reflexivity|]. destruct (c_k x =? k); [reflexivity|exact IH].
Qed.

Lemma clo_find_set_eq l k c st : clo_find l k = Some c -> clo_find (clo_set l k st) k = Some (with_stat c st).
Proof.
  induction l as [|x l IH]; cbn [clo_find clo_set]; [discriminate|]. destruct (c_k x =? k) eqn:E; intros H.
  - injection H as <-. cbn [clo_find c_k]. rewrite E. reflexivity.
  - cbn [clo_find]. rewrite E. apply IH, H.
Qed.

Lemma clo_find_set_ne l k k' st : k' <> k -> clo_find (clo_set l k st) k' = clo_find l k'.
Proof.
  intros Hne. induction l as [|x l IH]; cbn [clo_find clo_set]; [reflexivity|].
  destruct (N.eqb_spec (c_k x) k) as [E|E]; cbn [clo_find c_k]; [|rewrite IH; reflexivity].
  rewrite E. destruct (N.eqb_spec k k'); [congruence|reflexivity].
Qed.

Lemma clo_set_keys l k st : ckeys (clo_set l k st) = ckeys l.
Proof.
  induction l as [|x l IH]; cbn [clo_set ckeys map]; [reflexivity|].
  destruct (c_k x =? k); cbn [map c_k]; [reflexivity|]. f_equal. exact IH.
Qed.

Lemma clo_set_conns l k st : map c_conn (clo_set l k st) = map c_conn l.
Proof.
  induction l as [|x l IH]; cbn [clo_set map]; [reflexivity|].
  destruct (c_k x =? k); cbn [map c_conn]; [reflexivity|]. f_equal. exact IH.
Qed.

(* the entries of an updated table *)
Lemma in_clo_set l k st c' : NoDup (ckeys l) -> In c' (clo_set l k st) ->
  (In c' l /\ c_k c' <> k) \/ (exists c, In c l /\ c_k c = k /\ c' = Clo k (c_conn c) (c_kind c) st).
Proof.
  induction l as [|x l IH]; cbn [clo_set In ckeys map]; [tauto|].
  intros Hnd. inversion Hnd as [|? ? Hx Hnd']; subst.
  destruct (N.eqb_spec (c_k x) k) as [E|E]; cbn [In]; intros [<-|H].
  - right. exists x. rewrite E. repeat split; auto.
  - left. split; [right; exact H|]. intros Ek. apply Hx. rewrite E, <- Ek. apply in_map. exact H.
  - left. split; [left; reflexivity|exact E].
  - destruct (IH Hnd' H) as [[H1 H2]|(c & H1 & H2 & H3)].
    + left. split; [right; exact H1|exact H2].
    + right. exists c. repeat split; auto.
Qed.

Lemma clo_set_in_other l k st c : In c l -> c_k c <> k -> In c (clo_set l k st).
Proof.
  induction l as [|x l IH]; cbn [clo_set In]; [tauto|].
  intros [->|H] Hne.
  - destruct (N.eqb_spec (c_k c) k); [contradiction|left; reflexivity].
  - destruct (c_k x =? k); [right; exact H|right; apply IH; assumption].
Qed.

Lemma clo_set_in_same l k st c : NoDup (ckeys l) -> In c l -> c_k c = k ->
  In (Clo k (c_conn c) (c_kind c) st) (clo_set l k st).
Proof.
  induction l as [|x l IH]; cbn [clo_set In ckeys map]; [tauto|].
  intros Hnd [->|H] Ek; inversion Hnd as [|? ? Hx Hnd']; subst.
  - rewrite N.eqb_refl. left. reflexivity.
  - destruct (N.eqb_spec (c_k x) (c_k c)) as [E|E]; [|right; apply IH; auto].
    exfalso. apply Hx. rewrite E. apply in_map. exact H.
Qed.

Lemma clo_del_find_in l g id c : clo_del_find l g id = Some c ->
  In c l /\ c_stat c = CDel g /\ c_kind c = KPubcomp id.
Proof.
  induction l as [|x l IH]; cbn [clo_del_find]; [discriminate|].
  assert (Hrec : clo_del_find l g id = Some c -> In c (x :: l) /\ c_stat c = CDel g /\ c_kind c = KPubcomp id).
  { intros H. destruct (IH H) as (H1 & H2). split; [right; exact H1|exact H2]. }
  destruct (c_stat x) eqn:Es; try exact Hrec. destruct (c_kind x) eqn:Ek; try exact Hrec.
  destruct ((g =? g0) && (id =? id0)) eqn:E; [|exact Hrec].
  intros H. injection H as <-. apply andb_true_iff in E as [E1 E2].
  apply N.eqb_eq in E1, E2. subst. repeat split; auto. left; reflexivity.
Qed.

Lemma clo_stat_find_in l f c : clo_stat_find l f = Some c -> In c l /\ f (c_stat c) = true.
Proof.
  induction l as [|x l IH]; cbn [clo_stat_find]; [discriminate|].
  destruct (f (c_stat x)) eqn:E; intros H.
  - injection H as <-. split; [left; reflexivity|exact E].
  - destruct (IH H) as [H1 H2]. split; [right; exact H1|exact H2].
Qed.

Lemma in_closure_false s g : in_closure s g = false -> forall c, In c (clos s) -> clo_on g c = false.
Proof.
  unfold in_closure. intros H c Hc. destruct (clo_on g c) eqn:E; [|reflexivity].
  assert (existsb (clo_on g) (clos s) = true) by (apply existsb_exists; eauto). congruence.
Qed.

Lemma clo_on_del c g : c_stat c = CDel g -> clo_on g c = true.
Proof. unfold clo_on. intros ->. apply N.eqb_refl. Qed.

(* ------------------------------------------- exact case analysis of step_clo *)

Inductive clo_case (s : bc) (e : event) (s' : bc) : Prop :=
| CC_call_pc k g c id : e = EAckCall k g -> clo_find (clos s) k = Some c -> c_stat c = CReg ->
    in_closure s g = false -> c_kind c = KPubcomp id ->
    s' = set_clos s (clo_set (clos s) k (CDel g)) -> clo_case s e s'
| CC_call_other k g c : e = EAckCall k g -> clo_find (clos s) k = Some c -> c_stat c = CReg ->
    in_closure s g = false -> (forall id, c_kind c <> KPubcomp id) ->
    s' = set_clos (clo_enqueue s c) (clo_set (clos s) k (CRun g)) -> clo_case s e s'
| CC_call_done k g c : e = EAckCall k g -> clo_find (clos s) k = Some c -> c_stat c = CDone ->
    in_closure s g = false -> s' = s -> clo_case s e s'
| CC_del_ok g id c : e = EDelete g Incoming id true -> clo_del_find (clos s) g id = Some c ->
    s' = set_clos (clo_enqueue (sess_delete s Incoming id) c) (clo_set (clos s) (c_k c) (CRun g)) -> clo_case s e s'
| CC_del_fail g id c : e = EDelete g Incoming id false -> clo_del_find (clos s) g id = Some c ->
    s' = set_clos s (clo_set (clos s) (c_k c) (CDieLog g)) -> clo_case s e s'
| CC_die g c : e = EDie g KSession -> In c (clos s) -> c_stat c = CDieLog g ->
    s' = set_clos s (clo_set (clos s) (c_k c) (CDieClose g)) -> clo_case s e s'
| CC_close g c : e = EConnClose g -> In c (clos s) -> c_stat c = CDieClose g ->
    s' = (if c_conn c =? conn_no s then set_dying (set_clos s (clo_set (clos s) (c_k c) (CRun g)))
          else set_clos s (clo_set (clos s) (c_k c) (CRun g))) -> clo_case s e s'
| CC_ret k g c : e = EAckRet k g -> clo_find (clos s) k = Some c -> c_stat c = CRun g ->
    s' = set_clos s (clo_set (clos s) k CDone) -> clo_case s e s'
| CC_ret_done k g c : e = EAckRet k g -> clo_find (clos s) k = Some c -> c_stat c = CDone ->
    in_closure s g = false -> s' = s -> clo_case s e s'.

Lemma step_clo_cases s e s' : step_clo s e = Some s' -> clo_case s e s'.
Proof.
  intros H. unfold step_clo, guard in H. destruct e; try discriminate H.
  - (* EConnClose *)
    match type of H with match ?x with _ => _ end = _ => destruct x as [c|] eqn:Ef; [|discriminate H] end.
    apply clo_stat_find_in in Ef. destruct Ef as [Hin Hf].
    destruct (c_stat c) eqn:Es; try discriminate Hf. apply N.eqb_eq in Hf. subst g0.
    injection H as <-. eapply CC_close; eauto; destruct (c_conn c =? conn_no s); reflexivity.
  - (* EAckCall *)
    destruct (clo_find (clos s) k) as [c|] eqn:Ef; [|discriminate H].
    destruct (c_stat c) eqn:Es; try discriminate H.
    + destruct (in_closure s g) eqn:Ei; [discriminate H|].
      destruct (c_kind c) eqn:Ek; injection H as <-;
        [eapply CC_call_other; eauto; intros id' E'; rewrite Ek in E'; discriminate E'..|eapply CC_call_pc; eauto].
    + destruct (in_closure s g) eqn:Ei; [discriminate H|]. injection H as <-. eapply CC_call_done; eauto.
  - (* EAckRet *)
    destruct (clo_find (clos s) k) as [c|] eqn:Ef; [|discriminate H].
    destruct (c_stat c) eqn:Es; try discriminate H.
    + destruct (g =? g0) eqn:Eg; [|discriminate H]. apply N.eqb_eq in Eg. subst g0. injection H as <-.
      eapply CC_ret; eauto.
    + destruct (in_closure s g) eqn:Ei; [discriminate H|]. injection H as <-. eapply CC_ret_done; eauto.
  - (* EDelete *)
    destruct d; [|discriminate H].
    destruct (clo_del_find (clos s) g id) as [c|] eqn:Ef; [|discriminate H].
    destruct ok; injection H as <-; [eapply CC_del_ok|eapply CC_del_fail]; eauto.
  - (* EDie *)
    destruct k; try discriminate H.
    match type of H with match ?x with _ => _ end = _ => destruct x as [c|] eqn:Ef; [|discriminate H] end.
    apply clo_stat_find_in in Ef. destruct Ef as [Hin Hf].
    destruct (c_stat c) eqn:Es; try discriminate Hf. apply N.eqb_eq in Hf. subst g0.
    injection H as <-. eapply CC_die; eauto.
Qed.
