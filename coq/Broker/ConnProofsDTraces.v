(* ConnProofsDTraces.v — concrete accepted traces of the broker-connection model BC
   used as non-vacuity witnesses for the C14 / C15 clauses of ConnSpec2.v.  They are
   shaped after traces recorded on the implementation (go/cmd/brokerconn, families
   c07 and c08).  Definitions, vm_compute checks, and what the checks say of a single trace. *)
From Coq Require Import List NArith Bool.
From Coq.Strings Require Import Byte.
From GM Require Import Base.Lts Codec.Packet Session.Ids Session.Store
  Broker.Conn Broker.ConnSpec Broker.ConnSpec2 Broker.ConnSpec5.
Import ListNotations.
Open Scope N_scope.

Definition td_conn : connect := Conn [x63] 0 [] [] false None 4.
Definition td_will : message := Msg [x77] [x2a] 0 false.
Definition td_connw : connect := Conn [x63] 0 [] [] false (Some td_will) 4.
Definition td_q0 : message := Msg [x74] [x00] 0 false.
Definition td_q1 : message := Msg [x74] [x01] 1 false.
Definition td_q1b : message := Msg [x74] [x03] 1 true.
Definition td_q2 : message := Msg [x74] [x02] 2 false.

(* connection prologue: processor g, window w, resumed r, stored packets ps (re-sent) *)
Definition td_open (c : connect) (g w : N) (r : bool) (ps : list packet) : list event :=
  [ENewConn; ERx g (Connect c); EAuth g AOk; ESetup g (SOk r false w 10 10);
   ETx g (Connack r 0) false true; EAll g Outgoing (Some ps)]
  ++ map (fun p => ETx g (set_dup p) true true) ps ++ [ERestore g true].

(* the peer goes away while the dequeuer (gd) waits inside Dequeue; cleanup goroutine gc *)
Definition td_lost (g gd gc : N) : list event :=
  [ERxErr g; EDie g KTransport; EConnClose g; EDeqRet gd QNone; ETerm gc true; EClosed].

(* inbound QoS 0, then QoS 1 (twice, different messages): each ends in a backend Publish
   issued by the processor for the packet it received last; the PUBACKs leave via the acker *)
Definition td_in_q1 : list event :=
  td_open td_conn 2 10 false [] ++
  [EDeqCall 3;
   ERx 2 (Publish false td_q0 0); EPub 2 td_q0 None; EPubRet 2 true;
   ERx 2 (Publish false td_q1 7); EPub 2 td_q1 (Some 1); EAckCall 1 2; EAckRet 1 2; EPubRet 2 true;
   ETx 4 (Puback 7) true true;
   ERx 2 (Publish true td_q1b 8); EPub 2 td_q1b (Some 2); EPubRet 2 true; EAckCall 2 9; EAckRet 2 9;
   ETx 4 (Puback 8) true true;
   EQuiescent] ++ td_lost 2 3 5.

(* inbound QoS 2 (recorded: c07/P1.P1.R1): PUBLISH stored, PUBREC, duplicate PUBLISH stored
   again, PUBREC, PUBREL looked up, the stored message handed to the backend, released by
   the closure, PUBCOMP; a second PUBREL for the now unknown id is answered directly *)
Definition td_in_q2 : list event :=
  td_open td_conn 2 10 false [] ++
  [EDeqCall 3;
   ERx 2 (Publish false td_q2 1); ESave 2 Incoming (Publish false td_q2 1) true; ETx 2 (Pubrec 1) true true;
   ERx 2 (Publish true td_q2 1); ESave 2 Incoming (Publish true td_q2 1) true; ETx 2 (Pubrec 1) true true;
   ERx 2 (Pubrel 1); ELookup 2 Incoming 1 (LRes (Some (Publish true td_q2 1)));
   EPub 2 td_q2 (Some 1); EAckCall 1 2; EDelete 2 Incoming 1 true; EAckRet 1 2; EPubRet 2 true;
   ETx 4 (Pubcomp 1) true true;
   ERx 2 (Pubrel 1); ELookup 2 Incoming 1 (LRes None); ETx 2 (Pubcomp 1) true true;
   EQuiescent] ++ td_lost 2 3 5.

(* three deliveries in dequeue order: QoS 1 (backend acknowledged before the send),
   QoS 0, QoS 2; each dequeued message is sent exactly once before the next dequeue *)
Definition td_deq : list event :=
  td_open td_conn 2 3 false [] ++
  [EDeqCall 3; EDeqRet 3 (QMsg td_q1 true); ENextId 3 1; ESave 3 Outgoing (Publish false td_q1 1) true;
   EDeqAck 3; ETx 3 (Publish false td_q1 1) true true;
   EDeqCall 3; EDeqRet 3 (QMsg td_q0 false); ETx 3 (Publish false td_q0 0) true true;
   EDeqCall 3; EDeqRet 3 (QMsg td_q2 false); ENextId 3 2; ESave 3 Outgoing (Publish false td_q2 2) true;
   ETx 3 (Publish false td_q2 2) true true;
   EDeqCall 3; EQuiescent] ++ td_lost 2 3 4.

(* resume: a QoS 2 message (id 1) and a QoS 1 message (id 2) are sent; PUBREC 1 replaces
   the stored PUBLISH 1 by PUBREL 1, which keeps the first place; the connection is lost;
   the resumed connection lists [PUBREL 1; PUBLISH 2] and re-sends them in that order;
   then PUBCOMP 1 and PUBACK 2 empty the store; a third connection lists nothing *)
Definition td_resume : list event :=
  td_open td_conn 2 2 false [] ++
  [EDeqCall 3; EDeqRet 3 (QMsg td_q2 false); ENextId 3 1; ESave 3 Outgoing (Publish false td_q2 1) true;
   ETx 3 (Publish false td_q2 1) true true;
   EDeqCall 3; EDeqRet 3 (QMsg td_q1 false); ENextId 3 2; ESave 3 Outgoing (Publish false td_q1 2) true;
   ETx 3 (Publish false td_q1 2) true true;
   ERx 2 (Pubrec 1); ESave 2 Outgoing (Pubrel 1) true; ETx 2 (Pubrel 1) true true;
   ERxErr 2; EDie 2 KTransport; EConnClose 2; ETerm 4 true; EClosed] ++
  td_open td_conn 5 2 true [Pubrel 1; Publish false td_q1 2] ++
  [ERx 5 (Pubcomp 1); EDelete 5 Outgoing 1 true; ERx 5 (Puback 2); EDelete 5 Outgoing 2 true;
   EDeqCall 6; EQuiescent] ++ td_lost 5 6 7 ++
  td_open td_conn 8 2 true [] ++ [EDeqCall 9; EQuiescent] ++ td_lost 8 9 10.

(* complete life cycles: (1) a client with a will is lost: the will is published, then
   Terminate, then Closed; (2) the first packet is not CONNECT: no Terminate, Closed;
   (3) authentication passes but Setup fails: Terminate still called once; (4) a clean
   DISCONNECT: no will, Terminate, Closed *)
Definition td_life : list event :=
  td_open td_connw 2 2 false [] ++
  [EDeqCall 3; ERxErr 2; EDie 2 KTransport; EConnClose 2; EDeqRet 3 QNone;
   EPub 4 td_will None; EPubRet 4 true; ETerm 4 true; EClosed] ++
  [ENewConn; ERx 5 Pingreq; EDie 5 KClient; EConnClose 5; EClosed] ++
  [ENewConn; ERx 6 (Connect td_connw); EAuth 6 AOk; ESetup 6 SErr; EDie 6 KBackend; EConnClose 6;
   ETerm 7 false; EDie 7 KBackend; EClosed] ++
  td_open td_connw 8 2 true [] ++
  [EDeqCall 9; ERx 8 Disconnect; EConnClose 8; EDeqRet 9 QNone; ETerm 10 true; EClosed].

Definition accepted (es : list event) : bool :=
  match bc_run es with Some _ => true | None => false end.

Definition count_ev (f : event -> bool) (es : list event) : nat := length (filter f es).

Definition is_pub (e : event) : bool := match e with EPub _ _ _ => true | _ => false end.
Definition is_pub_k (e : event) : bool := match e with EPub _ _ (Some _) => true | _ => false end.
Definition is_deqmsg (e : event) : bool := match e with EDeqRet _ (QMsg _ _) => true | _ => false end.
Definition is_all2 (e : event) : bool := match e with EAll _ Outgoing (Some (_ :: _ :: _)) => true | _ => false end.
Definition is_term (e : event) : bool := match e with ETerm _ _ => true | _ => false end.
Definition is_closed (e : event) : bool := match e with EClosed => true | _ => false end.

(* all witnesses are accepted by the model, satisfy every C14/C15 clause, and exercise
   the events the clauses talk about *)
Lemma td_all_accepted :
  forallb accepted [td_in_q1; td_in_q2; td_deq; td_resume; td_life] = true.
Proof. vm_compute. reflexivity. Qed.

Lemma td_all_clauses :
  forallb (fun es => c15_in_order es && c15_release_intact es && c15_resend_order es
                     && c15_dequeue_order es && c14_lifecycle es)
          [td_in_q1; td_in_q2; td_deq; td_resume; td_life] = true.
Proof. vm_compute. reflexivity. Qed.

Lemma accepted_run es : accepted es = true -> exists s, bc_run es = Some s.
Proof. unfold accepted. destruct (bc_run es) as [s|]; [exists s; reflexivity|discriminate]. Qed.

Lemma td_accepted es : In es [td_in_q1; td_in_q2; td_deq; td_resume; td_life] -> exists s, bc_run es = Some s.
Proof. intros H. exact (accepted_run es (proj1 (forallb_forall _ _) td_all_accepted es H)). Qed.

Lemma td_clauses es : In es [td_in_q1; td_in_q2; td_deq; td_resume; td_life] ->
  c15_in_order es = true /\ c15_release_intact es = true /\ c15_resend_order es = true /\
  c15_dequeue_order es = true /\ c14_lifecycle es = true.
Proof.
  intros H. pose proof (proj1 (forallb_forall _ _) td_all_clauses es H) as A. cbv beta in A.
  repeat (apply andb_true_iff in A as [A ?]). repeat split; assumption.
Qed.

Lemma td_counts :
  count_ev is_pub td_in_q1 = 3%nat /\ count_ev is_pub_k td_in_q2 = 1%nat /\
  count_ev is_deqmsg td_deq = 3%nat /\ count_ev is_all2 td_resume = 1%nat /\
  count_ev is_term td_life = 3%nat /\ count_ev is_closed td_life = 4%nat.
Proof. vm_compute. repeat split; reflexivity. Qed.

(* the scanners are not trivially true: small mutations of the witnesses are rejected *)
Definition td_bad_order : list event :=      (* the backend Publish carries another message than the PUBLISH received last *)
  td_open td_conn 2 10 false [] ++ [ERx 2 (Publish false td_q1 7); EPub 2 td_q1b (Some 1)].
Definition td_bad_twice : list event :=      (* two backend Publishes for one received PUBLISH *)
  td_open td_conn 2 10 false [] ++ [ERx 2 (Publish false td_q0 0); EPub 2 td_q0 None; EPubRet 2 true; EPub 2 td_q0 None].
Definition td_bad_release : list event :=    (* the message handed on differs from the stored one *)
  td_open td_conn 2 10 false [] ++
  [ERx 2 (Pubrel 1); ELookup 2 Incoming 1 (LRes (Some (Publish false td_q2 1))); EPub 2 td_q1 (Some 1)].
Definition td_bad_resend : list event :=     (* the store lists in another order than first-save order *)
  [ESave 3 Outgoing (Publish false td_q2 1) true; ESave 3 Outgoing (Publish false td_q1 2) true;
   ESave 2 Outgoing (Pubrel 1) true; EAll 5 Outgoing (Some [Publish false td_q1 2; Pubrel 1])].
Definition td_bad_deq : list event :=        (* a second dequeue before the first message was sent *)
  [ENewConn; EDeqCall 3; EDeqRet 3 (QMsg td_q1 false); EDeqCall 3; EDeqRet 3 (QMsg td_q0 false)].
Definition td_bad_deq2 : list event :=       (* the PUBLISH sent carries another message *)
  [ENewConn; EDeqCall 3; EDeqRet 3 (QMsg td_q1 false); ETx 3 (Publish false td_q1b 1) true true].
Definition td_bad_life1 : list event :=      (* Closed without Terminate although Setup succeeded *)
  td_open td_conn 2 2 false [] ++ [EClosed].
Definition td_bad_life2 : list event :=      (* Terminate twice *)
  td_open td_conn 2 2 false [] ++ [ETerm 4 true; ETerm 4 true].
Definition td_bad_life3 : list event :=      (* something happens after Closed *)
  td_life ++ [ETx 2 Pingresp true true].

Lemma td_mutants_rejected :
  c15_in_order td_bad_order = false /\ c15_in_order td_bad_twice = false /\
  c15_release_intact td_bad_release = false /\ c15_resend_order td_bad_resend = false /\
  c15_dequeue_order td_bad_deq = false /\ c15_dequeue_order td_bad_deq2 = false /\
  c14_lifecycle td_bad_life1 = false /\ c14_lifecycle td_bad_life2 = false /\
  c14_lifecycle td_bad_life3 = false.
Proof. vm_compute. repeat split; reflexivity. Qed.

(* ... and the model itself rejects them *)
Lemma td_mutants_not_accepted :
  forallb (fun es => negb (accepted es))
    [td_bad_order; td_bad_twice; td_bad_release; td_bad_deq; td_bad_deq2; td_bad_life1; td_bad_life2; td_bad_life3] = true.
Proof. vm_compute. reflexivity. Qed.

(* ------------------------------------------------ C06_forward_intact (ConnSpec5.v) *)

Definition td_q1r : message := Msg [x74] [x05] 1 true.       (* retain flag set, as queued *)

(* four deliveries: QoS 1 (id 1), QoS 0 (id 0), QoS 2 (id 2), QoS 1 retained (id 3, after
   PUBACK 1 freed the window) *)
Definition td_fwd : list event :=
  td_open td_conn 2 3 false [] ++
  [EDeqCall 3; EDeqRet 3 (QMsg td_q1 true); ENextId 3 1; ESave 3 Outgoing (Publish false td_q1 1) true;
   EDeqAck 3; ETx 3 (Publish false td_q1 1) true true;
   EDeqCall 3; EDeqRet 3 (QMsg td_q0 false); ETx 3 (Publish false td_q0 0) true true;
   EDeqCall 3; EDeqRet 3 (QMsg td_q2 false); ENextId 3 2; ESave 3 Outgoing (Publish false td_q2 2) true;
   ETx 3 (Publish false td_q2 2) true true;
   ERx 2 (Puback 1); EDelete 2 Outgoing 1 true;
   EDeqCall 3; EDeqRet 3 (QMsg td_q1r false); ENextId 3 3; ESave 3 Outgoing (Publish false td_q1r 3) true;
   ETx 3 (Publish false td_q1r 3) true true;
   ERxErr 2; EDie 2 KTransport; EConnClose 2; ETerm 4 true; EClosed].

Definition is_fresh_pub (e : event) : bool := match e with ETx _ (Publish false _ _) _ _ => true | _ => false end.

Definition td_fw_pre : list event := [ENewConn; EDeqCall 3; EDeqRet 3 (QMsg td_q1r false); ENextId 3 7].
Definition td_bad_fw_id : list event := td_fw_pre ++ [ETx 3 (Publish false td_q1r 8) true true].      (* not the allocated id *)
Definition td_bad_fw_dup : list event := td_fw_pre ++ [ETx 3 (Publish true td_q1r 7) true true].      (* dup set *)
Definition td_bad_fw_retain : list event :=                                                           (* retain flag altered *)
  td_fw_pre ++ [ETx 3 (Publish false (Msg [x74] [x05] 1 false) 7) true true].
Definition td_bad_fw_qos : list event :=                                                              (* QoS altered *)
  td_fw_pre ++ [ETx 3 (Publish false (Msg [x74] [x05] 0 true) 0) true true].
Definition td_bad_fw_noid : list event :=                                                             (* QoS 1 without an id *)
  [ENewConn; EDeqCall 3; EDeqRet 3 (QMsg td_q1 false); ETx 3 (Publish false td_q1 0) true true].
Definition td_bad_fw_q0id : list event :=                                                             (* QoS 0 with an id *)
  [ENewConn; EDeqCall 3; EDeqRet 3 (QMsg td_q0 false); ETx 3 (Publish false td_q0 5) true true].
Definition td_bad_fw_twice : list event :=                                                            (* forwarded twice *)
  td_fw_pre ++ [ETx 3 (Publish false td_q1r 7) true true; ETx 3 (Publish false td_q1r 7) true true].
Definition td_bad_fw_skip : list event :=                                                             (* never forwarded *)
  td_fw_pre ++ [EDeqCall 3; EDeqRet 3 (QMsg td_q0 false)].

Definition td_fw_mutants : list (list event) :=
  [td_bad_fw_id; td_bad_fw_dup; td_bad_fw_retain; td_bad_fw_qos; td_bad_fw_noid; td_bad_fw_q0id;
   td_bad_fw_twice; td_bad_fw_skip].

Lemma td_fwd_ok :
  accepted td_fwd = true /\ c06_forward_intact td_fwd = true /\ count_ev is_fresh_pub td_fwd = 4%nat /\
  forallb c06_forward_intact [td_in_q1; td_in_q2; td_deq; td_resume; td_life] = true /\
  forallb c14_lifecycle2 [td_in_q1; td_in_q2; td_deq; td_resume; td_life; td_fwd] = true.
Proof. vm_compute. repeat split; reflexivity. Qed.

Lemma td_fw_mutants_rejected :
  forallb (fun es => negb (c06_forward_intact es)) td_fw_mutants = true /\
  forallb (fun es => negb (accepted es)) td_fw_mutants = true.
Proof. vm_compute. split; reflexivity. Qed.

(* ------------------------------------------------------------ C07 progress *)

(* two QoS 2 handshakes reach PUBREL; the backend has acknowledged neither publish *)
Definition td_withheld : list event :=
  td_open td_conn 2 10 false [] ++
  [EDeqCall 3;
   ERx 2 (Publish false td_q2 1); ESave 2 Incoming (Publish false td_q2 1) true; ETx 2 (Pubrec 1) true true;
   ERx 2 (Publish false td_q2 2); ESave 2 Incoming (Publish false td_q2 2) true; ETx 2 (Pubrec 2) true true;
   ERx 2 (Pubrel 1); ELookup 2 Incoming 1 (LRes (Some (Publish false td_q2 1))); EPub 2 td_q2 (Some 11); EPubRet 2 true;
   ERx 2 (Pubrel 2); ELookup 2 Incoming 2 (LRes (Some (Publish false td_q2 2))); EPub 2 td_q2 (Some 12); EPubRet 2 true].

(* ------------------------------------------------------ C15_resend_first *)

(* the seeded reordering: on the resumed connection the dequeuer is started before the
   stored packets are re-sent and a fresh PUBLISH overtakes the retransmission *)
Definition td_bad_rf_overtake : list event :=
  [ENewConn; ERx 5 (Connect td_conn); EAuth 5 AOk; ESetup 5 (SOk true false 2 10 10); ETx 5 (Connack true 0) false true;
   EDeqCall 6; EDeqRet 6 (QMsg td_q1b false); ENextId 6 3; ESave 6 Outgoing (Publish false td_q1b 3) true;
   ETx 6 (Publish false td_q1b 3) true true;
   EAll 5 Outgoing (Some [Pubrel 1; Publish false td_q1 2]); ETx 5 (Pubrel 1) true true;
   ETx 5 (Publish true td_q1 2) true true; ERestore 5 true].
Definition td_bad_rf_order : list event :=       (* re-sent in another order than listed *)
  [ENewConn; ESetup 5 (SOk true false 2 10 10); ETx 5 (Connack true 0) false true;
   EAll 5 Outgoing (Some [Pubrel 1; Publish false td_q1 2]); ETx 5 (Publish true td_q1 2) true true].
Definition td_bad_rf_early : list event :=       (* Restore before the list is exhausted *)
  [ENewConn; ESetup 5 (SOk true false 2 10 10); ETx 5 (Connack true 0) false true;
   EAll 5 Outgoing (Some [Pubrel 1]); ERestore 5 true].

Lemma td_rf_ok :
  forallb c15_resend_first [td_in_q1; td_in_q2; td_deq; td_resume; td_life; td_fwd] = true /\
  forallb (fun es => negb (c15_resend_first es)) [td_bad_rf_overtake; td_bad_rf_order; td_bad_rf_early] = true /\
  forallb (fun es => negb (accepted es)) [td_bad_rf_overtake; td_bad_rf_order; td_bad_rf_early] = true.
Proof. vm_compute. repeat split; reflexivity. Qed.
