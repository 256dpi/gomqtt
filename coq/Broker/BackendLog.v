(* BackendLog.v — C06 delivery log: along every history, each queue of each session
   holds exactly  (what the specification says was enqueued since the queue was created
   or reset)  minus  (as many elements at the front as were dequeued), in publish order:
       dequeued ++ queued = enqueued.
   `enq_event` is the specification of what one step appends to a queue: for a Publish,
   one copy (retain flag cleared) iff the session holds a matching filter at that moment
   and the queue has room (a full queue of an online receiver makes the call wait or fail,
   of an offline or closing one drops the message); for a Subscribe, the retained replay. *)
From Coq Require Import List NArith Bool Lia PeanoNat.
From Coq.Strings Require Import Byte.
From GM Require Import Codec.Packet Topic.MatchSpec Broker.Backend Broker.BackendSpec
  Broker.BackendProofs Broker.BackendProofsPublish Broker.BackendEffect Broker.BackendProofsSteps Broker.BackendOwn
  Broker.BackendProofsHist.
Import ListNotations.
Open Scope N_scope.

Definition queue (temp : bool) (s : session) : list message := if temp then s_tq s else s_sq s.

Definition holds (st : state) (c : conn) (k : skey) : bool :=
  match session_of st c with Some (k', _) => skey_eqb k' k | None => false end.

(* what the step appends to queue (k, temp), by the specification *)
Definition enq_event (k : skey) (temp : bool) (st : state) (o : op) (r : result) : list message :=
  match get_session st k with
  | None => []
  | Some s =>
      match o with
      | OPublish c m got =>
          if Bool.eqb (use_temp m) temp && has_match (s_subs s) (m_topic m) &&
             negb (is_full (st_cap st) (queue temp s)) &&
             match r with
             | ROk => true
             | _ => false                          (* refused (ErrQueueFull) or waiting: nothing is enqueued *)
             end
          then [Msg (m_topic m) (m_payload m) (m_qos m) false] else []
      | OSubscribe c subs batches =>
          if temp && holds st c k && match r with ROk | RQueueFull => true | _ => false end
          then firstn (N.to_nat (st_cap st - N.of_nat (length (s_tq s)))) (concat batches) else []
      | _ => []
      end
  end.

(* how many elements the step takes from the front of queue (k, temp) *)
Definition deq_count (k : skey) (temp : bool) (st : state) (o : op) (r : result) : nat :=
  match o, r with
  | ODequeue c t, RMsg _ => if Bool.eqb t temp && holds st c k then 1%nat else 0%nat
  | _, _ => 0%nat
  end.

(* the temporary queue of a stored session is reset when the session is resumed *)
Definition reset_event (k : skey) (temp : bool) (st : state) (o : op) (r : result) : bool :=
  temp &&
  match r with
  | RSetup true =>
      match o with
      | OSetup _ id _ => skey_eqb k (KStored id)
      | OSetupEnd _ => match st_pending st with Some p => skey_eqb k (KStored (p_id p)) | None => false end
      | _ => false
      end
  | _ => false
  end.

(* expected content of queue (k, temp) after the observed steps *)
Fixpoint expected (k : skey) (temp : bool) (tr : list (state * op * result * state)) (acc : list message) : list message :=
  match tr with
  | [] => acc
  | (st, o, r, st') :: tr' =>
      expected k temp tr'
        (match get_session st k, get_session st' k with
         | _, None => []                                   (* no such session *)
         | None, Some _ => []                              (* just created *)
         | Some _, Some _ =>
             if reset_event k temp st o r then []
             else skipn (deq_count k temp st o r) acc ++ enq_event k temp st o r
         end)
  end.

Definition names_ok (ops : list op) : bool :=
  forallb (fun o => match o with OPublish _ m _ => name_ok (m_topic m) | _ => true end) ops.

(* ------------------------------------------------------------------ a small invariant: a connection that has not called Setup
   (or whose Setup is still waiting) has no temporary session *)
Definition TempsOk (st : state) : Prop :=
  (forall c, alookup N.eqb c (st_cid st) = None -> alookup N.eqb c (st_temps st) = None) /\
  (forall p, st_pending st = Some p -> alookup N.eqb (p_conn p) (st_temps st) = None /\
                                        alookup N.eqb (p_conn p) (st_cid st) <> None).

Lemma tempsok_frame st st' :
  st_cid st' = st_cid st -> st_pending st' = st_pending st ->
  (forall c, get_session st (KTemp c) = None -> get_session st' (KTemp c) = None) ->
  TempsOk st -> TempsOk st'.
Proof.
  intros E1 E2 H [T1 T2]. split.
  - intros c Hc. rewrite E1 in Hc. apply H, T1, Hc.
  - intros p Hp. rewrite E2 in Hp. destruct (T2 p Hp) as [A B]. rewrite E1. split; [apply H, A|exact B].
Qed.

Lemma temps_with_cid st c id :
  TempsOk st -> forall x, alookup N.eqb x (st_cid (with_cid st c id)) = None -> alookup N.eqb x (st_temps st) = None.
Proof.
  intros [T1 _] x Hx. cbn [with_cid st_cid] in Hx. rewrite (alookup_aset N.eqb N.eqb_eq) in Hx.
  destruct (x =? c); [discriminate|exact (T1 x Hx)].
Qed.

Lemma tempsok_granted st c K S del st' :
  granted st c K S del st' ->
  (forall x, alookup N.eqb x (st_cid st) = None -> alookup N.eqb x (st_temps st) = None) ->
  alookup N.eqb c (st_cid st) <> None -> TempsOk st'.
Proof.
  intros Gr T1 Hc. split; [|rewrite (g_pending _ _ _ _ _ _ Gr); discriminate].
  intros x Hx. rewrite (g_cid _ _ _ _ _ _ Gr) in Hx. change (get_session st' (KTemp x) = None).
  rewrite (g_get _ _ _ _ _ _ Gr). destruct (skey_eqb (KTemp x) K) eqn:E.
  - apply skey_eqb_eq in E. rewrite (g_key _ _ _ _ _ _ Gr x (eq_sym E)) in Hx. contradiction.
  - destruct (del (KTemp x)); [reflexivity|exact (T1 x Hx)].
Qed.

Lemma tempsok_effect st o r st' : effect st o r st' -> TempsOk st -> TempsOk st'.
Proof.
  intros E T.
  destruct E as [o r _|o r st' B|c clean _ H|c id clean _ H _ _|p P _|c k s0 o r s2 S _|c m got Hnb|c id _ _ _].
  - exact T.
  - destruct B as [c id clean _ H|c id clean s c1 _ H _ _ _|p P|c _|].
    + split; [exact (temps_with_cid st c id T)|discriminate].
    + split; [exact (temps_with_cid st c id T)|]. intros p Hp. injection Hp as <-. split; [exact (proj1 T c H)|apply with_cid_cid].
    + split; [exact (proj1 T)|discriminate].
    + revert T. apply tempsok_frame; auto.
    + revert T. apply tempsok_frame; auto.
  - apply (tempsok_granted _ c _ _ _ _ (temp_session_granted _ c)); [exact (temps_with_cid st c [] T)|apply with_cid_cid].
  - apply (tempsok_granted _ c _ _ _ _ (setup_finish_granted _ c id clean)); [exact (temps_with_cid st c id T)|apply with_cid_cid].
  - apply (tempsok_granted _ _ _ _ _ _ (setup_finish_granted st _ _ _)); [exact (proj1 T)|exact (proj2 (proj2 T p P))].
  - revert T. apply tempsok_frame; try (destruct k; reflexivity).
    intros x Hx. rewrite get_put. destruct (skey_eqb (KTemp x) k) eqn:E; [|exact Hx].
    apply skey_eqb_eq in E; subst k. rewrite (session_of_get _ _ _ _ S) in Hx. discriminate.
  - revert T. apply tempsok_frame; try (rewrite publish_unfold, Hnb; reflexivity).
    intros x Hx. rewrite (get_session_published st c m got _ Hnb), Hx. reflexivity.
  - revert T. apply tempsok_frame; try reflexivity.
    intros x Hx. rewrite terminated_get, Hx. destruct (skey_eqb (KTemp x) (KTemp c)); reflexivity.
Qed.

Lemma tempsok_step st o : TempsOk st -> TempsOk (snd (step st o)).
Proof. apply tempsok_effect with (1 := step_effect st o). Qed.

Lemma tempsok_init cap : TempsOk (init cap).
Proof. split; [intros c _; reflexivity|intros p H; discriminate]. Qed.

(* ------------------------------------------------------------------ one step, one queue *)
Lemma queue_enqueue temp m s :
  queue temp (enqueue m s) = if Bool.eqb (use_temp m) temp then queue temp s ++ [Msg (m_topic m) (m_payload m) (m_qos m) false]
                             else queue temp s.
Proof. unfold enqueue, queue, live_copy. destruct (use_temp m), temp; reflexivity. Qed.

Lemma queue_of_queue m s : queue_of m s = queue (use_temp m) s.
Proof. reflexivity. Qed.

Lemma publish_queue st c m got temp k s :
  wf st -> OwnOk st -> name_ok (m_topic m) = true -> get_session st k = Some s ->
  let (r, st') := publish st c m got in
  exists s', get_session st' k = Some s' /\
    queue temp s' = queue temp s ++ enq_event k temp st (OPublish c m got) r.
Proof.
  intros W O Hn G. destruct (publish st c m got) as [r st'] eqn:E.
  assert (Est : st' = snd (publish st c m got)) by (rewrite E; reflexivity).
  pose proof (get_sessions st k s G) as Hin.
  unfold enq_event. rewrite G.
  rewrite publish_unfold in E. destruct (pub_stuck st c m) eqn:Hnb.
  - injection E as <- <-. exists s. split; [exact G|].
    destruct (own_refused st c m); rewrite !andb_false_r; rewrite app_nil_r; reflexivity.
  - destruct (pub_through st c m W O Hnb) as (R & Herr & Hb). rewrite Herr in *.
    injection E as <- _. rewrite Est, (get_session_published st c m got k Hnb), G, Herr. cbn [option_map].
    eexists; split; [reflexivity|]. rewrite andb_true_r.
    pose proof (pub_err_false_session st c m k s Herr Hin) as He.
    pose proof (pub_blk_false_session st c m k s Hb Hin) as Hbl.
    rewrite (classify_cases st c m s Hn) in *. rewrite queue_of_queue in *.
    destruct (Bool.eqb (use_temp m) temp) eqn:ET.
    + apply Bool.eqb_prop in ET. subst temp. cbn [andb].
      destruct (has_match (s_subs s) (m_topic m)) eqn:HM; [|cbn [deliver andb]; rewrite app_nil_r; reflexivity].
      cbn [andb].
      destruct (is_full (st_cap st) (queue (use_temp m) s)) eqn:F; cbn [negb].
      * (* no room: nothing is appended *)
        rewrite app_nil_r.
        destruct (s_act s) as [c'|]; [|reflexivity].
        destruct (c' =? c); [destruct (mem_n c (st_dying st)); [reflexivity|discriminate]|].
        destruct (mem_n c' (st_dying st)); [reflexivity|discriminate].
      * assert (A : match s_act s with
                    | Some c' => if c' =? c then AEnq else AEnq
                    | None => AEnq end = AEnq) by (destruct (s_act s) as [c'|]; [destruct (c' =? c)|]; reflexivity).
        rewrite A. cbn [deliver]. rewrite queue_enqueue, Bool.eqb_reflx; reflexivity.
    + cbn [andb]. rewrite app_nil_r.
      match goal with |- queue temp (deliver ?e got k ?a m s) = _ => destruct (deliver_cases e got k a m s) as [-> | ->] end;
        [reflexivity|rewrite queue_enqueue, ET; reflexivity].
Qed.

Lemma holds_key st c k0 s0 k : session_of st c = Some (k0, s0) -> holds st c k = skey_eqb k0 k.
Proof. unfold holds. intros ->. reflexivity. Qed.

(* the steps that are no event for any queue *)
Definition eventless (o : op) (r : result) : bool :=
  match o, r with
  | _, RSetup true | ODequeue _ _, RMsg _ | OPublish _ _ _, ROk | OSubscribe _ _ _, (ROk | RQueueFull) => false
  | _, _ => true
  end.

Lemma calm_eventless o r : calm o r = true -> eventless o r = true.
Proof. destruct r; try discriminate; destruct o; try discriminate; reflexivity. Qed.

Lemma eventless_queue k temp st o r q :
  eventless o r = true ->
  q = if reset_event k temp st o r then [] else skipn (deq_count k temp st o r) q ++ enq_event k temp st o r.
Proof.
  intros H. unfold reset_event, deq_count, enq_event.
  destruct (get_session st k); destruct r as [[|]| | | | | | | | | | | |]; try discriminate H; destruct o; try discriminate H;
    rewrite ?andb_false_r; cbn [skipn]; rewrite ?app_nil_r; reflexivity.
Qed.

(* a completing Setup: an existing session keeps its queues, except that the temporary queue of the stored
   session handed out again is reset *)
Lemma setup_finish_queue st c id clean temp k s s' :
  alookup N.eqb c (st_temps st) = None -> get_session st k = Some s ->
  get_session (snd (setup_finish st c id clean)) k = Some s' ->
  queue temp s' =
  if temp && match fst (setup_finish st c id clean) with RSetup true => skey_eqb k (KStored id) | _ => false end
  then [] else queue temp s.
Proof.
  intros Tc G G'. rewrite (g_get _ _ _ _ _ _ (setup_finish_granted st c id clean)) in G'. rewrite setup_finish_result.
  unfold finish_session in G'. destruct clean; cbn [negb andb] in *.
  - rewrite andb_false_r. destruct (skey_eqb k (KTemp c)) eqn:E; [apply skey_eqb_eq in E; subst k; cbn [get_session] in G; congruence|].
    destruct (skey_eqb k (KStored id)); congruence.
  - destruct (skey_eqb k (KStored id)) eqn:E.
    + apply skey_eqb_eq in E; subst k. cbn [get_session] in G. rewrite G in *. injection G' as <-. destruct temp; reflexivity.
    + destruct (alookup bytes_eqb id (st_stored st)); cbn [is_some]; rewrite andb_false_r; congruence.
Qed.

Lemma put_own_queue st c k0 s0 o r s2 temp :
  session_of st c = Some (k0, s0) -> put st c s0 o r s2 ->
  queue temp s2 =
    if reset_event k0 temp st o r then []
    else skipn (deq_count k0 temp st o r) (queue temp s0) ++ enq_event k0 temp st o r.
Proof.
  intros S Pu. unfold reset_event, deq_count, enq_event. rewrite (session_of_get _ _ _ _ S).
  destruct Pu as [subs b _ room|fs|m q Q|m q Q]; [destruct (Nat.leb _ room)| | |]; rewrite ?(holds_key _ _ _ _ k0 S), ?skey_eqb_refl;
    destruct temp; cbn [queue s_tq s_sq Bool.eqb andb skipn]; rewrite ?Q, ?app_nil_r; reflexivity.
Qed.

Lemma put_other_queue st c k0 s0 o r s2 temp k q :
  session_of st c = Some (k0, s0) -> put st c s0 o r s2 -> skey_eqb k0 k = false ->
  q = if reset_event k temp st o r then [] else skipn (deq_count k temp st o r) q ++ enq_event k temp st o r.
Proof.
  intros S Pu EK. unfold reset_event, deq_count, enq_event.
  destruct Pu as [subs b _ room|fs|m q0 Q|m q0 Q]; [destruct (Nat.leb _ room)| | |]; rewrite ?(holds_key _ _ _ _ k S), ?EK;
    destruct (get_session st k); rewrite ?andb_false_r; cbn [skipn]; rewrite ?app_nil_r; reflexivity.
Qed.

Lemma queue_effect st o r st' temp k s s' :
  effect st o r st' -> wf st -> OwnOk st -> TempsOk st ->
  (match o with OPublish _ m _ => name_ok (m_topic m) = true | _ => True end) ->
  get_session st k = Some s -> get_session st' k = Some s' ->
  queue temp s' =
    if reset_event k temp st o r then []
    else skipn (deq_count k temp st o r) (queue temp s) ++ enq_event k temp st o r.
Proof.
  intros E W O [T1 T2] Hn G G'.
  destruct E as [o r I|o r st' B|c clean _ H|c id clean _ H _ _|p P _|c k0 s0 o r s2 S Pu|c m got Hnb|c id _ _ _].
  - replace s' with s by congruence. apply eventless_queue, calm_eventless, I.
  - rewrite (book_get _ _ _ _ B) in G'. replace s' with s by congruence. apply eventless_queue, calm_eventless, (book_calm _ _ _ _ B).
  - rewrite (g_get _ _ _ _ _ _ (temp_session_granted _ c)) in G'. destruct (skey_eqb k (KTemp c)) eqn:E.
    + apply skey_eqb_eq in E; subst k. cbn [get_session] in G. rewrite (T1 c H) in G. discriminate.
    + rewrite with_cid_get in G'. replace s' with s by congruence. apply eventless_queue. reflexivity.
  - rewrite (setup_finish_queue (with_cid st c id) c id clean temp k s s' (T1 c H) G G').
    unfold reset_event, deq_count, enq_event. rewrite G. cbn [skipn]. rewrite app_nil_r. reflexivity.
  - rewrite (setup_finish_queue _ _ _ _ temp k s s' (proj1 (T2 p P)) G G').
    unfold reset_event, deq_count, enq_event. rewrite G, P. cbn [skipn]. rewrite app_nil_r. reflexivity.
  - rewrite get_put, (skey_eqb_sym k k0) in G'. destruct (skey_eqb k0 k) eqn:EK.
    + apply skey_eqb_eq in EK; subst k0. rewrite (session_of_get _ _ _ _ S) in G. injection G as <-. injection G' as <-.
      exact (put_own_queue st c k s0 o r s2 temp S Pu).
    + replace s' with s by congruence. exact (put_other_queue st c k0 s0 o r s2 temp k _ S Pu EK).
  - pose proof (publish_queue st c m got temp k s W O Hn G) as X. rewrite (surjective_pairing (publish st c m got)) in X.
    destruct X as [s1 [G1 Q]]. replace s' with s1 by congruence. rewrite Q, publish_unfold, Hnb. cbn [fst].
    destruct (pub_err st c m); unfold reset_event; rewrite andb_false_r; reflexivity.
  - destruct (terminated_inv st c id k s' G') as (_ & s1 & G1 & ->). replace s1 with s by congruence.
    rewrite <- (eventless_queue k temp st (OTerminate c) ROk (queue temp s) eq_refl). destruct (releases st c k s); reflexivity.
Qed.

Lemma queue_step st o temp k s :
  wf st -> OwnOk st -> TempsOk st ->
  (match o with OPublish _ m _ => name_ok (m_topic m) = true | _ => True end) ->
  get_session st k = Some s ->
  let (r, st') := step st o in
  forall s', get_session st' k = Some s' ->
  queue temp s' =
    if reset_event k temp st o r then []
    else skipn (deq_count k temp st o r) (queue temp s) ++ enq_event k temp st o r.
Proof.
  intros W O T Hn G. pose proof (step_effect st o) as E. destruct (step st o) as [r st']. intros s'.
  apply (queue_effect _ _ _ _ temp k s s' E W O T Hn G).
Qed.

Lemma created_step st o k :
  get_session st k = None ->
  forall s', get_session (snd (step st o)) k = Some s' -> s_tq s' = [] /\ s_sq s' = [].
Proof.
  intros G s' G'.
  assert (Gr : forall st0 c id clean, get_session st0 k = None ->
               get_session (snd (setup_finish st0 c id clean)) k = Some s' -> s_tq s' = [] /\ s_sq s' = []).
  { intros st0 c id clean G0 G1. rewrite (g_get _ _ _ _ _ _ (setup_finish_granted st0 c id clean)) in G1. unfold finish_session in G1.
    destruct (skey_eqb k (if clean then KTemp c else KStored id)) eqn:E; [|destruct (clean && _); congruence].
    destruct clean; [injection G1 as <-; auto|]. apply skey_eqb_eq in E; subst k. cbn [get_session] in G0. rewrite G0 in G1.
    injection G1 as <-; auto. }
  revert G'.
  destruct (step_effect st o) as [o r _|o r st' B|c clean _ _|c id clean _ _ _ _|p _ _|c k0 s0 o r s2 S _|c m got _|c id _ _ _]; intros G'.
  - congruence.
  - rewrite (book_get _ _ _ _ B) in G'. congruence.
  - rewrite (g_get _ _ _ _ _ _ (temp_session_granted _ c)) in G'.
    destruct (skey_eqb k (KTemp c)); [injection G' as <-; auto|rewrite with_cid_get in G'; congruence].
  - exact (Gr (with_cid st c id) c id clean G G').
  - exact (Gr _ _ _ _ G G').
  - rewrite get_put in G'. destruct (skey_eqb k k0) eqn:E; [|congruence].
    apply skey_eqb_eq in E; subst k0. rewrite (session_of_get _ _ _ _ S) in G. discriminate.
  - pose proof (get_session_published_some st c m got k s' G') as X. rewrite G in X. discriminate.
  - destruct (terminated_inv st c id k s' G') as (_ & s1 & G1 & _). congruence.
Qed.

Lemma expected_run k temp ops : forall st acc,
  wf st -> Own st -> TempsOk st -> names_ok ops = true ->
  (forall s, get_session st k = Some s -> queue temp s = acc) ->
  match get_session (run_state st ops) k with
  | Some s => queue temp s = expected k temp (trace st ops) acc
  | None => True
  end.
Proof.
  induction ops as [|o ops IH]; intros st acc W O T N H.
  - cbn. destruct (get_session st k) as [s|]; [exact (H s eq_refl)|exact I].
  - cbn [names_ok forallb] in N. apply andb_true_iff in N as [N1 N2].
    assert (Hn : match o with OPublish _ m _ => name_ok (m_topic m) = true | _ => True end) by (destruct o; auto).
    rewrite run_state_cons, trace_cons. cbn [expected].
    apply IH; [apply wf_step, W|apply own_step, O|apply tempsok_step, T|exact N2|].
    intros s1 G1. rewrite G1. destruct (get_session st k) as [s|] eqn:G.
    + rewrite (queue_effect _ _ _ _ temp k s s1 (step_effect st o) W (own_ownok st O) T Hn G G1), (H s eq_refl). reflexivity.
    + destruct (created_step st o k G s1 G1) as [E1 E2]. destruct temp; assumption.
Qed.

(* C06 delivery log *)
Theorem delivery_log cap ops k temp :
  names_ok ops = true ->
  match get_session (run_state (init cap) ops) k with
  | Some s => queue temp s = expected k temp (trace (init cap) ops) []
  | None => True
  end.
Proof.
  intros N. apply expected_run; [apply wf_init|apply own_init|apply tempsok_init|exact N|].
  intros s G. destruct k; discriminate.
Qed.

(* ------------------------------------------------------------------ the delivery log as a step clause
   Judged on one observed step alone: every queue of every session that exists afterwards holds what it held
   before, minus what this step dequeued from its front, plus what the specification says this step enqueues
   (decided at Publish time from the subscriptions of that moment) — whatever Subscribe / Unsubscribe did before
   or does later; a Dequeue that returns a message returns the head of the chosen queue. *)
Definition delivery_ok (st : state) (o : op) (r : result) (st' : state) : bool :=
  (match o with OPublish _ m _ => negb (name_ok (m_topic m)) | _ => false end) ||
  (forallb (fun e =>
     let k := fst e in let s' := snd e in
     match get_session st k with
     | Some s =>
         forallb (fun temp =>
           msgs_eqb (queue temp s')
                    (if reset_event k temp st o r then []
                     else skipn (deq_count k temp st o r) (queue temp s) ++ enq_event k temp st o r))
           [true; false]
     | None => is_nil (s_tq s') && is_nil (s_sq s')
     end) (sessions st') &&
   match o, r with
   | ODequeue c t, RMsg m' =>
       match session_of st c with
       | Some (_, s) =>
           match queue t s with
           | m :: _ => bytes_eqb (m_topic m') (m_topic m) && bytes_eqb (m_payload m') (m_payload m) &&
                       Bool.eqb (m_retain m') (m_retain m)
           | [] => false
           end
       | None => false
       end
   | _, _ => true
   end).

Theorem step_delivery_ok st o :
  wf st -> OwnOk st -> TempsOk st -> let (r, st') := step st o in delivery_ok st o r st' = true.
Proof.
  intros W O T. pose proof (step_effect st o) as E. pose proof (wf_step st o W) as W'. pose proof (created_step st o) as Cr.
  destruct (step st o) as [r st']. cbn [fst snd] in *. unfold delivery_ok.
  destruct (match o with OPublish _ m _ => negb (name_ok (m_topic m)) | _ => false end) eqn:Hn0; [reflexivity|].
  cbn [orb].
  assert (Hn : match o with OPublish _ m _ => name_ok (m_topic m) = true | _ => True end).
  { destruct o; auto. apply negb_false_iff in Hn0. exact Hn0. }
  apply andb_true_iff; split.
  - apply forallb_forall. intros [k s'] Hin. cbn [fst snd].
    pose proof (sessions_get st' k s' W' Hin) as G'.
    destruct (get_session st k) as [s|] eqn:G.
    + cbn [forallb]. rewrite <- !(queue_effect _ _ _ _ _ k s s' E W O T Hn G G'), !msgs_eqb_refl. reflexivity.
    + destruct (Cr k G s' G') as [-> ->]. reflexivity.
  - (* a Dequeue that returns a message returns the head of the chosen queue *)
    destruct E as [o r I|o r st' B| | | |c k s0 o r s2 S Pu| |]; try reflexivity.
    + destruct o; try reflexivity. destruct r; try reflexivity. discriminate I.
    + destruct B; reflexivity.
    + destruct Pu as [| |m q Q|m q Q]; [reflexivity|reflexivity| |];
        rewrite S; cbn [queue]; rewrite Q; destruct (apply_qos_spec (s_subs s0) m) as (-> & -> & -> & _);
        rewrite !bytes_eqb_refl, Bool.eqb_reflx; reflexivity.
Qed.

Lemma trace_forall_init (Q : state * op * result * state -> Prop) :
  (forall st o, wf st -> Own st -> TempsOk st -> Q (st, o, fst (step st o), snd (step st o))) ->
  forall cap ops, Forall Q (trace (init cap) ops).
Proof.
  intros H cap ops. apply (trace_forall (fun st => wf st /\ Own st /\ TempsOk st)).
  - intros st o (W & O & T). split; [apply wf_step, W|]. split; [apply own_step, O|apply tempsok_step, T].
  - intros st o (W & O & T). apply H; assumption.
  - split; [apply wf_init|]. split; [apply own_init|apply tempsok_init].
Qed.

(* along every history *)
Theorem delivery_along cap ops :
  Forall (fun x => let '(st, o, r, st') := x in delivery_ok st o r st' = true) (trace (init cap) ops).
Proof.
  apply trace_forall_init. intros st o W O T. pose proof (step_delivery_ok st o W (own_ownok st O) T) as X.
  destruct (step st o). exact X.
Qed.

(* the two facts behind it, on the model functions themselves: Unsubscribe changes no queue; Dequeue returns the
   head of the chosen queue (QoS capped) whatever the subscriptions are *)
Theorem unsubscribe_keeps_queues st c fs k s :
  get_session st k = Some s ->
  exists s', get_session (snd (unsubscribe st c fs)) k = Some s' /\ s_tq s' = s_tq s /\ s_sq s' = s_sq s.
Proof.
  intros G. unfold unsubscribe. destruct (session_of st c) as [[k0 s0]|] eqn:S; [|exists s; auto].
  cbn [snd]. rewrite get_put. destruct (skey_eqb k k0) eqn:E; [|exists s; auto].
  apply skey_eqb_eq in E; subst k0. rewrite (session_of_get _ _ _ _ S) in G. injection G as <-.
  eexists; split; [reflexivity|auto].
Qed.

Theorem dequeue_returns_head st c temp k s m rest :
  session_of st c = Some (k, s) -> queue temp s = m :: rest ->
  exists m', fst (dequeue st c temp) = RMsg m' /\
             m_topic m' = m_topic m /\ m_payload m' = m_payload m /\ m_retain m' = m_retain m /\ m_qos m' <= m_qos m /\
             exists s', get_session (snd (dequeue st c temp)) k = Some s' /\ queue temp s' = rest /\
                        queue (negb temp) s' = queue (negb temp) s /\ s_subs s' = s_subs s.
Proof.
  intros S Q. unfold queue in Q. rewrite dequeue_unfold, S, Q. cbn [fst snd].
  destruct (apply_qos_spec (s_subs s) m) as (A1 & A2 & A3 & _).
  eexists; split; [reflexivity|]. repeat split; [exact A1|exact A2|exact A3|apply apply_qos_le|].
  eexists; split; [rewrite get_put, skey_eqb_refl; reflexivity|]. destruct temp; repeat split.
Qed.
