(* ConnProofsD3.v — every trace accepted by the broker-connection model BC satisfies
   the clauses of ConnSpec5.v: c06_forward_intact and c14_lifecycle2. *)
From Coq Require Import List NArith Bool.
From GM Require Import Base.Lts Codec.Packet Session.Store
  Broker.Conn Broker.ConnSpec Broker.ConnSpec2 Broker.ConnSpec5 Broker.ConnProofsA_lib
  Broker.ConnProofsD0 Broker.ConnProofsD1.
Import ListNotations.
Open Scope N_scope.

(* ======================================================== c14_lifecycle2 == *)

Lemma lc_step2_strict t e : lc_step2 t e = lc_step_strict t e.
Proof. reflexivity. Qed.

Theorem c14_lifecycle2_holds : forall es s, bc_run es = Some s -> c14_lifecycle2 es = true.
Proof. exact c14_lifecycle_strict_holds. Qed.

(* ==================================================== c06_forward_intact == *)

Lemma cleanup_event_cases e : cleanup_event e = true -> dq_neutral e = true.
Proof. apply cleanup_event_dq. Qed.

Theorem c06_forward_intact_holds : forall es s, bc_run es = Some s -> c06_forward_intact es = true.
Proof. exact forward_intact_holds. Qed.
