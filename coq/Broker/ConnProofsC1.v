(* ConnProofsC1.v — summaries ("frames") of the sub-steps of BC that the C08/C16
   relations do not care about, the model invariant INV:
     - processor and dequeuer are different goroutines,
     - the ack queue holds acknowledgement packets only,
     - before Restore succeeded the dequeuer and the acker are off,
     - the dequeuer's packet is a fresh PUBLISH,
     - a busy dequeuer has a goroutine,
     - the outgoing store has distinct keys, each the id of its packet, and holds QoS>0
       PUBLISH and PUBREL packets only; so does the list the processor still has to re-send,
   and the coarse case analysis of [step] ([coarse_cases], [sweep_pd]) behind the relations of
   ConnProofsC2.v - C8.v.  [sweep_pd] asks for three cases only, but of a scanner that ignores
   every [dull] event and the acker's sends, and of a relation that reads the state through
   [same_pd]; a clause that looks at ESub, EPub, ELookup, EAckCall ... needs
   [step_sweep] of ConnProofsA_lib.v.  [ack_event] here is not the one of ConnProofsA_lib.v: a
   file that uses both imports this one first. *)
From Coq Require Import List NArith Bool Lia ZArith ZifyN ZifyBool.
From GM Require Import Base.Lts Codec.Packet Session.Ids Session.Store Session.StoreProofs
  Broker.Conn Broker.ConnSpec Broker.ConnBase Broker.ConnProofsCDefs Broker.ConnProofsA_lib Broker.ConnProofsC0.
Import ListNotations.
Open Scope N_scope.

(* ------------------------------------------------------------------ frames *)

(* the fields the C08/C16 relations look at *)
Record same_pd (s s' : bc) : Prop := SamePd {
  sp_pp : pp s' = pp s; sp_dp : dp s' = dp s;
  sp_gproc : gproc s' = gproc s; sp_gdeq : gdeq s' = gdeq s;
  sp_cw : cw s' = cw s; sp_tdeq : tdeq s' = tdeq s;
  sp_out : s_out (sess s') = s_out (sess s); sp_cnt : s_counter (sess s') = s_counter (sess s);
  sp_conn : conn_no s' = conn_no s }.

Lemma same_pd_refl s : same_pd s s.
Proof. constructor; reflexivity. Qed.

Lemma clo_enqueue_same s c : same_pd s (clo_enqueue s c).
Proof. unfold clo_enqueue. destruct (clo_live s c); constructor; reflexivity. Qed.

Lemma clo_enqueue_ackq s c :
  ackq (clo_enqueue s c) = ackq s \/ ackq (clo_enqueue s c) = ackq s ++ [ack_packet (c_kind c)].
Proof. unfold clo_enqueue. destruct (clo_live s c); [right|left]; reflexivity. Qed.

Lemma clo_enqueue_lp s c : lp (clo_enqueue s c) = lp s.
Proof. unfold clo_enqueue. destruct (clo_live s c); reflexivity. Qed.

Lemma step_clo_sum s e s' : step_clo s e = Some s' ->
  clo_event e = true /\ same_pd s s' /\ lp s' = lp s /\ ap s' = ap s /\
  (ackq s' = ackq s \/ exists a, ackq s' = ackq s ++ [ack_packet a]).
Proof.
  intros H. split; [exact (step_clo_event _ _ _ H)|]. unfold step_clo, guard in H. inv_step H; injection H as <-.
  all: unfold clo_enqueue, clo_live; repeat match goal with |- context[if ?b then _ else _] => destruct b end.
  all: (split; [constructor; reflexivity|split; [reflexivity|split; [reflexivity|]]]).
  all: first [left; reflexivity|right; eexists; reflexivity].
Qed.

(* acker *)
Definition ack_event (e : event) : Prop :=
  match e with
  | ETx _ p true _ => exists q q', ackq_take q p = Some q'
  | EDie _ KTransport | EConnClose _ => True
  | _ => False
  end.

Lemma ack_token_back_same s p : same_pd s (ack_token_back s p).
Proof. destruct p; constructor; reflexivity. Qed.

Lemma ackq_take_is_ack q p q' :
  ackq_take q p = Some q' -> Forall (fun x => is_ack_packet x = true) q -> is_ack_packet p = true.
Proof.
  revert q'. induction q as [|x q IH]; intros q' H HF; cbn [ackq_take] in H; [discriminate|].
  inversion HF as [|? ? Hx Hq]; subst.
  destruct (packet_eqb x p) eqn:E; [apply packet_eqb_eq in E; subst x; exact Hx|].
  destruct (ackq_take q p) as [r|]; [|discriminate]. eapply IH; [reflexivity|exact Hq].
Qed.

Lemma step_ack_sum s e s' : step_ack s e = Some s' ->
  same_pd s s' /\ lp s' = lp s /\
  ((exists g p ok q', e = ETx g p true ok /\ ackq_take (ackq s) p = Some q' /\ ackq s' = q' /\ ap s = AIdle) \/
   ((exists g, e = EDie g KTransport \/ e = EConnClose g) /\ ackq s' = ackq s)).
Proof.
  intros H. unfold step_ack in H. inv_step H; injection H as <-.
  - pose proof (ack_token_back_same (set_ackq s l) p) as [? ? ? ? ? ? ? ? ?].
    split; [constructor; assumption|]. split; [destruct p; reflexivity|].
    left. do 4 eexists. split; [reflexivity|]. split; [eassumption|]. split; [destruct p; reflexivity|reflexivity].
  - split; [constructor; reflexivity|]. split; [reflexivity|].
    left. do 4 eexists. split; [reflexivity|]. split; [eassumption|]. split; reflexivity.
  - split; [constructor; reflexivity|]. split; [reflexivity|]. right. split; [eexists; left; reflexivity|reflexivity].
  - split; [constructor; reflexivity|]. split; [reflexivity|]. right. split; [eexists; right; reflexivity|reflexivity].
Qed.

(* cleanup: either nothing the relations look at changes, or the connection is frozen *)
Record frozen (s s' : bc) : Prop := Frozen {
  fz_stop : all_stopped s = true;
  fz_pp : pp s' = PDone;
  fz_dp : dp s' = match dp s with DOff => DOff | _ => DDone end;
  fz_ap : ap s' = match ap s with AOff => AOff | _ => ADone end;
  fz_gproc : gproc s' = gproc s; fz_gdeq : gdeq s' = gdeq s;
  fz_cw : cw s' = cw s; fz_tdeq : tdeq s' = tdeq s;
  fz_sess : sess s' = sess s; fz_ackq : ackq s' = ackq s; fz_conn : conn_no s' = conn_no s }.

Lemma step_cleanup_sum s e s' : step_cleanup s e = Some s' ->
  cleanup_event e = true /\ ((same_pd s s' /\ ackq s' = ackq s /\ ap s' = ap s) \/ frozen s s').
Proof.
  intros H. split; [exact (step_cleanup_event _ _ _ H)|]. unfold step_cleanup, guard in H. inv_step H; injection H as <-.
  all: try (left; split; [constructor; reflexivity|split; reflexivity]).
  all: right; repeat match goal with H : _ && _ = true |- _ => apply andb_prop in H; destruct H end.
  all: constructor; try reflexivity; assumption.
Qed.

Lemma clo_event_dull e : clo_event e = true -> dull e = true.
Proof. destruct e; try discriminate; try reflexivity; [destruct d|destruct k]; try discriminate; reflexivity. Qed.

Lemma cl_event_dull e : cleanup_event e = true -> dull e = true.
Proof. destruct e; try discriminate; try reflexivity; destruct k; try discriminate; reflexivity. Qed.

Lemma step_deq_proc_view s e s' : step_deq s e = Some s' -> dp_shape (dp s) ->
  pp s' = pp s /\ gproc s' = gproc s /\ gdeq s' = gdeq s.
Proof.
  intros H Hsh. destruct (step_deq_inv _ _ _ Hsh H); subst; try destruct ok; try destruct (m_qos m =? 0); repeat split.
Qed.

Definition not_fresh (p : packet) : Prop := match p with Publish false _ _ => False | _ => True end.

Lemma set_dup_not_fresh p : not_fresh (set_dup p).
Proof. destruct p; exact I. Qed.

Lemma own_reply_not_fresh x p : own_reply x p -> not_fresh p.
Proof. destruct x, p; try contradiction; intros _; exact I. Qed.

Lemma ack_not_fresh p : is_ack_packet p = true -> not_fresh p.
Proof. destruct p; try discriminate; exact (fun _ => I). Qed.

(* --------------------------------------------------------------- invariant *)

Lemma loop_not_pre x : loop_pc x = true -> pre_loop x = false.
Proof. destruct x; try discriminate; reflexivity. Qed.

Lemma rx_not_pre p x : rx_pc p x -> pre_loop x = false.
Proof. destruct p; cbn [rx_pc]; try apply loop_not_pre; intros ->; reflexivity. Qed.

Definition cokb (p : packet) : bool :=
  match p with Publish _ m _ => negb (m_qos m =? 0) | Pubrel _ => true | _ => false end.

Lemma cokb_set_dup p : cokb (set_dup p) = cokb p.
Proof. destruct p; reflexivity. Qed.

Definition has_key (st : store) (p : packet) : Prop := exists i, get_id p = Some i /\ In i (keys st).

Lemma all_has_key st : ids_ok st -> Forall (has_key st) (store_all st).
Proof.
  intros Hok. apply Forall_forall. intros p Hp. unfold store_all in Hp. apply in_map_iff in Hp as ([i q] & <- & Hin).
  exists i. split; [apply Hok, Hin|]. apply in_map_iff. exists (i, q). split; [reflexivity|exact Hin].
Qed.

Lemma has_key_save st q p : has_key st p -> has_key (store_save st q) p.
Proof. intros (j & G & Hin). exists j. split; [exact G|apply keys_save_mono; exact Hin]. Qed.

(* re-sending a stored packet replaces it in place *)
Lemma resend_save_keys st p : has_key st p -> keys (store_save st (set_dup p)) = keys st.
Proof.
  intros (i & G & Hin). apply keys_save_present. intros j Hj. rewrite get_id_set_dup, G in Hj. injection Hj as <-. exact Hin.
Qed.

Definition out (s : bc) : store := s_out (sess s).

Record INV (s : bc) : Prop := MkINV {
  I_roles : forall g, gproc s = Some g -> gdeq s = Some g -> False;
  I_ackq : Forall (fun p => is_ack_packet p = true) (ackq s);
  I_pre : pre_loop (pp s) = true -> dp s = DOff /\ ap s = AOff;
  I_shape : dp_shape (dp s);
  I_busy : deq_busy (dp s) = true -> gdeq s <> None;
  I_nodup : NoDup (keys (out s));
  I_ids : ids_ok (out s);
  I_cok : Forall (fun p => cokb p = true) (store_all (out s));
  I_resend : match pp s with
             | PResend ps => Forall (has_key (out s)) ps /\ Forall (fun p => cokb p = true) ps
             | _ => True
             end }.

Lemma INV_init : INV bc_init.
Proof. constructor; cbn; try constructor; try discriminate; try (intros; discriminate). intros ? ? []. Qed.

Lemma INV_learned s s1 : learned s s1 -> INV s -> INV s1.
Proof.
  intros Hl HI. destruct Hl as (p & d & a & c & -> & Kp & Kd & Kn).
  destruct HI as [I1 I2 I3 I4 I5 I6 I7 I8 I9]. constructor; try assumption; cbn [gproc gdeq dp set_roles].
  - intros g Hp Hd. destruct (Kn g Hp Hd) as [A B]. exact (I1 g A B).
  - intros Hb. specialize (I5 Hb). destruct (gdeq s) as [g|]; [rewrite (Kd g eq_refl); discriminate|contradiction].
Qed.

Lemma INV_core s s' : same_core s s' ->
  (pre_loop (pp s') = true -> pre_loop (pp s) = true /\ match pp s' with PResend _ => False | _ => True end) ->
  INV s -> INV s'.
Proof.
  intros [E1 E2 E3 E4 E5 E6 E7 E8 E9 E10 E11] Hp [I1 I2 I3 I4 I5 I6 I7 I8 I9].
  constructor; unfold out in *; rewrite ?E1, ?E2, ?E4, ?E5, ?E8, ?E11; try assumption.
  - intros Hx. apply I3, Hp, Hx.
  - destruct (pp s') eqn:Ex; try exact I. destruct (Hp eq_refl) as [_ []].
Qed.

Lemma INV_same s s' :
  same_pd s s' -> Forall (fun p => is_ack_packet p = true) (ackq s') ->
  (pre_loop (pp s) = true -> ap s' = ap s) -> INV s -> INV s'.
Proof.
  intros [E1 E2 E4 E5 E6 E7 E8 E9 E10] Hq Ha [I1 I2 I3 I4 I5 I6 I7 I8 I9].
  constructor; unfold out in *; rewrite ?E1, ?E2, ?E4, ?E5, ?E8; try assumption.
  intros Hp. rewrite (Ha Hp). apply I3. exact Hp.
Qed.

Lemma INV_frozen s s' : frozen s s' -> INV s -> INV s'.
Proof.
  intros [F0 F1 F2 F3 F4 F5 F6 F7 F8 F9 F10] [I1 I2 I3 I4 I5 I6 I7 I8 I9].
  constructor; unfold out in *; rewrite ?F1, ?F2, ?F3, ?F4, ?F5, ?F8, ?F9; try assumption.
  - cbn [pre_loop]. discriminate.
  - destruct (dp s); exact I.
  - destruct (dp s); cbn [deq_busy]; discriminate.
  - exact I.
Qed.

Lemma INV_out s s' :
  gproc s' = gproc s -> gdeq s' = gdeq s -> dp s' = dp s -> ap s' = ap s -> ackq s' = ackq s ->
  NoDup (keys (out s')) -> ids_ok (out s') -> Forall (fun p => cokb p = true) (store_all (out s')) ->
  (pre_loop (pp s') = true -> pre_loop (pp s) = true) ->
  match pp s' with
  | PResend ps => Forall (has_key (out s')) ps /\ Forall (fun p => cokb p = true) ps
  | _ => True
  end -> INV s -> INV s'.
Proof.
  intros E1 E2 E3 E4 E5 N1 N2 N3 Hp Hr [I1 I2 I3 I4 I5 I6 I7 I8 I9]. constructor; rewrite ?E1, ?E2, ?E3, ?E4, ?E5; try assumption.
  intros Hx. exact (I3 (Hp Hx)).
Qed.

Lemma INV_proc s e s' : INV s -> step_proc s e = Some s' -> INV s'.
Proof.
  intros HI H. pose proof HI as [I1 I2 I3 I4 I5 I6 I7 I8 I9].
  destruct (step_proc_inv _ _ _ H); subst; rewrite ?Hpp in *; cbn [pre_loop] in I3.
  - apply (INV_core s); [constructor; reflexivity| |exact HI]. rewrite Hpp. intros _. split; [reflexivity|destruct p; exact I].
  - apply (INV_core s); [destruct r; constructor; reflexivity| |exact HI]. rewrite Hpp. intros _. split; [reflexivity|destruct r; exact I].
  - apply (INV_core s); [constructor; reflexivity|discriminate|exact HI].
  - (* Setup: possibly a new session; the tokens are filled, the ack queue is empty *)
    unfold setup_st. destruct fresh; constructor; cbn; try assumption; try exact I; try constructor;
      try (intros _; apply I3; reflexivity). intros ? ? [].
  - apply (INV_core s); [constructor; reflexivity| |exact HI]. rewrite Hpp. intros _. split; [reflexivity|destruct ok; exact I].
  - (* All: everything in the store is to be re-sent *)
    apply (INV_out s); try reflexivity; try assumption; cbn [pp set_pp]; [rewrite Hpp; reflexivity|].
    unfold resend_next, out. destruct (store_all (s_out (sess s))) eqn:E; [exact I|]. rewrite <- E.
    split; [apply all_has_key; exact I7|exact I8].
  - apply (INV_core s); [constructor; reflexivity|discriminate|exact HI].
  - (* Resend: the stored packet is flagged dup, in place *)
    destruct I9 as [Hk Hc]. inversion Hk as [|? ? Hkp Hkl]; subst. inversion Hc as [|? ? Hcp Hcl]; subst.
    apply (INV_out s); try reflexivity; try assumption; unfold out;
      cbn [pp set_pp sess sess_save set_sess set_tok sess_with sess_store s_out].
    + apply nodup_save; exact I6.
    + apply ids_ok_save; exact I7.
    + apply store_save_forall; [exact I8|rewrite cokb_set_dup; exact Hcp].
    + rewrite Hpp. reflexivity.
    + destruct ok; [|exact I]. unfold resend_next. destruct rest; [exact I|]. split; [|exact Hcl].
      eapply Forall_impl; [|exact Hkl]. intros q. apply has_key_save.
  - (* Restore: dequeuer and acker start *)
    destruct ok; [|apply (INV_core s); [constructor; reflexivity|discriminate|exact HI]].
    constructor; cbn; try assumption; try exact I; discriminate.
  - apply (INV_core s); [destruct H0 as [->| ->]; constructor; reflexivity| |exact HI]. bcs. rewrite (rx_not_pre _ _ Hx). discriminate.
  - (* AckDel *)
    destruct ok; [|apply (INV_core s); [constructor; reflexivity|discriminate|exact HI]].
    apply (INV_out s); try reflexivity; try assumption; unfold out;
      cbn [pp set_pp put_deq sess sess_delete set_sess set_tok sess_with sess_store s_out];
      [apply nodup_delete; exact I6|apply ids_ok_delete; exact I7|apply store_delete_forall; exact I8|discriminate].
  - (* RecSave *)
    destruct ok; [|apply (INV_core s); [constructor; reflexivity|discriminate|exact HI]].
    apply (INV_out s); try reflexivity; try assumption; unfold out;
      cbn [pp set_pp sess sess_save set_sess sess_with sess_store s_out];
      [apply nodup_save; exact I6|apply ids_ok_save; exact I7|apply store_save_forall; [exact I8|reflexivity]|discriminate].
  - apply (INV_core s); [constructor; reflexivity|destruct ok; discriminate|exact HI].
  - apply (INV_core s); [constructor; reflexivity|destruct ok; discriminate|exact HI].
  - apply (INV_core s); [constructor; reflexivity|discriminate|exact HI].
  - apply (INV_core s); [exact Hc| |exact HI]. rewrite (loop_not_pre _ Hx). discriminate.
Qed.

Lemma step_proc_pre s e s' : step_proc s e = Some s' -> pre_loop (pp s') = true -> pre_loop (pp s) = true.
Proof.
  intros H. destruct (step_proc_inv _ _ _ H); subst; try destruct ok; rewrite ?Hpp; bcs; try (intros _; reflexivity); try discriminate.
  - rewrite (rx_not_pre _ _ Hx). discriminate.
  - rewrite (loop_not_pre _ Hx). discriminate.
Qed.

Lemma deq_not_pre s e s' : INV s -> step_deq s e = Some s' -> pre_loop (pp s) = false.
Proof.
  intros HI H. destruct (pre_loop (pp s)) eqn:Ep; [|reflexivity]. destruct (I_pre _ HI Ep) as [Hd _].
  unfold step_deq in H. rewrite Hd in H. discriminate H.
Qed.

Lemma INV_deq s e s' : INV s -> gdeq s <> None -> step_deq s e = Some s' -> INV s'.
Proof.
  intros HI Hg H. pose proof (deq_not_pre _ _ _ HI H) as Hnp. pose proof HI as [I1 I2 I3 I4 I5 I6 I7 I8 I9].
  assert (Hf : forall s1 x, gproc s1 = gproc s -> gdeq s1 = gdeq s -> ap s1 = ap s -> ackq s1 = ackq s -> out s1 = out s ->
                            pp s1 = pp s -> dp_shape x -> INV (set_dp s1 x)).
  { intros s1 x E1 E2 E3 E4 E5 E6 Hx. constructor; cbn [gproc gdeq pp dp ap ackq set_dp]; unfold out in *; cbn [sess set_dp];
      rewrite ?E1, ?E2, ?E3, ?E4, ?E5, ?E6; try assumption.
    - rewrite Hnp. discriminate.
    - intros _. exact Hg. }
  destruct (step_deq_inv _ _ _ I4 H); subst; try (apply Hf; try reflexivity; cbn [dp_shape]; eauto; fail).
  - apply Hf; try reflexivity. destruct r as [| |m ba]; cbn [deq_ret_pc dp_shape]; try exact I.
    destruct (m_qos m =? 0) eqn:Eq; [destruct ba; cbn [dp_shape]; eauto|exact Eq].
  - (* Save *)
    destruct ok; [|apply Hf; try reflexivity; exact I].
    constructor; cbn [gproc gdeq pp dp ap ackq set_dp sess_save set_sess]; unfold out;
      cbn [sess set_dp sess_save set_sess sess_with sess_store s_out]; try assumption.
    + rewrite Hnp. discriminate.
    + destruct ba; cbn [dp_shape]; eauto.
    + intros _. exact Hg.
    + apply nodup_save; exact I6.
    + apply ids_ok_save; exact I7.
    + apply store_save_forall; [exact I8|]. cbn [cokb]. rewrite Hq. reflexivity.
    + destruct (pp s); try exact I; discriminate Hnp.
  - (* Send *) destruct ok; [destruct (m_qos m =? 0)|]; apply Hf; try reflexivity; exact I.
Qed.

Lemma INV_ack s e s' : INV s -> step_ack s e = Some s' -> INV s'.
Proof.
  intros HI H. pose proof (step_ack_sum _ _ _ H) as (Hs & _ & He).
  assert (Hnp : pre_loop (pp s) = true -> False).
  { intros Hp. destruct (I_pre _ HI Hp) as [_ Ha]. unfold step_ack in H. rewrite Ha in H. discriminate H. }
  apply (INV_same s s' Hs); [|intros Hp; exfalso; exact (Hnp Hp)|exact HI].
  destruct He as [(g & p & ok & q' & _ & Ht & <- & _)|[_ ->]]; [|apply (I_ackq _ HI)].
  eapply ackq_take_forall; [exact Ht|apply (I_ackq _ HI)].
Qed.

Lemma INV_step s e s' : INV s -> step s e = Some s' -> INV s'.
Proof.
  intros HI H. destruct (step_inv _ _ _ H); subst.
  - destruct HI as [I1 I2 I3 I4 I5 I6 I7 I8 I9].
    constructor; cbn; first [assumption|exact I|discriminate|intros _; split; reflexivity|constructor].
  - exact HI.
  - exact HI.
  - apply step_clo_sum in Hc as (_ & Hs & _ & Ha & Hq).
    apply (INV_same s s' Hs); [|intros _; exact Ha|exact HI].
    destruct Hq as [->|(a & ->)]; [apply (I_ackq _ HI)|].
    apply Forall_app. split; [apply (I_ackq _ HI)|]. constructor; [destruct a; reflexivity|constructor].
  - eapply INV_proc; [eapply INV_learned; eassumption|exact Hp].
  - eapply INV_deq; [eapply INV_learned; eassumption| |exact Hd]. rewrite Hr. discriminate.
  - eapply INV_ack; [eapply INV_learned; eassumption|exact Ha].
  - pose proof (INV_learned _ _ Hl HI) as HI1.
    apply step_cleanup_sum in Hc as (_ & [(Hs & Hq & Ha)|Hf]).
    + apply (INV_same s1 s' Hs); [rewrite Hq; apply (I_ackq _ HI1)|intros _; exact Ha|exact HI1].
    + eapply INV_frozen; eassumption.
  - apply step_cleanup_sum in Hc as (_ & [(Hs & Hq & Ha)|Hf]).
    + apply (INV_same s s' Hs); [rewrite Hq; apply (I_ackq _ HI)|intros _; exact Ha|exact HI].
    + eapply INV_frozen; eassumption.
  - destruct HI as [I1 I2 I3 I4 I5 I6 I7 I8 I9]. constructor; cbn; assumption.
Qed.

Theorem INV_reachable es s : bc_run es = Some s -> INV s.
Proof. apply (bc_invariant INV INV_init INV_step). Qed.

(* Of the ten ways a step can fire only three matter to a trace clause: a new connection,
   the processor, the dequeuer.  Everything else is an event no clause looks at — or an
   acknowledgement sent by the acker — that leaves the fields the relations read alone, or
   freezes the connection after all three coroutines have stopped. *)
Inductive coarse_case (s : bc) (e : event) (s' : bc) : Prop :=
| CC_new (He : e = ENewConn) (Ho : conn_open s = false) (Hs : s' = new_conn s)
| CC_dull s1 (He : dull e = true) (Hl : learned s s1) (Hv : same_pd s1 s' \/ frozen s1 s')
| CC_ack s1 g p ok (He : e = ETx g p true ok) (Hk : is_ack_packet p = true) (Hl : learned s s1)
    (Ha : ap s1 = AIdle) (Hv : same_pd s1 s')
| CC_proc g s1 (Hg : ev_g e = Some g) (Hl : learned s s1) (Hr : gproc s1 = Some g) (Hp : step_proc s1 e = Some s')
| CC_deq g s1 (Hg : ev_g e = Some g) (Hl : learned s s1) (Hr : gdeq s1 = Some g) (Hnp : gproc s1 <> Some g)
    (Hd : step_deq s1 e = Some s').

Lemma coarse_cases s e s' : INV s -> step s e = Some s' -> coarse_case s e s'.
Proof.
  intros HI H. destruct (step_inv _ _ _ H); subst.
  - apply CC_new; auto.
  - eapply CC_dull; [reflexivity|apply learned_refl|left; apply same_pd_refl].
  - eapply CC_dull; [reflexivity|apply learned_refl|left; apply same_pd_refl].
  - apply step_clo_sum in Hc as (He & Hs & _). eapply CC_dull; [apply clo_event_dull, He|apply learned_refl|left; exact Hs].
  - eapply CC_proc; eassumption.
  - eapply CC_deq; eassumption.
  - pose proof (step_ack_sum _ _ _ Ha) as (Hs & _ & [(g' & p & ok & q' & -> & Ht & _ & Hi)|[(g' & He) _]]).
    + eapply CC_ack; [reflexivity| |exact Hl|exact Hi|exact Hs].
      eapply ackq_take_is_ack; [exact Ht|apply (I_ackq _ (INV_learned _ _ Hl HI))].
    + eapply CC_dull; [destruct He as [->| ->]; reflexivity|exact Hl|left; exact Hs].
  - apply step_cleanup_sum in Hc as (He & Hv). eapply CC_dull; [apply cl_event_dull, He|exact Hl|].
    destruct Hv as [(Hs & _)|Hf]; [left; exact Hs|right; exact Hf].
  - apply step_cleanup_sum in Hc as (_ & Hv). eapply CC_dull; [reflexivity|apply learned_refl|].
    destruct Hv as [(Hs & _)|Hf]; [left; exact Hs|right; exact Hf].
  - eapply CC_dull; [reflexivity|apply learned_refl|left; constructor; reflexivity].
Qed.

(* A relation R between the model state, the state t of the scanner of a clause and the state
   u of the scanner of a trace hypothesis is preserved by every step — the clause's scanner
   accepting the event whenever the hypothesis' scanner does — if
     - R reads the model state through [same_pd] and survives role learning and freezing,
     - both scanners ignore the dull events and the acknowledgements the acker sends,
     - it is preserved by a new connection, by the processor's and by the dequeuer's steps. *)
Section Sweep.
  Context {T U : Type}.
  Variable f : T -> event -> option T.
  Variable h : U -> event -> option U.
  Variable J : bc -> Prop.
  Variable R : bc -> T -> U -> Prop.
  Hypothesis J_INV : forall s, J s -> INV s.
  Hypothesis J_learned : forall s s1, learned s s1 -> J s -> J s1.
  Hypothesis R_same : forall s s' t u, same_pd s s' -> R s t u -> R s' t u.
  Hypothesis R_learned : forall s s1 t u, J s -> learned s s1 -> R s t u -> R s1 t u.
  Hypothesis R_frozen : forall s s' t u, J s -> frozen s s' -> R s t u -> R s' t u.
  Hypothesis f_dull : forall s t u e s', J s -> R s t u -> step s e = Some s' -> dull e = true -> f t e = Some t.
  Hypothesis h_dull : forall u e u', dull e = true -> h u e = Some u' -> u' = u.
  Hypothesis f_ack : forall s t u g p ok, J s -> R s t u -> ap s = AIdle -> is_ack_packet p = true ->
                                          f t (ETx g p true ok) = Some t.
  Hypothesis h_ack : forall u g p ok u', is_ack_packet p = true -> h u (ETx g p true ok) = Some u' -> u' = u.
  Hypothesis H_new : forall s t u u', J s -> R s t u -> h u ENewConn = Some u' ->
                                      exists t', f t ENewConn = Some t' /\ R (new_conn s) t' u'.
  Hypothesis H_proc : forall s t u e s' u' g, J s -> R s t u -> ev_g e = Some g -> gproc s = Some g ->
    step_proc s e = Some s' -> h u e = Some u' -> exists t', f t e = Some t' /\ R s' t' u'.
  Hypothesis H_deq : forall s t u e s' u' g, J s -> R s t u -> ev_g e = Some g -> gdeq s = Some g -> gproc s <> Some g ->
    step_deq s e = Some s' -> h u e = Some u' -> exists t', f t e = Some t' /\ R s' t' u'.

  Theorem sweep_pd s t u e s' u' : J s -> R s t u -> step s e = Some s' -> h u e = Some u' ->
    exists t', f t e = Some t' /\ R s' t' u'.
  Proof.
    intros HJ HR H Hh. destruct (coarse_cases _ _ _ (J_INV _ HJ) H).
    - subst. eapply H_new; eassumption.
    - rewrite (h_dull _ _ _ He Hh). exists t. split; [eapply f_dull; eassumption|].
      pose proof (R_learned _ _ _ _ HJ Hl HR) as HR1.
      destruct Hv as [Hs|Hf]; [eapply R_same|eapply R_frozen; [eapply J_learned| |]]; eassumption.
    - subst. rewrite (h_ack _ _ _ _ _ Hk Hh). exists t.
      pose proof (R_learned _ _ _ _ HJ Hl HR) as HR1. split; [|eapply R_same; eassumption].
      eapply f_ack; [eapply J_learned; eassumption|exact HR1|exact Ha|exact Hk].
    - eapply H_proc; [eapply J_learned; eassumption|eapply R_learned; eassumption|exact Hg|exact Hr|exact Hp|exact Hh].
    - eapply H_deq; [eapply J_learned; eassumption|eapply R_learned; eassumption|exact Hg|exact Hr|exact Hnp|exact Hd|exact Hh].
  Qed.
End Sweep.

(* the same for a clause that needs no trace hypothesis *)
Section Sweep1.
  Context {T : Type}.
  Variable f : T -> event -> option T.
  Variable J : bc -> Prop.
  Variable R : bc -> T -> Prop.
  Hypothesis J_INV : forall s, J s -> INV s.
  Hypothesis J_learned : forall s s1, learned s s1 -> J s -> J s1.
  Hypothesis R_same : forall s s' t, same_pd s s' -> R s t -> R s' t.
  Hypothesis R_learned : forall s s1 t, J s -> learned s s1 -> R s t -> R s1 t.
  Hypothesis R_frozen : forall s s' t, J s -> frozen s s' -> R s t -> R s' t.
  Hypothesis f_dull : forall s t e s', J s -> R s t -> step s e = Some s' -> dull e = true -> f t e = Some t.
  Hypothesis f_ack : forall s t g p ok, J s -> R s t -> ap s = AIdle -> is_ack_packet p = true -> f t (ETx g p true ok) = Some t.
  Hypothesis H_new : forall s t, J s -> R s t -> exists t', f t ENewConn = Some t' /\ R (new_conn s) t'.
  Hypothesis H_proc : forall s t e s' g, J s -> R s t -> ev_g e = Some g -> gproc s = Some g ->
    step_proc s e = Some s' -> exists t', f t e = Some t' /\ R s' t'.
  Hypothesis H_deq : forall s t e s' g, J s -> R s t -> ev_g e = Some g -> gdeq s = Some g -> gproc s <> Some g ->
    step_deq s e = Some s' -> exists t', f t e = Some t' /\ R s' t'.

  Theorem sweep_pd1 s t e s' : J s -> R s t -> step s e = Some s' -> exists t', f t e = Some t' /\ R s' t'.
  Proof.
    intros HJ HR H.
    refine (sweep_pd f (fun (_ : unit) _ => Some tt) J (fun s t _ => R s t) J_INV J_learned
              (fun s s' t _ => R_same s s' t) (fun s s1 t _ => R_learned s s1 t) (fun s s' t _ => R_frozen s s' t)
              (fun s t _ e s' => f_dull s t e s') _ (fun s t _ => f_ack s t) _
              (fun s t _ _ HJ HR _ => H_new s t HJ HR)
              (fun s t _ e s' _ g HJ HR Hg Hr Hp _ => H_proc s t e s' g HJ HR Hg Hr Hp)
              (fun s t _ e s' _ g HJ HR Hg Hr Hn Hd _ => H_deq s t e s' g HJ HR Hg Hr Hn Hd)
              s t tt e s' tt HJ HR H eq_refl).
    - intros [] ? [] _ _. reflexivity.
    - intros [] ? ? ? [] _ _. reflexivity.
  Qed.
End Sweep1.
