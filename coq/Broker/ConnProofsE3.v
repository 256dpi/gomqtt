(* ConnProofsE3.v — c20_closes and c08_deqack_after_store (ConnSpec6.v) hold of every
   trace the broker-connection model accepts. *)
From Coq Require Import List NArith Bool Lia.
From GM Require Import Base.Lts Codec.Packet Session.Ids Session.Store Session.StoreProofs
  Broker.Conn Broker.ConnSpec Broker.ConnSpec6 Broker.ConnBase
  Broker.ConnProofsB1 Broker.ConnProofsB3 Broker.ConnProofsB4.
Import ListNotations.
Open Scope N_scope.

(* ============================================================== c20_closes == *)

(* closed = false: nobody has closed the transport of the current connection, so no
   coroutine can have stopped;  denied and not sent: the processor is about to send the
   CONNACK(not authorised);  and the processor is done once cleanup has begun *)
Definition cl_rel (s : bc) (t : cl_st) : Prop :=
  (cl_closed t = false -> dying s = false /\ pp s <> PDone /\ lp s = LNone) /\
  (cl_denied t = true -> cl_sent t = false -> pp s = PDeny) /\
  (lp s <> LNone -> lp s <> LEnd -> pp s = PDone).

Lemma cl_proc_facts s e s' : step_proc s e = Some s' ->
  lp s' = lp s /\ pp s <> PDone /\
  ((exists g, e = EConnClose g) \/ (dying s' = dying s /\ pp s' <> PDone)) /\
  (pp s = PDeny -> exists g a ok, e = ETx g (Connack false 5) a ok) /\
  (forall g, e = EAuth g ADeny -> pp s' = PDeny) /\
  e <> ENewConn /\ e <> EClosed.
Proof.
  intros H. inv_proc H; pp_split; try dispatch_cases Hd; pp_cases; sfp; try rewrite Hpp;
    (split; [reflexivity|]); (split; [discriminate|]);
    (split; [first [left; eexists; reflexivity | right; split; [reflexivity|discriminate]]|]);
    (split; [first [discriminate | intros _; do 3 eexists; reflexivity]|]);
    (split; [intros g1 E; first [discriminate E | reflexivity]|]);
    split; discriminate.
Qed.

(* what closures, dequeuer and acker have in common for this clause: they leave pp and lp,
   touch dying only by closing the transport, and never are the authentication *)
Definition cl_frame (s : bc) (e : event) (s' : bc) : Prop :=
  pp s' = pp s /\ lp s' = lp s /\ ((exists g, e = EConnClose g) \/ dying s' = dying s) /\
  (forall g, e <> EAuth g ADeny) /\ e <> ENewConn /\ e <> EClosed.

Lemma cl_deq_facts s e s' : step_deq s e = Some s' -> cl_frame s e s'.
Proof.
  intros H. unfold cl_frame. destruct (step_deq_cases _ _ _ H); subst e s';
    repeat match goal with |- context [match ?b with _ => _ end] => destruct b end; sf;
    (split; [reflexivity|]); (split; [reflexivity|]); (split; [first [left; eexists; reflexivity | right; reflexivity]|]);
    (split; [intros g0; discriminate|]); split; discriminate.
Qed.

Lemma cl_ack_facts s e s' : step_ack s e = Some s' -> cl_frame s e s'.
Proof.
  intros H. unfold cl_frame. unfold step_ack in H.
  destruct (ap s) eqn:Eap; destruct e; try discriminate H; bm H; inv_some H; unfold ack_token_back;
    try match goal with |- context [match ?p with Connect _ => _ | _ => _ end] => destruct p end; sf;
    (split; [reflexivity|]); (split; [reflexivity|]);
    (split; [first [left; eexists; reflexivity | right; reflexivity]|]);
    (split; [intros g0; discriminate|]); split; discriminate.
Qed.

Lemma cl_clo_facts s e s' : step_clo s e = Some s' -> cl_frame s e s'.
Proof.
  intros H. unfold cl_frame. destruct (step_clo_cases _ _ _ H); subst e s';
    unfold clo_enqueue; repeat match goal with |- context [if ?b then _ else _] => destruct b end; sf;
    (split; [reflexivity|]); (split; [reflexivity|]);
    (split; [first [left; eexists; reflexivity | right; reflexivity]|]);
    (split; [intros g0; discriminate|]); split; discriminate.
Qed.

Lemma cl_cleanup_facts s e s' : step_cleanup s e = Some s' ->
  dying s' = dying s /\ lp s <> LEnd /\ lp s' <> LNone /\
  ((lp s = LNone /\ all_stopped s = true /\ pp s' = PDone) \/ (lp s <> LNone /\ pp s' = pp s)) /\
  (forall g, e <> EAuth g ADeny) /\ (forall g, e <> EConnClose g) /\ e <> ENewConn.
Proof.
  intros H. destruct (step_cleanup_cases _ _ _ H); subst e s'; pp_cases; sf;
    (split; [reflexivity|]); (split; [congruence|]); (split; [discriminate|]);
    (split; [first [left; repeat split; first [reflexivity|assumption] | right; split; [congruence|reflexivity]]|]);
    (split; [intros g0; discriminate|]); (split; [intros g0; discriminate|discriminate]).
Qed.

Lemma event_eq_closed e : e = EClosed \/ e <> EClosed.
Proof. destruct e; try (right; discriminate). left; reflexivity. Qed.

Lemma proc_cannot_stop s : dying s = false -> pp s <> PDone -> proc_can_stop s = false.
Proof. unfold proc_can_stop. intros Hd Hp. destruct (pp s); try reflexivity; try exact Hd. contradiction Hp; reflexivity. Qed.

Lemma all_stopped_proc s : all_stopped s = true -> proc_can_stop s = true.
Proof. unfold all_stopped. intros H. apply andb_true_iff in H as [H _]. apply andb_true_iff in H as [H _]. exact H. Qed.

(* the effect of an event that is neither ENewConn nor EClosed on the scanner *)
Definition cl_effect (t : cl_st) (e : event) (t' : cl_st) : Prop :=
  (cl_closed t' = false -> cl_closed t = false /\ forall g, e <> EConnClose g) /\
  (cl_denied t' = true -> cl_sent t' = false ->
     cl_sent t = false /\ (forall g a ok, e <> ETx g (Connack false 5) a ok) /\
     (cl_denied t = true \/ exists g, e = EAuth g ADeny)).

Lemma cl_effect_none t e : (forall g, e <> EConnClose g) -> (forall g a ok, e <> ETx g (Connack false 5) a ok) ->
  cl_effect t e t.
Proof.
  intros Nc Nt. split; [intros Hc; split; [exact Hc|exact Nc]|].
  intros Hd Hs. split; [exact Hs|split; [exact Nt|left; exact Hd]].
Qed.

Lemma cl_step_tx t g p a ok : packet_eqb p (Connack false 5) = false -> cl_step t (ETx g p a ok) = Some t.
Proof.
  intros Ep. destruct p as [c|sp code|d m i|i|i|i|i|i su|i cs|i ts|i| | |]; try reflexivity.
  destruct sp; [reflexivity|]. cbn [cl_step].
  destruct code as [|q]; [reflexivity|].
  destruct q as [q|q|]; try reflexivity. destruct q as [q|q|]; try reflexivity.
  destruct q as [q|q|]; try reflexivity. discriminate Ep.
Qed.

Lemma cl_step_other t e : e <> ENewConn -> e <> EClosed -> exists t', cl_step t e = Some t' /\ cl_effect t e t'.
Proof.
  intros N1 N2. destruct e; try (contradiction N1; reflexivity); try (contradiction N2; reflexivity).
  all: try (exists t; split; [reflexivity|apply cl_effect_none; intros; discriminate]).
  - (* ETx *)
    destruct (packet_eqb p (Connack false 5)) eqn:Ep.
    + apply packet_eqb_eq in Ep. subst p. eexists; split; [reflexivity|]. split.
      * intros Hc. split; [exact Hc|intros g0; discriminate].
      * intros _ Hs. discriminate Hs.
    + exists t. split; [apply cl_step_tx, Ep|]. apply cl_effect_none; [intros g0; discriminate|].
      intros g0 a0 ok0 E. injection E as _ -> _ _. discriminate Ep.
  - (* EConnClose *)
    eexists; split; [reflexivity|]. split; [intros Hc; discriminate Hc|].
    intros Hd Hs. split; [exact Hs|split; [intros g0 a0 ok0; discriminate|left; exact Hd]].
  - (* EAuth *)
    destruct r; try (exists t; split; [reflexivity|apply cl_effect_none; intros; discriminate]).
    eexists; split; [reflexivity|]. split; [intros Hc; split; [exact Hc|intros g0; discriminate]|].
    intros _ Hs. split; [exact Hs|split; [intros g0 a0 ok0; discriminate|right; eexists; reflexivity]].
Qed.

Lemma cl_rel_roles s t p d a c : cl_rel s t -> cl_rel (set_roles s p d a c) t.
Proof. exact (fun H => H). Qed.

Lemma cl_keep s t e s' : cl_frame s e s' -> cl_rel s t -> exists t', cl_step t e = Some t' /\ cl_rel s' t'.
Proof.
  intros (Hp & Hl & Hd & Ha & N1 & N2) (R1 & R2 & R3).
  destruct (cl_step_other t e N1 N2) as (t' & Ht & C1 & C2). exists t'. split; [exact Ht|].
  unfold cl_rel. rewrite Hp, Hl. split; [|split; [|exact R3]].
  - intros Hc. destruct (C1 Hc) as [Hc0 Hne]. destruct Hd as [(g0 & ->)|Hd]; [exfalso; eapply Hne; reflexivity|].
    rewrite Hd. apply R1, Hc0.
  - intros Hdn Hs. destruct (C2 Hdn Hs) as (Hs0 & _ & [Hd0|(g0 & ->)]); [apply R2; assumption|exfalso; eapply Ha; reflexivity].
Qed.

(* cleanup: once it has begun somebody closed the transport, and the processor is done *)
Lemma cl_cleanup s t e s' : cl_rel s t -> step_cleanup s e = Some s' -> exists t', cl_step t e = Some t' /\ cl_rel s' t'.
Proof.
  intros (R1 & R2 & R3) H.
  destruct (cl_cleanup_facts _ _ _ H) as (Hd & Hl & Hl' & Hcase & Ha & Hnc & N1).
  assert (Hc : cl_closed t = true).
  { destruct (cl_closed t) eqn:Ec; [reflexivity|]. destruct (R1 eq_refl) as (D1 & P1 & L1).
    destruct Hcase as [(_ & Ha' & _)|(Hn & _)]; [|contradiction].
    apply all_stopped_proc in Ha'. rewrite (proc_cannot_stop _ D1 P1) in Ha'. discriminate Ha'. }
  assert (Hsent : cl_denied t = true -> cl_sent t = true).
  { intros Hdn. destruct (cl_sent t) eqn:Es; [reflexivity|]. pose proof (R2 Hdn eq_refl) as Hp.
    destruct Hcase as [(_ & Ha' & _)|(Hn & _)].
    - apply all_stopped_proc in Ha'. unfold proc_can_stop in Ha'. rewrite Hp in Ha'. discriminate Ha'.
    - rewrite R3 in Hp; [discriminate Hp|exact Hn|exact Hl]. }
  assert (Hpd : pp s' = PDone).
  { destruct Hcase as [(_ & _ & Hp)|(Hn & Hp)]; [exact Hp|]. rewrite Hp. apply R3; assumption. }
  destruct (event_eq_closed e) as [->|N2].
  - exists t. split.
    + cbn [cl_step]. rewrite Hc. destruct (cl_denied t); [rewrite (Hsent eq_refl)|]; reflexivity.
    + split; [intros Hx; rewrite Hc in Hx; discriminate Hx|]. split; [|intros _ _; exact Hpd].
      intros Hdn Hsn. rewrite (Hsent Hdn) in Hsn. discriminate Hsn.
  - destruct (cl_step_other t e N1 N2) as (t' & Ht & C1 & C2). exists t'. split; [exact Ht|].
    split; [|split; [|intros _ _; exact Hpd]].
    + intros Hc'. destruct (C1 Hc') as [Hc0 _]. rewrite Hc in Hc0. discriminate Hc0.
    + intros Hdn Hs. exfalso. destruct (C2 Hdn Hs) as (Hs0 & _ & [Hd0|(g0 & ->)]); [|eapply Ha; reflexivity].
      rewrite (Hsent Hd0) in Hs0. discriminate Hs0.
Qed.

Lemma cl_hstep s t e s' : cl_rel s t -> step s e = Some s' -> exists t', cl_step t e = Some t' /\ cl_rel s' t'.
Proof.
  refine (step_sweep cl_rel (fun t e s' => exists t', cl_step t e = Some t' /\ cl_rel s' t') _ _ _ _ _ _ _ _ _ _ s t e s'); clear s t e s'.
  - (* roles *) intros s t g d a c HR _ _. exact HR.
  - (* new *) intros s t _ _. eexists; split; [reflexivity|]. unfold cl_rel; sf; cbn [cl_closed cl_denied cl_sent].
    split; [intros _; repeat split; discriminate|]. split; [intros Hd; discriminate Hd|intros Hn; contradiction Hn; reflexivity].
  - (* close-req *) intros s t HR. exists t. split; [reflexivity|exact HR].
  - (* quiescent *) intros s t HR _. exists t. split; [reflexivity|exact HR].
  - (* kill *) intros s t g (R1 & R2 & R3) _. eexists; split; [reflexivity|]. unfold cl_rel; sf; cbn [cl_closed cl_denied cl_sent].
    split; [intros Hc; discriminate Hc|split; [exact R2|exact R3]].
  - (* closure *) intros s t e s' HR H. exact (cl_keep _ _ _ _ (cl_clo_facts _ _ _ H) HR).
  - (* processor *)
    intros s s1 t e s' g HR _ Hv _ H.
    assert (HR1 : cl_rel s1 t) by (destruct Hv as [[-> _]|(_ & _ & -> & _)]; exact HR).
    clear HR Hv s. destruct HR1 as (R1 & R2 & R3).
    destruct (cl_proc_facts _ _ _ H) as (Hl & Hnd & Hd & Hdeny & Hdeny' & N1 & N2).
    destruct (cl_step_other t e N1 N2) as (t' & Ht & C1 & C2). exists t'. split; [exact Ht|].
    unfold cl_rel. rewrite Hl. split; [|split].
    + intros Hc. destruct (C1 Hc) as [Hc0 Hne]. destruct Hd as [(g0 & ->)|[Hd Hp]]; [exfalso; eapply Hne; reflexivity|].
      destruct (R1 Hc0) as (D1 & _ & L1). rewrite Hd. repeat split; assumption.
    + intros Hdn Hs. destruct (C2 Hdn Hs) as (Hs0 & Hntx & [Hd0|(g0 & ->)]).
      * exfalso. destruct (Hdeny (R2 Hd0 Hs0)) as (g0 & a0 & ok0 & ->). eapply Hntx. reflexivity.
      * exact (Hdeny' g0 eq_refl).
    + intros Hn1 Hn2. exfalso. apply Hnd. apply R3; assumption.
  - (* dequeuer *) intros s t e s' g HR _ _ _ _ H. exact (cl_keep _ _ _ _ (cl_deq_facts _ _ _ H) HR).
  - (* acker *) intros s t e s' g HR _ _ _ _ _ H. exact (cl_keep _ _ _ _ (cl_ack_facts _ _ _ H) HR).
  - (* cleanup *) intros s t e s' HR _ H. exact (cl_cleanup _ _ _ _ HR H).
Qed.

Theorem c20_closes_holds : forall es s, bc_run es = Some s -> c20_closes es = true.
Proof.
  unfold c20_closes. apply (scan_sound cl_step cl_rel cl_hstep).
  unfold cl_rel; cbn. split; [intros H; discriminate H|]. split; [intros H; discriminate H|intros _ H; contradiction H; reflexivity].
Qed.

(* ================================================== c08_deqack_after_store == *)

Definition da_rel (s : bc) (t : list (N * (message * bool))) : Prop :=
  match dp s with
  | DNextId m _ => exists g, gdeq s = Some g /\ aget t g = Some (m, false)
  | DSave p _ => exists g m id, gdeq s = Some g /\ p = Publish false m id /\ aget t g = Some (m, false)
  | DBackAck p => exists g m id b, gdeq s = Some g /\ p = Publish false m id /\ aget t g = Some (m, b) /\
                                   (m_qos m =? 0) || b = true
  | _ => True
  end.

Lemma da_rel_same s s' t : dp s' = dp s -> gdeq s' = gdeq s -> da_rel s t -> da_rel s' t.
Proof. unfold da_rel. intros -> ->. exact (fun x => x). Qed.

Lemma da_rel_idle s' t : (match dp s' with DNextId _ _ | DSave _ _ | DBackAck _ => False | _ => True end) -> da_rel s' t.
Proof. unfold da_rel. destruct (dp s'); intros H; try contradiction; exact I. Qed.

(* events of the processor, the acker, the cleanup and the closures leave the scanner alone *)
Lemma da_proc_quiet s e s' t : step_proc s e = Some s' -> da_step t e = Some t.
Proof.
  intros H. inv_proc H; reflexivity.
Qed.

Lemma da_deq s t e s' g : gdeq s = Some g -> ev_g e = Some g -> da_rel s t -> step_deq s e = Some s' ->
  exists t', da_step t e = Some t' /\ da_rel s' t'.
Proof.
  intros Hg Heg HR H. unfold da_rel in HR. unfold step_deq, take_deq, guard in H.
  destruct (dp s) eqn:Edp; destruct e; try discriminate H; bm H; inv_some H;
    cbn [ev_g] in Heg; try injection Heg as Heg; subst; unfold da_rel; sf;
    try (eexists; split; [reflexivity|]; exact I).
  - (* DeqRet, QoS 0, the backend wants an acknowledgement *)
    eexists; split; [reflexivity|]. exists g, m, 0, false.
    repeat split; [exact Hg|apply aget_aput_eq|].
    match goal with Hq : (m_qos m =? 0) = true |- _ => rewrite Hq end. reflexivity.
  - (* DeqRet, QoS > 0 *)
    eexists; split; [reflexivity|]. exists g. split; [exact Hg|apply aget_aput_eq].
  - (* NextId *)
    destruct HR as (g' & G & A). eexists; split; [reflexivity|]. exists g', m, id. repeat split; assumption.
  - (* Save ok, acknowledgement wanted *)
    destruct HR as (g' & m & id & G & -> & A). rewrite Hg in G. injection G as <-.
    match goal with Hq : packet_eqb _ _ = true |- _ => apply packet_eqb_eq in Hq; subst end.
    cbn [da_step]. rewrite A, message_eqb_refl. eexists; split; [reflexivity|].
    exists g, m, id, true. repeat split; [exact Hg|apply aget_aput_eq|apply orb_true_r].
  - (* Save ok *)
    destruct HR as (g' & m & id & G & -> & A). rewrite Hg in G. injection G as <-.
    match goal with Hq : packet_eqb _ _ = true |- _ => apply packet_eqb_eq in Hq; subst end.
    cbn [da_step]. rewrite A, message_eqb_refl. eexists; split; [reflexivity|exact I].
  - (* Save failed *)
    destruct HR as (g' & m & id & G & -> & A).
    match goal with Hq : packet_eqb _ _ = true |- _ => apply packet_eqb_eq in Hq; subst end.
    eexists; split; [reflexivity|]. exact I.
  - (* the acknowledgement *)
    destruct HR as (g' & m & id & b & G & -> & A & C). rewrite Hg in G. injection G as <-.
    cbn [da_step]. rewrite A, C. eexists; split; [reflexivity|]. exact I.
Qed.

Lemma step_cleanup_dp2 s e s' : step_cleanup s e = Some s' ->
  (dp s' = dp s \/ dp s' = DDone \/ dp s' = DOff) /\ gdeq s' = gdeq s.
Proof.
  intros H. destruct (step_cleanup_cases _ _ _ H); subst s'; sf; (split; [|reflexivity]);
    try (left; reflexivity); right; destruct (dp s); auto.
Qed.

Lemma da_hstep s t e s' : da_rel s t -> step s e = Some s' -> exists t', da_step t e = Some t' /\ da_rel s' t'.
Proof.
  refine (step_sweep da_rel (fun t e s' => exists t', da_step t e = Some t' /\ da_rel s' t') _ _ _ _ _ _ _ _ _ _ s t e s'); clear s t e s'.
  - (* the relation speaks of the dequeuer's goroutine only while the dequeuer holds a message *)
    intros s t g d a c HR _ [(Hn & -> & _)|[(-> & _)|(-> & _)]]; [|exact HR..].
    unfold da_rel in *; sf. destruct (dp s); try exact I;
      [destruct HR as (g' & G & _)|destruct HR as (g' & m & id & G & _)|destruct HR as (g' & m & id & b & G & _)];
      rewrite Hn in G; discriminate G.
  - (* new *) intros s t _ _. exists []. split; [reflexivity|]. exact I.
  - (* close-req *) intros s t HR. exists t. split; [reflexivity|exact HR].
  - (* quiescent *) intros s t HR _. exists t. split; [reflexivity|exact HR].
  - (* kill *) intros s t g HR _. exists t. split; [reflexivity|exact HR].
  - (* closure *) intros s t e s' HR H. exists t. split.
    + apply step_clo_event in H. destruct e; try discriminate H; reflexivity.
    + apply step_clo_shape in H. destruct H as (se & cl & dy & q & ->). exact HR.
  - (* processor *) intros s s1 t e s' g HR _ Hv _ H.
    assert (HR1 : da_rel s1 t) by (destruct Hv as [[-> _]|(_ & _ & -> & _)]; exact HR).
    exists t. split; [eapply da_proc_quiet; exact H|].
    destruct (step_proc_dp _ _ _ H) as [Hg [Hd|[_ Hd]]].
    + eapply da_rel_same; eassumption.
    + apply da_rel_idle. rewrite Hd. exact I.
  - (* dequeuer *) intros s t e s' g HR _ Hev Hg _ H. eapply da_deq; eassumption.
  - (* acker *) intros s t e s' g HR _ _ _ _ _ H. exists t. split.
    + apply step_ack_event in H. destruct e; try discriminate H; reflexivity.
    + apply step_ack_shape in H. destruct H as (a & dy & t1 & t2 & t3 & q & ->). exact HR.
  - (* cleanup *) intros s t e s' HR _ H. exists t. split.
    + apply step_cleanup_event in H. destruct e; try discriminate H; reflexivity.
    + destruct (step_cleanup_dp2 _ _ _ H) as [[Hd|[Hd|Hd]] Hg];
        [eapply da_rel_same; eassumption|apply da_rel_idle; rewrite Hd; exact I|apply da_rel_idle; rewrite Hd; exact I].
Qed.

Theorem c08_deqack_after_store_holds : forall es s, bc_run es = Some s -> c08_deqack_after_store es = true.
Proof.
  unfold c08_deqack_after_store. apply (scan_sound da_step da_rel da_hstep). exact I.
Qed.
