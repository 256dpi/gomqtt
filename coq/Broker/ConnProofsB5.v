(* ConnProofsB5.v — C07 exactly-once, part 2: c07_no_publish_after_release holds of
   every accepted trace on which the backend acknowledges promptly (prompt_acks). *)
From Coq Require Import List NArith Bool Lia.
From GM Require Import Base.Lts Codec.Packet Session.Ids Session.Store Session.StoreProofs
  Broker.Conn Broker.ConnSpec Broker.ConnBase Broker.ConnProofsB1 Broker.ConnProofsB3
  Broker.ConnProofsB4.
Import ListNotations.
Open Scope N_scope.

(* --------------------------------------------- c07_no_publish_after_release *)

Definition q2_store (sin : store) (rel : list N) : Prop :=
  NoDup rel /\ forall id, In id rel -> store_lookup sin id = None.
Definition q2_pp (x : ppc) (rel : list N) : Prop :=
  match x with
  | PRelPub id _ => ~ In id rel
  | PPub2W p => exists d m id, p = Publish d m id
  | _ => True
  end.
Definition q2_inv (s : bc) (t : q2_st) : Prop :=
  q2_store (s_in (sess s)) (q2_released t) /\ q2_pp (pp s) (q2_released t).
Definition q2_rel (s : bc) (t : q2_st) : Prop := last_rel s (q2_last t) /\ q2_inv s t.

Lemma q2_last_next t e t' : q2_step t e = Some t' -> q2_last t' = lt_next (q2_last t) e.
Proof. intros H. unfold q2_step in H. destruct e; bm H; inv_some H; reflexivity. Qed.

Lemma q2_store_save sin rel d m id :
  q2_store sin rel -> q2_store (store_save sin (Publish d m id)) (nremove1 id rel).
Proof.
  intros [H1 H2]. destruct (nodup_nremove1 id rel H1) as [N1 N2]. split; [exact N1|].
  intros id' Hin. unfold store_save. cbn [get_id]. rewrite lookup_put.
  destruct (id' =? id) eqn:E; [apply N.eqb_eq in E; subst; contradiction|].
  apply H2. eapply in_nremove1, Hin.
Qed.

Lemma q2_store_delete sin rel id : NoDup (keys sin) ->
  q2_store sin rel -> q2_store (store_delete sin id) (if nmem id rel then rel else id :: rel).
Proof.
  intros Hk [H1 H2]. split.
  - destruct (nmem id rel) eqn:E; [exact H1|]. apply nmem_false_iff in E. constructor; assumption.
  - intros id' Hin. rewrite lookup_delete by exact Hk. destruct (id' =? id) eqn:E; [reflexivity|].
    apply H2. destruct (nmem id rel); [exact Hin|]. destruct Hin as [->|Hin]; [rewrite N.eqb_refl in E; discriminate E|exact Hin].
Qed.

Lemma q2_pp_shrink x rel id : q2_pp x rel -> q2_pp x (nremove1 id rel).
Proof. destruct x; cbn [q2_pp]; try exact (fun x => x). intros H Hin. apply H. eapply in_nremove1, Hin. Qed.

Lemma q2_clo s t u e s' : inv_c07 s -> pk_inv s u -> q2_inv s t -> step_clo s e = Some s' ->
  exists t', q2_step t e = Some t' /\ q2_inv s' t'.
Proof.
  intros (I1 & I2 & I3) (Hc & Hp & _) [Hs Hq] H. apply step_clo_nf in H. destruct H as [H (_ & Epp & _)].
  unfold q2_inv. rewrite Epp.
  destruct H as [c g id -> _ _ _ _ _ -> _ | c g -> _ _ _ _ _ -> _ | c g id ok -> Hin Hst Hk _ -> _
                | c g st Ht _ _ -> _ | c g He _ _ _ ->].
  1, 2: exists t; split; [reflexivity|split; assumption].
  2: exists t; split; [destruct Ht; reflexivity|split; assumption].
  2: exists t; split; [destruct He as [-> | ->]; reflexivity|split; assumption].
  destruct ok; [|exists t; split; [reflexivity|split; assumption]].
  (* the closure releases the handshake *)
  eexists. split; [reflexivity|]. cbn [q2_released]. split; [apply q2_store_delete; assumption|].
  destruct (pp s) eqn:Ex; try exact I; try exact Hq. cbn [q2_pp pk_pp] in *.
  destruct (nmem id (q2_released t)); [exact Hq|]. intros [E|Hin']; [|exact (Hq Hin')]. subst id0.
  destruct Hc as (_ & P2 & _). destruct Hp as [_ Hb]. apply (Hb g). eapply P2; eassumption.
Qed.

Lemma q2_proc s t e s' g : gproc s = Some g -> ev_g e = Some g ->
  plast (pp s) (aget (q2_last t) g) -> q2_inv s t -> step_proc s e = Some s' ->
  exists t', q2_step t e = Some t' /\ q2_inv s' t'.
Proof.
  intros Hg Heg HL [Hs Hq] H.
  inv_proc H; cbn [ev_g] in Heg; injection Heg as ->; try dispatch_cases Hd; pp_cases;
    try (eexists; split; [reflexivity|]; unfold q2_inv; sfp; cbn [q2_released q2_pp];
         split; solve [assumption | exact I | eauto]).
  - (* ESetup, fresh session *)
    eexists; split; [reflexivity|]. unfold q2_inv; sfp. cbn [session_new s_in q2_pp]. split; [|exact I].
    destruct Hs as [H1 _]. split; [exact H1|reflexivity].
  - (* PPub1W *)
    rewrite Hpp in HL. destruct HL as (d & m' & HL). exists t. split; [cbn [q2_step]; rewrite HL; reflexivity|].
    unfold q2_inv; sfp. split; [exact Hs|exact I].
  - (* PPub2W, saved *)
    rewrite Hpp in Hq. destruct Hq as (d & m & id & ->). cbn [get_id] in Hid. injection Hid as <-.
    eexists. split; [reflexivity|]. unfold q2_inv; sfp. cbn [q2_released q2_pp sess_with s_in].
    split; [apply q2_store_save, Hs|exact I].
  - (* PPub2W, save failed *)
    exists t. split; [destruct p0; reflexivity|]. unfold q2_inv; sfp. split; [exact Hs|exact I].
  - (* PRelLookup, found: the id is not released *)
    exists t. split; [reflexivity|]. unfold q2_inv; sfp. split; [exact Hs|]. cbn [q2_pp].
    intros Hin. destruct Hs as [_ H2]. rewrite (H2 _ Hin) in Elk. discriminate Elk.
  - (* PRelPub *)
    rewrite Hpp in HL, Hq. cbn [plast] in HL. cbn [q2_pp] in Hq. exists t. split.
    + cbn [q2_step]. rewrite HL. apply nmem_false_iff in Hq. rewrite Hq. reflexivity.
    + unfold q2_inv; sfp. split; [exact Hs|exact I].
Qed.

Lemma q2_inv_hstep s t u e s' : inv_c07 s -> pk_inv s u -> q2_rel s t -> step s e = Some s' ->
  exists t', q2_step t e = Some t' /\ q2_inv s' t'.
Proof.
  intros Hi Hpk HR. refine (step_sweep (fun s t => inv_c07 s /\ pk_inv s u /\ q2_rel s t) (fun t e s' => exists t', q2_step t e = Some t' /\ q2_inv s' t')
                              _ _ _ _ _ _ _ _ _ _ s t e s' (conj Hi (conj Hpk HR))); clear s t e s' Hi Hpk HR.
  - (* roles *) intros s t g d a c HP _ _. exact HP.
  - (* new *) intros s t (_ & _ & _ & [H1 _]) _. eexists. split; [reflexivity|]. split; [exact H1|exact I].
  - (* close-req *) intros s t (_ & _ & _ & HR). exists t. split; [reflexivity|exact HR].
  - (* quiescent *) intros s t (_ & _ & _ & HR) _. exists t. split; [reflexivity|exact HR].
  - (* kill *) intros s t g (_ & _ & _ & HR) _. exists t. split; [reflexivity|exact HR].
  - (* closure *) intros s t e s' (Hi & Hpk & _ & HR) H. eapply q2_clo; eassumption.
  - (* processor *) intros s s1 t e s' g (_ & _ & HL & HR) _ Hv Hev H. apply (q2_proc s1 t e s' g); try assumption.
    + destruct Hv as [[-> Hg]|(_ & _ & -> & _)]; [exact Hg|reflexivity].
    + exact (last_rel_view _ _ _ _ _ Hv HL).
    + destruct Hv as [[-> _]|(_ & _ & -> & _)]; exact HR.
  - (* dequeuer *) intros s t e s' g (_ & _ & _ & HR) _ _ _ _ H. exists t. split.
    + apply step_deq_event in H. destruct e; try discriminate H; try reflexivity. destruct d; [discriminate H|reflexivity].
    + destruct (step_deq_frame _ _ _ H) as (Hs & _ & Hp & _). unfold q2_inv in *. rewrite Hs, Hp. exact HR.
  - (* acker *) intros s t e s' g (_ & _ & _ & HR) _ _ _ _ _ H. exists t. split.
    + apply step_ack_event in H. destruct e; try discriminate H; reflexivity.
    + apply step_ack_shape in H. destruct H as (a & dy & t1 & t2 & t3 & q & ->). exact HR.
  - (* cleanup *) intros s t e s' (_ & _ & _ & [Hs Hq]) _ H. exists t. split.
    + apply step_cleanup_event in H. destruct e; try discriminate H; try reflexivity; destruct k; try discriminate H; reflexivity.
    + destruct (step_cleanup_frame _ _ _ H) as (_ & Es & _ & _ & _ & _ & [Hp|Hp] & _); unfold q2_inv; rewrite Es, Hp;
        (split; [exact Hs|]); [exact Hq|exact I].
Qed.

Definition q2_R (s : bc) (t : q2_st) (u : pk_st) : Prop := inv_c07 s /\ pk_rel s u /\ q2_rel s t.

Lemma q2_hstep s t u e s' u' : q2_R s t u -> step s e = Some s' -> pk_step u e = Some u' ->
  exists t', q2_step t e = Some t' /\ q2_R s' t' u'.
Proof.
  intros (Hi & Hpk & Hq) H Hu.
  destruct (q2_inv_hstep _ _ _ _ _ Hi (proj2 Hpk) Hq H) as (t' & Et & Hq').
  exists t'. split; [exact Et|]. split; [eapply inv_c07_step; eassumption|]. split.
  - eapply pk_hstep; eassumption.
  - split; [|exact Hq']. rewrite (q2_last_next _ _ _ Et). apply (last_hstep _ _ _ _ (proj1 Hq) H).
Qed.

Theorem no_publish_after_release_partial : forall es s,
  bc_run es = Some s -> prompt_acks es = true -> c07_no_publish_after_release es = true.
Proof.
  unfold prompt_acks, c07_no_publish_after_release.
  apply (scan_sound2 q2_step pk_step q2_R q2_hstep).
  split; [exact inv_c07_init|]. split; [exact pk_rel_init|].
  split; [exact I|]. split; [|exact I]. split; [constructor|intros id []].
Qed.
