(* ConnTac.v — tactics for computing with the state record of the broker-connection
   model (Conn.v) and for splitting the matches of its step functions. *)
From Coq Require Import List NArith Bool.
From GM Require Import Codec.Packet Session.Store Broker.Conn.
Import ListNotations.
Open Scope N_scope.

(* reduce record projections of the record-update helpers *)
Ltac sf :=
  cbn [conn_no sess clos gproc gdeq gack gcl ph pp dp ap lp dying will cw cpp cps tdeq tpub tsub ackq
       set_pp set_dp set_ap set_lp set_sess set_clos set_dying set_tok set_ackq set_ph set_roles
       put_deq put_pub put_sub sess_save sess_delete freeze new_conn ack_token_back clo_enqueue die_p] in *.

(* destruct the scrutinees of the matches in hypothesis H, one after the other *)
Ltac bm_destruct H x :=
  let y := fresh "y" in let E := fresh "E" in
  remember x as y eqn:E in H; symmetry in E; destruct y.
Ltac bm1 H :=
  first
  [ match type of H with
    | context [match ?x with _ => _ end] =>
        lazymatch x with
        | context [match _ with _ => _ end] => fail
        | _ => bm_destruct H x
        end
    end
  | match type of H with
    | context [match ?x with _ => _ end] => bm_destruct H x
    end ].
Ltac bm H := repeat (cbv beta iota zeta in H; bm1 H; try discriminate H).

(* destruct a state with field names that do not shadow the projections *)
Ltac dbc s := destruct s as [xn xs xc xgp xgd xga xgc xph xpp xdp xap xlp xdy xw xcw xcpp xcps xtd xtp xts xq].

Ltac inv_some H := cbv beta iota zeta in H; first [injection H as <- | injection H as H].

Lemma bc_eta s : s = BC (conn_no s) (sess s) (clos s) (gproc s) (gdeq s) (gack s) (gcl s) (ph s) (pp s)
                        (dp s) (ap s) (lp s) (dying s) (will s) (cw s) (cpp s) (cps s) (tdeq s) (tpub s) (tsub s) (ackq s).
Proof. destruct s; reflexivity. Qed.

