(* EndToEndProofsBackend.v — the backend stage of the end-to-end composition, from the delivery
   log of C06/C15 (Broker/BackendLog.v: queue_step, created_step — the per-step form of
   delivery_log / C15_queue_fifo):

     deq_embeds_enq   per session and queue, what the Dequeue calls hand out embeds, in order and
                      with topic and payload intact and QoS capped, into what the delivery
                      specification says was enqueued (over the whole history, across resets of the
                      session);
     backend_order    for a flow (one publisher, one QoS class), what is dequeued for session k
                      embeds in order into that publisher's Publish calls;
     backend_once / backend_intact   nothing is handed out that was not enqueued, nor more often.

   MB only (no connection model here). *)
From Coq Require Import List NArith Bool Lia PeanoNat.
From Coq.Strings Require Import Byte.
From GM Require Import Codec.Packet Topic.MatchSpec Broker.Backend Broker.BackendSpec
  Broker.BackendProofs Broker.BackendProofsPublish Broker.BackendProofsSteps Broker.BackendProofsReplay Broker.BackendOwn
  Broker.BackendProofsHist Broker.BackendLog Broker.EndToEnd Broker.EndToEndProofsLists.
Import ListNotations.
Open Scope N_scope.

(* ------------------------------------------------------------------ one step, one queue *)

Definition deq_piece (k : skey) (temp : bool) (x : bstep) : list message :=
  map snd (filter (fun y => Bool.eqb (fst y) temp) (deq_step k x)).

Lemma deq_q_cons k temp x tr : deq_q k temp (x :: tr) = deq_piece k temp x ++ deq_q k temp tr.
Proof. unfold deq_q, deq_piece. cbn [flat_map]. rewrite filter_app, map_app. reflexivity. Qed.

Lemma enqueued_cons k temp st o r st1 tr :
  enqueued k temp ((st, o, r, st1) :: tr) = enq_event k temp st o r ++ enqueued k temp tr.
Proof. reflexivity. Qed.

Lemma apply_qos_is_capped subs m : capped (apply_qos subs m) m.
Proof. destruct (apply_qos_spec subs m) as (E1 & E2 & _). split; [exact E1|]. split; [exact E2|apply apply_qos_le]. Qed.

(* a step hands out nothing from queue (k, temp), or the head of that queue, capped *)
Lemma deq_piece_cases k temp st o r st1 :
  step st o = (r, st1) ->
  (deq_piece k temp (st, o, r, st1) = [] /\ deq_count k temp st o r = 0%nat) \/
  (exists s m' m rest, get_session st k = Some s /\ deq_piece k temp (st, o, r, st1) = [m'] /\
     deq_count k temp st o r = 1%nat /\ queue temp s = m :: rest /\ capped m' m).
Proof.
  intros H. destruct o as [c id clean|t|c|c subs b|c fs|c m got|c t|c|]; try (left; split; reflexivity).
  cbn [step] in H. rewrite dequeue_unfold in H. destruct (session_of st c) as [[k0 s0]|] eqn:S.
  2:{ injection H as <- <-. left. split; reflexivity. }
  destruct (if t then s_tq s0 else s_sq s0) as [|m q] eqn:Q; injection H as <- <-; [left; split; reflexivity|].
  unfold deq_piece, deq_count. cbn [deq_step]. rewrite (holds_key _ _ _ _ k S).
  destruct (skey_eqb k0 k) eqn:EK; [|left; rewrite andb_false_r; split; reflexivity].
  apply skey_eqb_eq in EK. subst k0. cbn [filter fst]. rewrite andb_true_r.
  destruct (Bool.eqb t temp) eqn:ET; [|left; split; reflexivity].
  apply Bool.eqb_prop in ET. subst t. right. exists s0, (apply_qos (s_subs s0) m), m, q.
  split; [exact (session_of_get _ _ _ _ S)|]. split; [reflexivity|]. split; [reflexivity|]. split; [exact Q|apply apply_qos_is_capped].
Qed.

(* the current content of queue (k, temp) *)
Definition cur (k : skey) (temp : bool) (st : state) : list message :=
  match get_session st k with Some s => queue temp s | None => [] end.

Lemma one_step k temp st o r st1 D E :
  wf st -> OwnOk st -> TempsOk st ->
  (match o with OPublish _ m _ => name_ok (m_topic m) = true | _ => True end) ->
  step st o = (r, st1) ->
  Emb capped (D ++ cur k temp st) E ->
  Emb capped ((D ++ deq_piece k temp (st, o, r, st1)) ++ cur k temp st1) (E ++ enq_event k temp st o r).
Proof.
  intros W O T Hn Es H. unfold cur in *.
  destruct (get_session st k) as [s|] eqn:G.
  - pose proof (queue_step st o temp k s W O T Hn G) as Qs. rewrite Es in Qs.
    (* what was handed out so far, then what stays of the queue, still embeds *)
    assert (Hbase : Emb capped ((D ++ deq_piece k temp (st, o, r, st1)) ++ skipn (deq_count k temp st o r) (queue temp s)) E).
    { destruct (deq_piece_cases k temp st o r st1 Es) as [(-> & ->)|(s' & m' & m & rest & G' & -> & -> & HQ & Hc)].
      - rewrite app_nil_r. exact H.
      - rewrite G in G'. injection G' as <-. rewrite HQ in *. cbn [skipn]. rewrite <- app_assoc. cbn [app].
        eapply (Emb_trans capped capped capped capped_trans); [exact H|].
        apply Emb_app; [apply Emb_refl, capped_refl|]. apply Emb_take; [exact Hc|apply Emb_refl, capped_refl]. }
    assert (Hdrop : Emb capped ((D ++ deq_piece k temp (st, o, r, st1)) ++ []) (E ++ enq_event k temp st o r)).
    { rewrite app_nil_r. apply Emb_app_r. eapply Emb_drop_suffix; exact Hbase. }
    destruct (get_session st1 k) as [s1|] eqn:G1; [|exact Hdrop].
    rewrite (Qs s1 eq_refl). destruct (reset_event k temp st o r); [exact Hdrop|].
    rewrite app_assoc. apply Emb_app; [exact Hbase|apply Emb_refl, capped_refl].
  - assert (P0 : deq_piece k temp (st, o, r, st1) = []).
    { destruct (deq_piece_cases k temp st o r st1 Es) as [(P0 & _)|(s' & m' & m & rest & G' & _)]; [exact P0|congruence]. }
    assert (En : enq_event k temp st o r = []) by (unfold enq_event; rewrite G; reflexivity).
    rewrite P0, En, !app_nil_r in *.
    assert (Hc : match get_session st1 k with Some s1 => queue temp s1 | None => [] end = []).
    { destruct (get_session st1 k) as [s1|] eqn:G1; [|reflexivity].
      pose proof (created_step st o k G s1) as Cr. rewrite Es in Cr. destruct (Cr G1) as [E1 E2].
      destruct temp; cbn [queue]; assumption. }
    rewrite Hc, app_nil_r. exact H.
Qed.

Lemma deq_emb_enq_from k temp : forall ops st D E,
  wf st -> Own st -> TempsOk st -> names_ok ops = true ->
  Emb capped (D ++ cur k temp st) E ->
  Emb capped (D ++ deq_q k temp (trace st ops)) (E ++ enqueued k temp (trace st ops)).
Proof.
  induction ops as [|o ops IH]; intros st D E W O T N H; cbn [trace].
  - cbn [deq_q enqueued flat_map filter map]. rewrite !app_nil_r. eapply Emb_drop_suffix; exact H.
  - cbn [names_ok forallb] in N. apply andb_true_iff in N as [N1 N2].
    pose proof (wf_step st o W) as W1. pose proof (tempsok_step st o T) as T1. pose proof (own_step st o O) as O1.
    assert (Hn : match o with OPublish _ m _ => name_ok (m_topic m) = true | _ => True end) by (destruct o; auto).
    destruct (step st o) as [r st1] eqn:Es. cbn [snd] in *.
    rewrite deq_q_cons, enqueued_cons, !app_assoc.
    apply IH; try assumption.
    apply one_step; try assumption. apply own_ownok, O.
Qed.

(* per session and queue: dequeued embeds into enqueued *)
Theorem deq_embeds_enq cap ops k temp :
  names_ok ops = true ->
  Emb capped (deq_q k temp (trace (init cap) ops)) (enqueued k temp (trace (init cap) ops)).
Proof.
  intros N.
  apply (deq_emb_enq_from k temp ops (init cap) [] []); [apply wf_init|apply own_init|apply tempsok_init|exact N|].
  unfold cur. destruct k; cbn [get_session init st_temps st_stored alookup app]; apply Emb_nil.
Qed.

(* ------------------------------------------------------------------ the two queues of a session *)

Section TwoQueues.
  Variable f : message -> bool.

  Lemma split_filter (temp : bool) (l : list (bool * message)) :
    filter f (map snd (filter (fun x => Bool.eqb (fst x) (negb temp)) l)) = [] ->
    filter f (map snd l) = filter f (map snd (filter (fun x => Bool.eqb (fst x) temp) l)).
  Proof.
    induction l as [|[b m] l IH]; cbn [map filter fst snd]; [reflexivity|].
    destruct b, temp; cbn [Bool.eqb negb map filter snd]; intros H.
    - destruct (f m); [f_equal|]; apply IH, H.
    - destruct (f m) eqn:F; [discriminate H|apply IH, H].
    - destruct (f m) eqn:F; [discriminate H|apply IH, H].
    - destruct (f m); [f_equal|]; apply IH, H.
  Qed.
End TwoQueues.

Lemma split_count t p (l : list (bool * message)) :
  count_key t p (map snd l) =
  (count_key t p (map snd (filter (fun x => Bool.eqb (fst x) true) l)) +
   count_key t p (map snd (filter (fun x => Bool.eqb (fst x) false) l)))%nat.
Proof.
  unfold count_key. induction l as [|[b m] l IH]; cbn [map filter fst snd]; [reflexivity|].
  destruct b; cbn [Bool.eqb map filter snd]; destruct (bytes_eqb (m_topic m) t && bytes_eqb (m_payload m) p);
    cbn [length]; rewrite IH; lia.
Qed.

Lemma split_in x (l : list (bool * message)) :
  In x (map snd l) -> exists temp, In x (map snd (filter (fun y => Bool.eqb (fst y) temp) l)).
Proof.
  intros H. apply in_map_iff in H as ([b m] & <- & Hin). exists b.
  apply in_map_iff. exists (b, m). split; [reflexivity|]. apply filter_In. split; [exact Hin|].
  cbn [fst]. destruct b; reflexivity.
Qed.

(* ------------------------------------------------------------------ flows *)

Lemma filter_firstn_nil {A} (f : A -> bool) n l :
  forallb (fun x => negb (f x)) l = true -> filter f (firstn n l) = [].
Proof.
  revert n. induction l as [|x l IH]; intros [|n] H; cbn [firstn filter]; try reflexivity.
  cbn [forallb] in H. apply andb_true_iff in H as [H1 H2]. apply negb_true_iff in H1. rewrite H1. apply IH, H2.
Qed.

(* what the history enqueued of the flow on its queue are the publisher's calls, in order *)
Lemma enq_flow_pubs fl cPs k temp (tr : list bstep) :
  flow_exclusive fl cPs k temp tr = true ->
  Emb capped (filter (in_flow fl) (enqueued k temp tr)) (filter (in_flow fl) (pub_calls cPs tr)).
Proof.
  induction tr as [|[[[st o] r] st1] tr IH]; intros H; [apply Emb_nil|].
  cbn [flow_exclusive forallb] in H. apply andb_true_iff in H as [Hx Ht].
  rewrite enqueued_cons. cbn [pub_calls flat_map]. rewrite !filter_app.
  apply Emb_app; [|apply IH, Ht]. clear IH Ht.
  unfold enq_event. destruct (get_session st k) as [s|]; [|apply Emb_nil].
  destruct o as [c id clean|t|c|c subs b|c fs|c m got|c t|c|]; try apply Emb_nil.
  - (* Subscribe: the retained replay holds nothing of the flow *)
    match goal with |- context [if ?cond then _ else _] => destruct cond eqn:C end; [|apply Emb_nil].
    apply andb_true_iff in C as [C _]. apply andb_true_iff in C as [_ Hh]. rewrite Hh in Hx. cbn [negb orb] in Hx.
    rewrite (filter_firstn_nil _ _ _ Hx). apply Emb_nil.
  - (* Publish *)
    match goal with |- context [if ?cond then _ else _] => destruct cond eqn:C end; [|apply Emb_nil].
    cbn [filter]. unfold in_flow at 1. cbn [m_topic m_payload]. fold (in_flow fl m).
    destruct (in_flow fl m) eqn:F; [|apply Emb_nil].
    cbn [negb orb] in Hx. apply andb_true_iff in Hx as [Hc _]. rewrite Hc.
    apply andb_true_iff in C as [_ Hr]. destruct r; try discriminate Hr. cbn [returned andb filter]. rewrite F.
    apply Emb_take; [|apply Emb_nil]. unfold capped. cbn [m_topic m_payload m_qos]. repeat split. apply N.le_refl.
Qed.

(* ... and nothing of the flow is enqueued on the other queue *)
Lemma enq_other_noflow fl cPs k temp (tr : list bstep) :
  flow_exclusive fl cPs k temp tr = true -> filter (in_flow fl) (enqueued k (negb temp) tr) = [].
Proof.
  induction tr as [|[[[st o] r] st1] tr IH]; intros H; [reflexivity|].
  cbn [flow_exclusive forallb] in H. apply andb_true_iff in H as [Hx Ht].
  rewrite enqueued_cons, filter_app, (IH Ht), app_nil_r. clear IH Ht.
  unfold enq_event. destruct (get_session st k) as [s|]; [|reflexivity].
  destruct o as [c id clean|t|c|c subs b|c fs|c m got|c t|c|]; try reflexivity.
  - match goal with |- context [if ?cond then _ else _] => destruct cond eqn:C end; [|reflexivity].
    apply andb_true_iff in C as [C _]. apply andb_true_iff in C as [_ Hh]. rewrite Hh in Hx. cbn [negb orb] in Hx.
    apply (filter_firstn_nil _ _ _ Hx).
  - match goal with |- context [if ?cond then _ else _] => destruct cond eqn:C end; [|reflexivity].
    cbn [filter]. unfold in_flow at 1. cbn [m_topic m_payload]. fold (in_flow fl m).
    destruct (in_flow fl m) eqn:F; [|reflexivity]. exfalso.
    cbn [negb orb] in Hx. apply andb_true_iff in Hx as [_ Hq]. apply Bool.eqb_prop in Hq.
    apply andb_true_iff in C as [C _]. apply andb_true_iff in C as [C _]. apply andb_true_iff in C as [C _].
    apply Bool.eqb_prop in C. rewrite Hq in C. destruct temp; discriminate C.
Qed.

(* ------------------------------------------------------------------ the backend stage *)

(* C15, backend stage, for a flow: the messages of the flow that the Dequeue calls on session k
   hand out are, in order, messages of the publisher's Publish calls (topic and payload
   unchanged, QoS capped) — no two are swapped, none is invented or repeated *)
Theorem backend_order cap ops fl cPs k temp :
  names_ok ops = true ->
  flow_exclusive fl cPs k temp (trace (init cap) ops) = true ->
  Emb capped (filter (in_flow fl) (deq_results k (trace (init cap) ops)))
             (filter (in_flow fl) (pub_calls cPs (trace (init cap) ops))).
Proof.
  intros N X. set (tr := trace (init cap) ops) in *.
  assert (Hother : filter (in_flow fl) (deq_q k (negb temp) tr) = []).
  { apply (Emb_nil_r capped). rewrite <- (enq_other_noflow fl cPs k temp tr X).
    apply Emb_filter; [intros x y Hc; apply capped_in_flow, Hc|apply deq_embeds_enq, N]. }
  unfold deq_results. rewrite (split_filter (in_flow fl) temp _ Hother). fold (deq_q k temp tr).
  eapply (Emb_trans capped capped capped capped_trans); [apply enq_flow_pubs, X|].
  apply Emb_filter; [intros x y Hc; apply capped_in_flow, Hc|apply deq_embeds_enq, N].
Qed.

(* C06, backend stage: nothing is handed out more often than the delivery specification enqueued it *)
Theorem backend_once cap ops k t p :
  names_ok ops = true ->
  (count_key t p (deq_results k (trace (init cap) ops)) <=
   count_key t p (enqueued k true (trace (init cap) ops)) + count_key t p (enqueued k false (trace (init cap) ops)))%nat.
Proof.
  intros N. unfold deq_results. rewrite split_count. fold (deq_q k true (trace (init cap) ops)) (deq_q k false (trace (init cap) ops)).
  assert (Hk : forall x y, capped x y -> m_topic x = m_topic y /\ m_payload x = m_payload y)
    by (intros x y (A & B & _); split; assumption).
  pose proof (Emb_count capped t p _ _ Hk (deq_embeds_enq cap ops k true N)).
  pose proof (Emb_count capped t p _ _ Hk (deq_embeds_enq cap ops k false N)). lia.
Qed.

(* ... and nothing that it did not enqueue: intact (topic, payload) and QoS-capped *)
Theorem backend_intact cap ops k x :
  names_ok ops = true ->
  In x (deq_results k (trace (init cap) ops)) ->
  exists temp y, In y (enqueued k temp (trace (init cap) ops)) /\ capped x y.
Proof.
  intros N H. unfold deq_results in H. apply split_in in H as [temp H]. exists temp.
  apply (Emb_in capped _ _ x (deq_embeds_enq cap ops k temp N)). exact H.
Qed.

(* what "enqueued" means (unfolding the delivery specification enq_event): a copy of a Publish that
   returned nil while the session held a matching filter and the queue of the message's QoS class had
   room, with the retain flag cleared — or a retained message replayed by a Subscribe of the holder *)
Theorem enqueued_reading k temp (tr : list bstep) y :
  In y (enqueued k temp tr) ->
  exists st o r st1 s, In (st, o, r, st1) tr /\ get_session st k = Some s /\
    match o with
    | OPublish c m got =>
        r = ROk /\ y = Msg (m_topic m) (m_payload m) (m_qos m) false /\ use_temp m = temp /\
        has_match (s_subs s) (m_topic m) = true /\ is_full (st_cap st) (queue temp s) = false
    | OSubscribe c subs batches => temp = true /\ holds st c k = true /\ In y (concat batches)
    | _ => False
    end.
Proof.
  unfold enqueued. intros H. apply in_flat_map in H as ([[[st o] r] st1] & Hin & Hy).
  unfold enq_event in Hy. destruct (get_session st k) as [s|] eqn:G; [|destruct Hy].
  exists st, o, r, st1, s. split; [exact Hin|split; [exact G|]].
  destruct o as [c id clean|t|c|c subs b|c fs|c m got|c t|c|]; try (destruct Hy; fail).
  - match type of Hy with In _ (if ?cond then _ else _) => destruct cond eqn:C end; [|destruct Hy].
    apply andb_true_iff in C as [C _]. apply andb_true_iff in C as [C1 C2].
    destruct temp; [|discriminate C1]. repeat split; try assumption.
    exact (firstn_In' _ _ _ Hy).
  - match type of Hy with In _ (if ?cond then _ else _) => destruct cond eqn:C end; [|destruct Hy].
    destruct Hy as [<-|[]].
    apply andb_true_iff in C as [C Hr]. apply andb_true_iff in C as [C Hf]. apply andb_true_iff in C as [Hq Hm].
    apply Bool.eqb_prop in Hq. apply negb_true_iff in Hf. destruct r; try discriminate Hr.
    repeat split; assumption.
Qed.
