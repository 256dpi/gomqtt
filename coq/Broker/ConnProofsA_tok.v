(* ConnProofsA_tok.v — C20_tokens (ConnSpec3.v): on every trace the model accepts, a
   token-wait timeout of the processor happens only when as many earlier requests
   are still unanswered as there are tokens. *)
From Coq Require Import List NArith Bool Lia.
From GM Require Import Base.Lts Codec.Packet Session.Ids Session.Store
  Broker.Conn Broker.ConnSpec Broker.ConnSpec3 Broker.ConnBase Broker.ConnProofsA_lib Broker.ConnProofsA_inv
  Broker.ConnProofsA_resp1.
Import ListNotations.
Open Scope N_scope.

(* ---------------------------------------------------------------- relation *)

Definition wait_ok (p : ppc) (w : option N) (zero : bool) : Prop :=
  match p with
  | PSubW _ _ | PUnsubW _ _ => w = Some 1
  | PPub1W _ _ | PPub2W _ => w = Some 2
  | PDieClose | PDone => True
  | _ => w = None \/ zero = true
  end.

Definition tk_R' (gp : option N) (p : ppc) (cs cp ts tp : N) (t : tk_st) : Prop :=
  tk_ps t = cs /\ tk_pp t = cp /\
  ts + tk_sub_used t >= cs /\ tp + tk_pub_used t >= cp /\
  (forall g, nmem g (tk_procs t) = true -> gp = Some g) /\
  (p <> PFirst -> dead_pp p = false -> exists g, gp = Some g /\ nmem g (tk_procs t) = true) /\
  (forall g, aget (tk_wait t) g <> None -> gp = Some g) /\
  (forall g, gp = Some g -> wait_ok p (aget (tk_wait t) g) ((cs =? 0) && (cp =? 0))) /\
  (p = PFirst -> cs = 0 /\ cp = 0).

Definition tk_R (s : bc) (t : tk_st) : Prop := tk_R' (gproc s) (pp s) (cps s) (cpp s) (tsub s) (tpub s) t.

Ltac tk_proj := cbn [tk_ps tk_pp tk_sub_used tk_pub_used tk_wait tk_procs] in *.

(* while the processor's goroutine is not known nothing has been received *)
Lemma tk_R'_learn g p cs cp ts tp t : tk_R' None p cs cp ts tp t -> tk_R' (Some g) p cs cp ts tp t.
Proof.
  intros (K1 & K1' & K2 & K2' & K3 & K4 & K5 & K6 & K7). repeat split; try assumption; try (destruct (K7 H); assumption).
  - intros g' Hm. discriminate (K3 g' Hm).
  - intros H1 H2. destruct (K4 H1 H2) as (g0 & Hx & _). discriminate Hx.
  - intros g' Hm. discriminate (K5 g' Hm).
  - intros g' Hg'. injection Hg' as <-. assert (Hw : aget (tk_wait t) g = None).
    { destruct (aget (tk_wait t) g) eqn:E; [|reflexivity]. assert (Hne : aget (tk_wait t) g <> None) by (rewrite E; discriminate).
      discriminate (K5 g Hne). }
    rewrite Hw. destruct p; cbn [wait_ok]; auto;
      exfalso; (assert (Hx : exists g0, None = Some g0 /\ nmem g0 (tk_procs t) = true) by (apply K4; [discriminate|reflexivity]));
      destruct Hx as (g0 & Hx & _); discriminate Hx.
Qed.

(* moves of the control point that pass on no request: what the processor waits for stays *)
Definition tk_keeps (p p' : ppc) : Prop :=
  (forall w z, wait_ok p w z -> wait_ok p' w z) /\ p' <> PFirst /\ (dead_pp p' = false -> p <> PFirst /\ dead_pp p = false).

Lemma tk_R'_keep gp p p' cs cp ts tp t : tk_keeps p p' -> tk_R' gp p cs cp ts tp t -> tk_R' gp p' cs cp ts tp t.
Proof.
  intros (N1 & N2 & N3) (K1 & K1' & K2 & K2' & K3 & K4 & K5 & K6 & K7). repeat split; try assumption; try contradiction.
  - intros _ Hd. destruct (N3 Hd) as [H1 H2]. exact (K4 H1 H2).
  - intros g Hg. apply N1, K6, Hg.
Qed.

Lemma tk_keeps_done p : tk_keeps p PDone.
Proof. repeat split; discriminate. Qed.

Lemma tk_R'_proc g p cs cp ts tp t : tk_R' (Some g) p cs cp ts tp t -> p <> PFirst -> dead_pp p = false ->
  nmem g (tk_procs t) = true.
Proof. intros (_ & _ & _ & _ & _ & K4 & _) H1 H2. destruct (K4 H1 H2) as (g0 & Hx & Hm). injection Hx as <-. exact Hm. Qed.

Lemma tk_R'_pass g p p' cs cp ts tp ts' tp' su pu su' pu' wait procs :
  tk_R' (Some g) p cs cp ts tp (TkSt cs cp su pu wait procs) -> p <> PFirst -> dead_pp p = false ->
  ts' + su' >= cs -> tp' + pu' >= cp -> p' <> PFirst -> (forall z, wait_ok p' None z) ->
  tk_R' (Some g) p' cs cp ts' tp' (TkSt cs cp su' pu' (adel wait g) procs).
Proof.
  intros (K1 & K1' & K2 & K2' & K3 & K4 & K5 & K6 & K7) H1 H2 Hs Hp Hn Hw. unfold tk_R' in *; tk_proj.
  repeat split; try assumption; try contradiction.
  - intros _ _. apply K4; assumption.
  - intros g' Hne. destruct (N.eq_dec g' g) as [->|Hd]; [reflexivity|]. rewrite (aget_adel_ne _ _ _ Hd) in Hne. apply K5, Hne.
  - intros g' Hg'. injection Hg' as <-. rewrite aget_adel_eq. apply Hw.
Qed.

(* ------------------------------------------------------- the scanner's steps *)

Definition rx_wait (p : packet) : option N :=
  match p with
  | Subscribe _ _ | Unsubscribe _ _ => Some 1
  | Publish _ m _ => if m_qos m =? 0 then None else Some 2
  | _ => None
  end.

Lemma tk_step_rx ps pp su pu wait procs g p :
  exists wait', tk_step (TkSt ps pp su pu wait procs) (ERx g p) = Some (TkSt ps pp su pu wait' (g :: procs)) /\
                aget wait' g = rx_wait p /\ (forall g', g' <> g -> aget wait' g' = aget wait g').
Proof.
  destruct p; cbn [tk_step rx_wait]; tk_proj;
    try (exists (adel wait g); split; [reflexivity|]; split; [apply aget_adel_eq|intros g' Hg'; apply aget_adel_ne, Hg']);
    try (exists (aput wait g 1); split; [reflexivity|]; split; [apply aget_aput_eq|intros g' Hg'; apply aget_aput_ne, Hg']).
  destruct (m_qos m =? 0).
  - exists (adel wait g); split; [reflexivity|]; split; [apply aget_adel_eq|intros g' Hg'; apply aget_adel_ne, Hg'].
  - exists (aput wait g 2); split; [reflexivity|]; split; [apply aget_aput_eq|intros g' Hg'; apply aget_aput_ne, Hg'].
Qed.

Lemma tk_R'_rx g p p' cs cp ts tp su pu wait wait' procs w :
  tk_R' (Some g) p cs cp ts tp (TkSt cs cp su pu wait procs) ->
  aget wait' g = w -> (forall g', g' <> g -> aget wait' g' = aget wait g') ->
  p' <> PFirst -> wait_ok p' w ((cs =? 0) && (cp =? 0)) ->
  tk_R' (Some g) p' cs cp ts tp (TkSt cs cp su pu wait' (g :: procs)).
Proof.
  intros (K1 & K1' & K2 & K2' & K3 & K4 & K5 & K6 & K7) Hw1 Hw2 Hn Hw. unfold tk_R' in *; tk_proj.
  repeat split; try assumption; try contradiction.
  - intros g' Hm. rewrite nmem_cons in Hm. apply orb_true_iff in Hm as [Hm|Hm]; [apply N.eqb_eq in Hm; congruence|apply K3, Hm].
  - intros _ _. exists g. split; [reflexivity|]. rewrite nmem_cons, N.eqb_refl. reflexivity.
  - intros g' Hne. destruct (N.eq_dec g' g) as [->|Hd]; [reflexivity|]. rewrite (Hw2 g' Hd) in Hne. apply K5, Hne.
  - intros g' Hg'. injection Hg' as <-. rewrite Hw1. exact Hw.
Qed.

Lemma match_two {A} (w : option N) (a b : A) :
  match w with Some 2 => a | _ => b end = if match w with Some x => x =? 2 | None => false end then a else b.
Proof. destruct w as [[|[[q|q|]|[q|q|]|]]|]; reflexivity. Qed.

Lemma tk_die_ok t g :
  (aget (tk_wait t) g = Some 1 -> tk_ps t <= tk_sub_used t) ->
  (aget (tk_wait t) g = Some 2 -> tk_pp t <= tk_pub_used t) ->
  tk_step t (EDie g KClient) = Some t.
Proof.
  intros H1 H2. cbn [tk_step]. destruct (aget (tk_wait t) g) as [[|[[q|q|]|[q|q|]|]]|]; try reflexivity.
  - specialize (H2 eq_refl). assert (Hx : (tk_pub_used t <? tk_pp t) = false) by (apply N.ltb_ge; lia).
    rewrite Hx. reflexivity.
  - specialize (H1 eq_refl). assert (Hx : (tk_sub_used t <? tk_ps t) = false) by (apply N.ltb_ge; lia).
    rewrite Hx. reflexivity.
Qed.

Lemma tk_stay s s' g e t :
  tk_R' (Some g) (pp s) (cps s) (cpp s) (tsub s) (tpub s) t ->
  cps s' = cps s -> cpp s' = cpp s -> tsub s' = tsub s -> tpub s' = tpub s -> tk_keeps (pp s) (pp s') ->
  tk_step t e = Some t ->
  exists t', tk_step t e = Some t' /\ tk_R' (Some g) (pp s') (cps s') (cpp s') (tsub s') (tpub s') t'.
Proof. intros HR E1 E2 E3 E4 K Hq. exists t. split; [exact Hq|]. rewrite E1, E2, E3, E4. exact (tk_R'_keep _ _ _ _ _ _ _ _ K HR). Qed.

(* the processor's own sends return no token *)
Lemma tk_own_tx g x cs cp ts tp t p a :
  tk_R' (Some g) x cs cp ts tp t -> x <> PFirst -> dead_pp x = false -> tk_step t (ETx g p a true) = Some t.
Proof.
  intros HR H1 H2. cbn [tk_step]. change (existsb (N.eqb g) (tk_procs t)) with (nmem g (tk_procs t)).
  rewrite (tk_R'_proc _ _ _ _ _ _ _ HR H1 H2). reflexivity.
Qed.

(* --------------------------------------------------------------- processor *)

Lemma tk_proc s t e s' g : tk_R s t -> gproc s = Some g -> ev_g e = Some g -> step_proc s e = Some s' ->
  exists t', tk_step t e = Some t' /\ tk_R s' t'.
Proof.
  intros HR Hgp Hg Hp. unfold tk_R in *. rewrite Hgp in HR.
  destruct (step_proc_frame _ _ _ Hp) as (_ & Fg & _). rewrite Fg, Hgp.
  pose proof (tk_R'_proc _ _ _ _ _ _ _ HR) as Hin.
  pose proof HR as (K1 & K1' & K2 & K2' & _ & _ & _ & K6 & K7). specialize (K6 g eq_refl).
  destruct t as [ps ppn su pu wait procs]. tk_proj. subst ps ppn.
  inv_proc Hp; cbn [ev_g] in Hg; injection Hg as ->.
  all: try (pp_cases;
            (apply (tk_stay s _ _ _ _ HR); sfp;
             [reflexivity|reflexivity|reflexivity|reflexivity
             |try (destruct Hpp as [Hpp|Hpp]); rewrite Hpp; unfold tk_keeps; cbn [wait_ok dead_pp]; repeat split; try discriminate; auto
             |first [reflexivity|apply (tk_own_tx _ _ _ _ _ _ _ _ _ HR); rewrite Hpp; [discriminate|reflexivity]]])).
  - (* the first packet: no tokens yet *)
    destruct (tk_step_rx (cps s) (cpp s) su pu wait procs g p0) as (wait' & Hstep & Hw1 & Hw2).
    eexists. split; [exact Hstep|]. sfp. eapply tk_R'_rx; [exact HR|exact Hw1|exact Hw2|destruct p0; discriminate|].
    destruct (K7 Hpp) as [-> ->]. destruct p0; right; reflexivity.
  - (* Setup fills the token channels *)
    eexists. split; [reflexivity|]. sfp. pose proof HR as (_ & _ & _ & _ & K3 & _).
    assert (Hm : nmem g procs = true) by (apply Hin; rewrite Hpp; [discriminate|reflexivity]).
    unfold tk_R'; tk_proj. split; [reflexivity|]. split; [reflexivity|]. split; [lia|]. split; [lia|]. split; [exact K3|].
    split; [intros _ _; exists g; auto|]. split; [intros g' Hne; exfalso; apply Hne; reflexivity|].
    split; [intros g' _; left; reflexivity|discriminate].
  - (* a packet received in the main loop *)
    destruct (tk_step_rx (cps s) (cpp s) su pu wait procs g p0) as (wait' & Hstep & Hw1 & Hw2).
    eexists. split; [exact Hstep|].
    replace (cps (set_pp (dispatch_st s p0) x0)) with (cps s) by (destruct p0; reflexivity).
    replace (cpp (set_pp (dispatch_st s p0) x0)) with (cpp s) by (destruct p0; reflexivity).
    replace (tsub (set_pp (dispatch_st s p0) x0)) with (tsub s) by (destruct p0; reflexivity).
    replace (tpub (set_pp (dispatch_st s p0) x0)) with (tpub s) by (destruct p0; reflexivity).
    sfp. eapply tk_R'_rx; [exact HR|exact Hw1|exact Hw2|dispatch_cases Hd; discriminate|].
    dispatch_cases Hd; cbn [wait_ok rx_wait]; auto;
      match goal with Hq : m_qos _ = _ |- _ => rewrite Hq end; cbn; auto.
  - (* Subscribe takes a token *)
    eexists. split; [reflexivity|]. sfp; tk_proj.
    eapply tk_R'_pass; [exact HR|rewrite Hpp; discriminate|rewrite Hpp; reflexivity|lia|lia|discriminate|intros z; left; reflexivity].
  - (* Unsubscribe takes a token *)
    eexists. split; [reflexivity|]. sfp; tk_proj.
    eapply tk_R'_pass; [exact HR|rewrite Hpp; discriminate|rewrite Hpp; reflexivity|lia|lia|discriminate|intros z; left; reflexivity].
  - (* Publish, QoS 1, takes a token *)
    rewrite Hpp in K6. cbn [wait_ok] in K6. cbn [tk_step]; tk_proj. rewrite K6.
    eexists. split; [reflexivity|]. sfp; tk_proj.
    eapply tk_R'_pass; [exact HR|rewrite Hpp; discriminate|rewrite Hpp; reflexivity|lia|lia|discriminate|intros z; left; reflexivity].
  - (* the QoS 2 PUBLISH is saved: its token is taken *)
    rewrite Hpp in K6. cbn [wait_ok] in K6. cbn [tk_step]; tk_proj. rewrite K6.
    eexists. split; [reflexivity|]. sfp; tk_proj.
    eapply tk_R'_pass; [exact HR|rewrite Hpp; discriminate|rewrite Hpp; reflexivity|lia|lia|discriminate|intros z; left; reflexivity].
  - rewrite Hpp in K6. cbn [wait_ok] in K6. cbn [tk_step]; tk_proj. rewrite K6.
    eexists. split; [reflexivity|]. sfp; tk_proj.
    eapply tk_R'_pass; [exact HR|rewrite Hpp; discriminate|rewrite Hpp; reflexivity|lia|lia|discriminate|intros z; left; reflexivity].
  - (* the publish triggered by PUBREL takes no token *)
    cbn [tk_step]; tk_proj. rewrite match_two.
    destruct (match aget wait g with Some x => x =? 2 | None => false end) eqn:Etwo; (eexists; split; [reflexivity|]); sfp; tk_proj.
    + eapply tk_R'_pass; [exact HR|rewrite Hpp; discriminate|rewrite Hpp; reflexivity|lia|lia|discriminate|intros z; left; reflexivity].
    + apply (tk_R'_keep _ (pp s)); [|exact HR]. rewrite Hpp. repeat split; try discriminate; auto.
  - (* PUBREC, PUBREL, PUBCOMP, PINGRESP *)
    destruct Htx as [(id & -> & Hpp)|[(id & -> & Hpp)|[(id & -> & Hpp)|[-> Hpp]]]]; destruct ok0;
      (apply (tk_stay s _ _ _ _ HR); sfp;
       [reflexivity|reflexivity|reflexivity|reflexivity
       |rewrite Hpp; unfold tk_keeps; cbn [wait_ok dead_pp]; repeat split; try discriminate; auto
       |first [reflexivity|apply (tk_own_tx _ _ _ _ _ _ _ _ _ HR); rewrite Hpp; [discriminate|reflexivity]]]).
  - (* the reason is logged: a client error is no token timeout *)
    apply (tk_stay s _ _ _ _ HR); sfp; try reflexivity; [rewrite Hpp; repeat split; try discriminate; auto|].
    destruct k0; try reflexivity. rewrite Hpp in K6. cbn [wait_ok] in K6.
    apply tk_die_ok; tk_proj; intros Hx; rewrite Hx in K6; (destruct K6 as [K6|K6]; [discriminate K6|]);
      apply andb_true_iff in K6 as [Z1 Z2]; apply N.eqb_eq in Z1, Z2; lia.
  - (* a token wait times out: no token is there *)
    apply (tk_stay s _ _ _ _ HR); sfp; try reflexivity.
    + destruct Hpp as [[Hpp _]|[Hpp _]]; destruct (pp s); try discriminate Hpp; repeat split; try discriminate; auto.
    + apply tk_die_ok; tk_proj; intros Hx; rewrite Hx in K6;
        destruct Hpp as [[Hpp Hz]|[Hpp Hz]]; destruct (pp s); try discriminate Hpp; cbn [wait_ok] in K6; try discriminate K6; lia.
Qed.

(* --------------------------------------------------------------- all steps *)

Lemma step_deq_tk s e s' : step_deq s e = Some s' ->
  cps s' = cps s /\ cpp s' = cpp s /\ tsub s' = tsub s /\ tpub s' = tpub s.
Proof.
  intros H. destruct (step_deq_cases _ _ _ H); subst s';
    repeat match goal with |- context [match ?b with _ => _ end] => destruct b end; sf; repeat split; reflexivity.
Qed.

Lemma tk_step_lemma s t e s' :
  inv_store s -> tk_R s t -> step s e = Some s' -> exists t', tk_step t e = Some t' /\ tk_R s' t'.
Proof.
  intros Hi HR. refine (step_sweep (fun s t => inv_store s /\ tk_R s t) (fun t e s' => exists t', tk_step t e = Some t' /\ tk_R s' t')
                          _ _ _ _ _ _ _ _ _ _ s t e s' (conj Hi HR)); clear s t e s' Hi HR.
  - (* roles *) intros s t g d a c HP _ _. exact HP.
  - (* new *) intros s t _ _. eexists. split; [reflexivity|]. unfold tk_R, tk_R'; sf; tk_proj.
    repeat split; intros; try discriminate; try contradiction; try lia; auto.
  - (* close-req *) intros s t [_ HR]. exists t. split; [reflexivity|exact HR].
  - (* quiescent *) intros s t [_ HR] _. exists t. split; [reflexivity|exact HR].
  - (* kill *) intros s t g [_ HR] _. exists t. split; [reflexivity|exact HR].
  - (* closure *) intros s t e s' [_ HR] Hc. exists t. split.
    + apply step_clo_event in Hc. destruct e; try discriminate Hc; try reflexivity. destruct k; try discriminate Hc; reflexivity.
    + destruct (step_clo_shape _ _ _ Hc) as (se & cl & dy & q & ->). exact HR.
  - (* processor *)
    intros s s1 t e s' g [_ HR] _ Hv Hg Hp. apply (tk_proc s1 t e s' g); try assumption.
    + destruct Hv as [[-> _]|(Hn & _ & -> & _)]; [exact HR|]. unfold tk_R in *; sf. rewrite Hn in HR. apply tk_R'_learn, HR.
    + destruct Hv as [[-> Hx]|(_ & _ & -> & _)]; [exact Hx|reflexivity].
  - (* dequeuer: its sends are PUBLISH packets, it has no entry in the wait table *)
    intros s t e s' g [(_ & _ & _ & Hdp & _) HR] _ Hg _ R1 Hp. exists t. split.
    + pose proof HR as (_ & _ & _ & _ & _ & _ & K5 & _).
      pose proof (step_deq_event _ _ _ Hp) as Hev. destruct e; try discriminate Hev; try reflexivity;
        cbn [ev_g] in Hg; injection Hg as ->.
      * destruct (step_deq_tx _ _ _ _ _ _ Hdp Hp) as [_ Hpub]. cbn [tk_step].
        destruct ok; [|reflexivity]. destruct (existsb (N.eqb g) (tk_procs t)); [reflexivity|].
        destruct p; try reflexivity; discriminate Hpub.
      * destruct d; [discriminate Hev|reflexivity].
      * destruct k; try reflexivity. apply tk_die_ok; intros Hx;
          (assert (Hne : aget (tk_wait t) g <> None) by (rewrite Hx; discriminate));
          specialize (K5 g Hne); rewrite K5, is_role_some in R1; discriminate R1.
    + destruct (step_deq_tk _ _ _ Hp) as (D1 & D2 & D3 & D4). destruct (step_deq_frame _ _ _ Hp) as (_ & _ & D5 & D6 & _).
      unfold tk_R. rewrite D1, D2, D3, D4, D5, D6. exact HR.
  - (* acker: a token comes back with each acknowledgement sent *)
    intros s t e s' g [_ HR] _ Hg _ R1 _ Hp. pose proof HR as (K1 & K1' & K2 & K2' & K3 & K4 & K5 & K6 & K7).
    assert (Hnp : nmem g (tk_procs t) = false).
    { destruct (nmem g (tk_procs t)) eqn:Hm; [|reflexivity]. specialize (K3 g Hm). rewrite K3, is_role_some in R1. discriminate R1. }
    unfold step_ack in Hp. destruct (ap s) eqn:Eap; destruct e; try discriminate Hp.
    + cbn [ev_g] in Hg. injection Hg as ->.
      destruct async; [|discriminate Hp]. destruct (ackq_take (ackq s) p) as [q'|] eqn:Eq; [|discriminate Hp].
      destruct t as [ps ppn su pu wait procs]. tk_proj. cbn [tk_step]; tk_proj.
      change (existsb (N.eqb g) procs) with (nmem g procs). rewrite Hnp.
      destruct ok; inv_some Hp.
      * unfold ack_token_back. destruct p; (eexists; split; [reflexivity|]); unfold tk_R, tk_R'; sf; tk_proj;
          repeat split; try assumption; try lia; try (edestruct K7 as [? ?]; [eassumption|assumption]).
      * eexists; split; [reflexivity|]. unfold tk_R, tk_R'; sf; tk_proj.
        repeat split; try assumption; try (edestruct K7 as [? ?]; [eassumption|assumption]).
    + destruct k; try discriminate Hp. inv_some Hp. exists t. split; [reflexivity|]. exact HR.
    + inv_some Hp. exists t. split; [reflexivity|]. exact HR.
  - (* cleanup *)
    intros s t e s' [_ HR] _ Hp. exists t. split.
    + apply step_cleanup_event in Hp. destruct e; try discriminate Hp; try reflexivity.
      * destruct k; [discriminate Hp|reflexivity].
      * destruct k; try discriminate Hp; reflexivity.
    + destruct (step_cleanup_shape _ _ _ Hp) as (p & d & a & l & -> & Hsh).
      destruct Hsh as [(-> & -> & -> & Hnn)|(Hnn & Hstop & -> & -> & ->)]; [exact HR|].
      unfold tk_R; sf. exact (tk_R'_keep _ _ _ _ _ _ _ _ (tk_keeps_done _) HR).
Qed.

Theorem c20_tokens_holds : forall es s, bc_run es = Some s -> c20_tokens es = true.
Proof.
  unfold c20_tokens.
  apply (scan_sound_inv tk_step inv_store tk_R inv_store_init inv_store_step tk_step_lemma).
  unfold tk_R, tk_R'; cbn. repeat split; intros; try discriminate; try contradiction; try lia; auto.
Qed.
