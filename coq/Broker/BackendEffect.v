(* BackendEffect.v — what one step can do to the state: `effect st o r st'` has one constructor per
   branch of `step`, each naming the guards that were passed and the state that results.  `step_effect`
   walks the branches of setup / setup_end / ... / terminate once; statements about all steps are
   proved by cases on `effect`. *)
From Coq Require Import List NArith Bool.
From Coq.Strings Require Import Byte.
From GM Require Import Codec.Packet Topic.MatchSpec Broker.Backend Broker.BackendSpec
  Broker.BackendProofs Broker.BackendProofsPublish.
Import ListNotations.
Open Scope N_scope.

(* Setup records the client id of the connection before anything else (processConnect) *)
Definition with_cid (st : state) (c : conn) (id : bytes) : state :=
  St (st_cap st) (st_stored st) (st_temps st) (st_active st) (st_retained st) (st_closing st)
     (st_sess st) (aset N.eqb c id (st_cid st)) (st_dying st) (st_closed st) (st_term st) None.

Lemma with_cid_get st c id k : get_session (with_cid st c id) k = get_session st k.
Proof. reflexivity. Qed.

Lemma with_cid_own st c id : alookup N.eqb c (st_cid (with_cid st c id)) = Some id.
Proof. cbn [with_cid st_cid]. rewrite (alookup_aset N.eqb N.eqb_eq), N.eqb_refl. reflexivity. Qed.

(* a connection without client id gets a fresh temporary session *)
Definition temp_session (st : state) (c : conn) : state :=
  St (st_cap st) (st_stored st) (aset N.eqb c (new_session c) (st_temps st)) (st_active st) (st_retained st)
     (st_closing st) (aset N.eqb c (KTemp c) (st_sess st)) (st_cid st) (st_dying st) (st_closed st) (st_term st) None.

Definition closed_conn (st : state) (c : conn) : state :=
  St (st_cap st) (st_stored st) (st_temps st) (st_active st) (st_retained st) (st_closing st)
     (st_sess st) (st_cid st) (st_dying st) (add_n c (st_closed st)) (st_term st) (st_pending st).

Definition release (s : session) : session := Sess (s_subs s) (s_tq s) (s_sq s) None.

(* Terminate of a connection that called Setup (client id `id`), has not terminated and is not waiting *)
Definition terminated (st : state) (c : conn) (id : bytes) : state :=
  St (st_cap st)
     (match alookup N.eqb c (st_sess st) with
      | Some (KStored i) =>
          match alookup bytes_eqb i (st_stored st) with
          | Some s => if option_eqb N.eqb (s_act s) (Some c) then aset bytes_eqb i (release s) (st_stored st)
                      else st_stored st
          | None => st_stored st
          end
      | _ => st_stored st
      end)
     (aremove N.eqb c (st_temps st))
     (if option_eqb N.eqb (alookup bytes_eqb id (st_active st)) (Some c)
      then aremove bytes_eqb id (st_active st) else st_active st)
     (st_retained st) (st_closing st) (aremove N.eqb c (st_sess st)) (st_cid st) (st_dying st)
     (st_closed st) (add_n c (st_term st)) (st_pending st).

(* a call that changes nothing, or only connection bookkeeping, returns one of these *)
Definition calm (o : op) (r : result) : bool :=
  match r with
  | RSetup _ | RMsg _ => false
  | ROk => match o with OMarkClosed _ | OClose => true | _ => false end
  | RQueueFull => match o with OPublish _ _ _ => true | _ => false end
  | _ => true
  end.

(* connection bookkeeping only: no session and none of the maps is touched *)
Inductive book (st : state) : op -> result -> state -> Prop :=
| bk_refused (c : conn) id clean :
    st_pending st = None -> alookup N.eqb c (st_cid st) = None ->
    book st (OSetup c id clean) RErrClosing (with_cid st c id)
| bk_wait (c : conn) id clean s (c1 : conn) :
    st_pending st = None -> alookup N.eqb c (st_cid st) = None -> id <> [] ->
    existing_session st id = Some s -> s_act s = Some c1 ->
    book st (OSetup c id clean) (RSetupWait c1)
         (set_pending (with_cid st c id) (Some (Pend c id clean c1)) (add_n c1 (st_dying st)))
| bk_timeout p :
    st_pending st = Some p -> book st (OSetupEnd true) RErrKillTimeout (set_pending st None (st_dying st))
| bk_closed (c : conn) :
    mem_n c (st_term st) = true -> book st (OMarkClosed c) ROk (closed_conn st c)
| bk_close : book st OClose ROk (snd (close_backend st)).

(* the session s0 of connection c rewritten by its Subscribe, Unsubscribe or Dequeue *)
Inductive put (st : state) (c : conn) (s0 : session) : op -> result -> session -> Prop :=
| put_sub subs b :
    batches_ok (map (fun x => search_retained st (fst x)) subs) b = true ->
    let room := N.to_nat (st_cap st - N.of_nat (length (s_tq s0))) in
    put st c s0 (OSubscribe c subs b) (if Nat.leb (length (concat b)) room then ROk else RQueueFull)
        (Sess (set_subs subs (s_subs s0)) (s_tq s0 ++ firstn room (concat b)) (s_sq s0) (s_act s0))
| put_unsub fs :
    put st c s0 (OUnsubscribe c fs) ROk (Sess (unset_subs fs (s_subs s0)) (s_tq s0) (s_sq s0) (s_act s0))
| put_deq_temp m q :
    s_tq s0 = m :: q ->
    put st c s0 (ODequeue c true) (RMsg (apply_qos (s_subs s0) m)) (Sess (s_subs s0) q (s_sq s0) (s_act s0))
| put_deq_stored m q :
    s_sq s0 = m :: q ->
    put st c s0 (ODequeue c false) (RMsg (apply_qos (s_subs s0) m)) (Sess (s_subs s0) (s_tq s0) q (s_act s0)).

Inductive effect (st : state) : op -> result -> state -> Prop :=
| fx_idle o r : calm o r = true -> effect st o r st
| fx_book o r st' : book st o r st' -> effect st o r st'
| fx_temp (c : conn) clean :
    st_pending st = None -> alookup N.eqb c (st_cid st) = None ->
    effect st (OSetup c [] clean) (RSetup false) (temp_session (with_cid st c []) c)
| fx_setup (c : conn) id clean :
    st_pending st = None -> alookup N.eqb c (st_cid st) = None -> id <> [] ->
    (forall s, existing_session st id = Some s -> s_act s = None) ->
    effect st (OSetup c id clean) (fst (setup_finish (with_cid st c id) c id clean))
           (snd (setup_finish (with_cid st c id) c id clean))
| fx_end p :
    st_pending st = Some p -> mem_n (p_old p) (st_closed st) = true ->
    effect st (OSetupEnd false) (fst (setup_finish st (p_conn p) (p_id p) (p_clean p)))
           (snd (setup_finish st (p_conn p) (p_id p) (p_clean p)))
| fx_put (c : conn) k s0 o r s2 :
    session_of st c = Some (k, s0) -> put st c s0 o r s2 -> effect st o r (put_session st k s2)
| fx_pub (c : conn) m got :
    pub_stuck st c m = false ->
    effect st (OPublish c m got) (if pub_err st c m then RQueueFull else ROk) (snd (publish st c m got))
| fx_term (c : conn) id :
    alookup N.eqb c (st_cid st) = Some id -> mem_n c (st_term st) = false ->
    (forall p, st_pending st = Some p -> p_conn p <> c) ->
    effect st (OTerminate c) ROk (terminated st c id).

Lemma setup_unfold st c id clean :
  setup st c id clean =
  match st_pending st, alookup N.eqb c (st_cid st) with
  | Some _, _ => (RNotEnabled, st)
  | None, Some _ => (RMisuse, st)
  | None, None =>
      if st_closing st then (RErrClosing, with_cid st c id)
      else if is_nil id then (RSetup false, temp_session (with_cid st c id) c)
      else match existing_session st id with
           | Some (Sess _ _ _ (Some c1)) =>
               (RSetupWait c1, set_pending (with_cid st c id) (Some (Pend c id clean c1)) (add_n c1 (st_dying st)))
           | _ => setup_finish (with_cid st c id) c id clean
           end
  end.
Proof. unfold setup. destruct (st_pending st); [|destruct (alookup N.eqb c (st_cid st))]; reflexivity. Qed.

Lemma is_nil_false {A} (l : list A) : is_nil l = false <-> l <> [].
Proof. destruct l; cbn; split; congruence. Qed.

Theorem step_effect st o : effect st o (fst (step st o)) (snd (step st o)).
Proof.
  destruct o as [c id clean|t|c|c subs b|c fs|c m got|c t|c|]; cbn [step].
  - rewrite setup_unfold. destruct (st_pending st) eqn:P; [apply fx_idle; reflexivity|].
    destruct (alookup N.eqb c (st_cid st)) eqn:H; [apply fx_idle; reflexivity|].
    destruct (st_closing st); [apply fx_book, bk_refused; assumption|].
    destruct (is_nil id) eqn:Hid; [destruct id; [|discriminate]; apply fx_temp; assumption|].
    apply is_nil_false in Hid.
    destruct (existing_session st id) as [[su tq sq [c1|]]|] eqn:E.
    + apply fx_book. apply (bk_wait st c id clean _ c1 P H Hid E). reflexivity.
    + apply fx_setup; try assumption. intros s Es. rewrite E in Es. injection Es as <-. reflexivity.
    + apply fx_setup; try assumption. intros s Es. rewrite E in Es. discriminate Es.
  - unfold setup_end. destruct (st_pending st) as [p|] eqn:P; [|apply fx_idle; reflexivity].
    destruct t; [apply fx_book, (bk_timeout st p P)|].
    destruct (mem_n (p_old p) (st_closed st)) eqn:Cl; [apply (fx_end st p P Cl)|apply fx_idle; reflexivity].
  - unfold mark_closed. destruct (mem_n c (st_term st)) eqn:T; [apply fx_book, bk_closed, T|apply fx_idle; reflexivity].
  - unfold subscribe. destruct (session_of st c) as [[k s]|] eqn:S; [|apply fx_idle; reflexivity].
    destruct (batches_ok _ b) eqn:B; cbn [negb]; [|apply fx_idle; reflexivity].
    apply (fx_put st c k s _ _ _ S). apply put_sub, B.
  - unfold unsubscribe. destruct (session_of st c) as [[k s]|] eqn:S; [|apply fx_idle; reflexivity].
    apply (fx_put st c k s _ _ _ S). apply put_unsub.
  - rewrite publish_unfold. destruct (pub_stuck st c m) eqn:Hnb.
    + apply fx_idle. destruct (own_refused st c m); reflexivity.
    + pose proof (fx_pub st c m got Hnb) as X. rewrite publish_unfold, Hnb in X. exact X.
  - unfold dequeue. destruct (session_of st c) as [[k s]|] eqn:S; [|apply fx_idle; reflexivity].
    destruct t; [destruct (s_tq s) as [|m q] eqn:Q|destruct (s_sq s) as [|m q] eqn:Q]; try (apply fx_idle; reflexivity);
      apply (fx_put st c k s _ _ _ S); [apply put_deq_temp|apply put_deq_stored]; exact Q.
  - unfold terminate. destruct (alookup N.eqb c (st_cid st)) as [id|] eqn:H; [|apply fx_idle; reflexivity].
    destruct (mem_n c (st_term st)) eqn:T; [apply fx_idle; reflexivity|]. cbn [orb].
    destruct (match st_pending st with Some p => p_conn p =? c | None => false end) eqn:PC; [apply fx_idle; reflexivity|].
    apply (fx_term st c id H T). intros p Hp Hc. rewrite Hp, Hc, N.eqb_refl in PC. discriminate.
  - apply fx_book, bk_close.
Qed.

Lemma book_calm st o r st' : book st o r st' -> calm o r = true.
Proof. destruct 1; reflexivity. Qed.

Lemma put_act st c s0 o r s2 : put st c s0 o r s2 -> s_act s2 = s_act s0.
Proof. destruct 1; reflexivity. Qed.

Lemma book_get st o r st' : book st o r st' -> forall k, get_session st' k = get_session st k.
Proof. destruct 1; intros [x|i]; reflexivity. Qed.

Lemma same_act_some (x y : option session) s :
  option_map s_act x = option_map s_act y -> x = Some s -> exists s', y = Some s' /\ s_act s' = s_act s.
Proof. intros E ->. destruct y as [s'|]; [|discriminate]. injection E as E. exists s'; auto. Qed.

(* st' is st with session K (content S) handed to connection c and the sessions in del removed *)
Record granted (st : state) (c : conn) (K : skey) (S : session) (del : skey -> bool) (st' : state) : Prop := {
  g_get : forall k, get_session st' k = if skey_eqb k K then Some S else if del k then None else get_session st k;
  g_act : s_act S = Some c;
  g_key : forall x, K = KTemp x -> x = c;
  g_sess : st_sess st' = aset N.eqb c K (st_sess st);
  g_cid : st_cid st' = st_cid st;
  g_term : st_term st' = st_term st;
  g_closed : st_closed st' = st_closed st;
  g_closing : st_closing st' = st_closing st;
  g_retained : st_retained st' = st_retained st;
  g_cap : st_cap st' = st_cap st;
  g_pending : st_pending st' = None
}.

Lemma temp_session_granted st c : granted st c (KTemp c) (new_session c) (fun _ => false) (temp_session st c).
Proof.
  constructor; try reflexivity; [|intros x H; injection H; auto].
  intros [x|i]; cbn [get_session temp_session st_temps st_stored skey_eqb]; [|reflexivity].
  apply (alookup_aset N.eqb N.eqb_eq).
Qed.

(* the session setup_finish hands out: a new one, or the stored one of the id with its temporary queue reset *)
Definition finish_session (st : state) (c : conn) (id : bytes) (clean : bool) : session :=
  if clean then new_session c
  else match alookup bytes_eqb id (st_stored st) with
       | Some s => Sess (s_subs s) [] (s_sq s) (Some c)
       | None => new_session c
       end.

Lemma setup_finish_granted st c id (clean : bool) :
  granted st c (if clean then KTemp c else KStored id) (finish_session st c id clean)
          (fun k => clean && skey_eqb k (KStored id)) (snd (setup_finish st c id clean)).
Proof.
  unfold setup_finish, finish_session. destruct clean; [|destruct (alookup bytes_eqb id (st_stored st)) as [s0|]];
    constructor; try reflexivity; try (intros x H; (discriminate H || injection H; auto));
    intros [x|i]; cbn [snd get_session st_temps st_stored skey_eqb andb]; try reflexivity.
  - apply (alookup_aset N.eqb N.eqb_eq).
  - apply (alookup_aremove bytes_eqb bytes_eqb_eq).
  - apply (alookup_aset bytes_eqb bytes_eqb_eq).
  - apply (alookup_aset bytes_eqb bytes_eqb_eq).
Qed.

Lemma setup_finish_active st c id clean :
  st_active (snd (setup_finish st c id clean)) = aset bytes_eqb id c (st_active st).
Proof. unfold setup_finish. destruct clean; [|destruct (alookup bytes_eqb id (st_stored st))]; reflexivity. Qed.

Lemma setup_finish_result st c id clean :
  fst (setup_finish st c id clean) = RSetup (negb clean && is_some (alookup bytes_eqb id (st_stored st))).
Proof. unfold setup_finish. destruct clean; [|destruct (alookup bytes_eqb id (st_stored st))]; reflexivity. Qed.

(* the stored session the terminating connection holds is released if it still names that connection *)
Definition releases (st : state) (c : conn) (k : skey) (s : session) : bool :=
  match k with
  | KStored _ => option_eqb skey_eqb (alookup N.eqb c (st_sess st)) (Some k) && option_eqb N.eqb (s_act s) (Some c)
  | KTemp _ => false
  end.

Lemma terminated_get st c id k :
  get_session (terminated st c id) k =
  if skey_eqb k (KTemp c) then None
  else option_map (fun s => if releases st c k s then release s else s) (get_session st k).
Proof.
  destruct k as [x|i]; cbn [get_session terminated st_temps st_stored skey_eqb releases].
  - rewrite (alookup_aremove N.eqb N.eqb_eq). destruct (x =? c); [reflexivity|]. destruct (alookup N.eqb x (st_temps st)); reflexivity.
  - destruct (alookup N.eqb c (st_sess st)) as [[y|j]|]; cbn [option_eqb skey_eqb andb];
      try (destruct (alookup bytes_eqb i (st_stored st)); reflexivity).
    destruct (bytes_eqb j i) eqn:E.
    + apply bytes_eqb_eq in E; subst j. destruct (alookup bytes_eqb i (st_stored st)) as [s0|] eqn:L; [|rewrite L; reflexivity].
      cbn [andb option_map]. destruct (option_eqb N.eqb (s_act s0) (Some c)); [|rewrite L; reflexivity].
      rewrite (alookup_aset bytes_eqb bytes_eqb_eq), bytes_eqb_refl. reflexivity.
    + assert (X : forall st2, alookup bytes_eqb i (aset bytes_eqb j st2 (st_stored st)) = alookup bytes_eqb i (st_stored st))
        by (intros st2; rewrite (alookup_aset bytes_eqb bytes_eqb_eq), bytes_eqb_sym, E; reflexivity).
      destruct (alookup bytes_eqb j (st_stored st)) as [s0|]; [destruct (option_eqb N.eqb (s_act s0) (Some c)); rewrite ?X|];
        destruct (alookup bytes_eqb i (st_stored st)); reflexivity.
Qed.

Lemma terminated_inv st c id k s' :
  get_session (terminated st c id) k = Some s' ->
  k <> KTemp c /\ exists s, get_session st k = Some s /\ s' = if releases st c k s then release s else s.
Proof.
  rewrite terminated_get. destruct (skey_eqb k (KTemp c)) eqn:E; [discriminate|].
  destruct (get_session st k) as [s|]; [|discriminate]. intros H; injection H as <-.
  split; [intros ->; rewrite skey_eqb_refl in E; discriminate|exists s; auto].
Qed.

Lemma run_state_cons st o ops : run_state st (o :: ops) = run_state (snd (step st o)) ops.
Proof. unfold run_state. cbn [run]. destruct (step st o) as [r s1]. cbn [snd]. destruct (run s1 ops); reflexivity. Qed.

Lemma run_state_inv (P : state -> Prop) :
  (forall st o, P st -> P (snd (step st o))) -> forall ops st, P st -> P (run_state st ops).
Proof.
  intros H ops. induction ops as [|o ops IH]; intros st Hst; [exact Hst|]. rewrite run_state_cons. apply IH, H, Hst.
Qed.
