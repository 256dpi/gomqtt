(* EndToEndProofsLists.v — list facts about order embeddings (Emb, Broker/EndToEnd.v) used by the
   composition proofs.  Nothing here mentions a model. *)
From Coq Require Import List NArith Bool Lia PeanoNat.
From Coq.Strings Require Import Byte.
From GM Require Import Codec.Packet Codec.PacketEqb Broker.EndToEnd.
Import ListNotations.

Section EmbApp.
  Context {A B : Type}.
  Variable R : A -> B -> Prop.

  Lemma Emb_app_l xs ys zs : Emb R xs ys -> Emb R xs (zs ++ ys).
  Proof. intros H. induction zs as [|z zs IH]; cbn [app]; [exact H|apply Emb_skip, IH]. Qed.

  Lemma Emb_app xs1 ys1 xs2 ys2 : Emb R xs1 ys1 -> Emb R xs2 ys2 -> Emb R (xs1 ++ xs2) (ys1 ++ ys2).
  Proof.
    intros H1 H2. induction H1 as [ys|xs y ys H IH|x xs y ys Hr H IH]; cbn [app].
    - apply Emb_app_l, H2.
    - apply Emb_skip, IH.
    - apply Emb_take; [exact Hr|exact IH].
  Qed.

  Lemma Emb_app_r xs ys zs : Emb R xs ys -> Emb R xs (ys ++ zs).
  Proof. intros H. rewrite <- (app_nil_r xs). apply Emb_app; [exact H|apply Emb_nil]. Qed.
End EmbApp.

Lemma Emb_refl {A} (R : A -> A -> Prop) xs : (forall x, R x x) -> Emb R xs xs.
Proof. intros Hr. induction xs as [|x xs IH]; [apply Emb_nil|apply Emb_take; [apply Hr|exact IH]]. Qed.

(* embeddings compose *)
Lemma Emb_trans {A B C} (R : A -> B -> Prop) (S : B -> C -> Prop) (T : A -> C -> Prop) :
  (forall x y z, R x y -> S y z -> T x z) ->
  forall ys zs, Emb S ys zs -> forall xs, Emb R xs ys -> Emb T xs zs.
Proof.
  intros HT ys zs H. induction H as [zs|ys z zs H IH|y ys z zs Hs H IH]; intros xs Hx.
  - inversion Hx. apply Emb_nil.
  - apply Emb_skip, IH, Hx.
  - inversion Hx as [|? ? ? H1|x xs' ? ? Hr H1]; subst.
    + apply Emb_nil.
    + apply Emb_skip, IH, H1.
    + apply Emb_take; [eapply HT; eassumption|apply IH, H1].
Qed.

Section EmbFacts.
  Context {A B : Type}.
  Variable R : A -> B -> Prop.

  Lemma Emb_nil_r xs : Emb R xs [] -> xs = [].
  Proof. intros H. inversion H; reflexivity. Qed.

  Lemma Emb_sub xs' xs ys : Emb eq xs' xs -> Emb R xs ys -> Emb R xs' ys.
  Proof. intros H' H. apply (Emb_trans eq R R) with (ys := xs); [intros x y z ->; exact (fun Hr => Hr)|exact H|exact H']. Qed.

  Lemma Emb_drop_prefix xs1 xs2 ys : Emb R (xs1 ++ xs2) ys -> Emb R xs2 ys.
  Proof. apply Emb_sub, Emb_app_l, Emb_refl. reflexivity. Qed.

  Lemma Emb_drop_suffix xs1 xs2 ys : Emb R (xs1 ++ xs2) ys -> Emb R xs1 ys.
  Proof. apply Emb_sub, Emb_app_r, Emb_refl. reflexivity. Qed.

  Lemma Emb_tail x xs ys : Emb R (x :: xs) ys -> Emb R xs ys.
  Proof. exact (Emb_drop_prefix [x] xs ys). Qed.

  Lemma Emb_length xs ys : Emb R xs ys -> (length xs <= length ys)%nat.
  Proof. intros H. induction H; cbn [length]; lia. Qed.

  Lemma Emb_in xs ys x : Emb R xs ys -> In x xs -> exists y, In y ys /\ R x y.
  Proof.
    intros H. induction H as [ys|xs y ys H IH|x' xs y ys Hr H IH]; intros Hin.
    - destruct Hin.
    - destruct (IH Hin) as (y' & Hy & Hr). exists y'. split; [right; exact Hy|exact Hr].
    - destruct Hin as [<-|Hin]; [exists y; split; [left; reflexivity|exact Hr]|].
      destruct (IH Hin) as (y' & Hy & Hr'). exists y'. split; [right; exact Hy|exact Hr'].
  Qed.

  (* filtering both sides by predicates that R respects *)
  Lemma Emb_filter (f : A -> bool) (g : B -> bool) xs ys :
    (forall x y, R x y -> f x = g y) -> Emb R xs ys -> Emb R (filter f xs) (filter g ys).
  Proof.
    intros Hfg H. induction H as [ys|xs y ys H IH|x xs y ys Hr H IH]; cbn [filter].
    - apply Emb_nil.
    - destruct (g y); [apply Emb_skip, IH|exact IH].
    - rewrite (Hfg x y Hr). destruct (g y); [apply Emb_take; [exact Hr|exact IH]|exact IH].
  Qed.

  (* the greedy procedure decides Emb *)
  Variable r : A -> B -> bool.
  Hypothesis r_spec : forall x y, r x y = true <-> R x y.

  Lemma embb_sound xs ys : embb r xs ys = true -> Emb R xs ys.
  Proof.
    revert xs. induction ys as [|y ys IH]; intros [|x xs] H; cbn [embb] in H; try apply Emb_nil; [discriminate H|].
    destruct (r x y) eqn:E; [apply Emb_take; [apply r_spec, E|apply IH, H]|apply Emb_skip, IH, H].
  Qed.

  Lemma embb_complete xs ys : Emb R xs ys -> embb r xs ys = true.
  Proof.
    revert xs. induction ys as [|y ys IH]; intros xs H.
    - apply Emb_nil_r in H. subst xs. reflexivity.
    - destruct xs as [|x xs]; [reflexivity|]. cbn [embb]. destruct (r x y) eqn:E.
      + apply IH. inversion H as [|? ? ? H1|? ? ? ? Hr H1]; subst; [eapply Emb_tail; exact H1|exact H1].
      + apply IH. inversion H as [|? ? ? H1|? ? ? ? Hr H1]; subst; [exact H1|].
        apply r_spec in Hr. congruence.
  Qed.
End EmbFacts.

Lemma Emb_mono {A B} (R S : A -> B -> Prop) xs ys : (forall x y, R x y -> S x y) -> Emb R xs ys -> Emb S xs ys.
Proof.
  intros HRS H. induction H as [ys|xs y ys H IH|x xs y ys Hr H IH];
    [apply Emb_nil|apply Emb_skip, IH|apply Emb_take; [apply HRS, Hr|exact IH]].
Qed.

Lemma prefix_Emb {A} (R : A -> A -> Prop) xs ys : (forall x, R x x) -> prefix_of xs ys -> Emb R xs ys.
Proof. intros Hr [rest ->]. apply Emb_app_r, Emb_refl, Hr. Qed.

Lemma prefix_filter {A} (f : A -> bool) xs ys : prefix_of xs ys -> prefix_of (filter f xs) (filter f ys).
Proof. intros [rest ->]. exists (filter f rest). apply filter_app. Qed.

Lemma filter_flat_map {A B} (f : B -> bool) (g : A -> list B) l :
  filter f (flat_map g l) = flat_map (fun x => filter f (g x)) l.
Proof. induction l as [|x l IH]; cbn [flat_map]; [reflexivity|]. rewrite filter_app, IH. reflexivity. Qed.

Lemma filter_nil_iff {A} (f : A -> bool) l : filter f l = [] <-> forall x, In x l -> f x = false.
Proof.
  induction l as [|x l IH]; cbn [filter]; [split; [intros _ y []|reflexivity]|].
  destruct (f x) eqn:E; split.
  - discriminate.
  - intros H. specialize (H x (or_introl eq_refl)). congruence.
  - intros H y [<-|Hy]; [exact E|apply IH; assumption].
  - intros H. apply IH. intros y Hy. apply H. right. exact Hy.
Qed.

(* ------------------------------------------------------------------ messages *)

Lemma bytes_eqb_true a b : bytes_eqb a b = true <-> a = b.
Proof. split; [apply bytes_eqb_eq|intros <-; apply bytes_eqb_refl]. Qed.

Lemma capped_refl m : capped m m.
Proof. unfold capped. repeat split. apply N.le_refl. Qed.

Lemma capped_trans x y z : capped x y -> capped y z -> capped x z.
Proof. unfold capped. intros (A1 & A2 & A3) (B1 & B2 & B3). repeat split; try congruence. eapply N.le_trans; eassumption. Qed.

Lemma capped_in_flow fl x y : capped x y -> in_flow fl x = in_flow fl y.
Proof. unfold capped, in_flow. intros (-> & -> & _). reflexivity. Qed.

Lemma cappedb_spec x m : cappedb x m = true <-> capped x m.
Proof.
  unfold cappedb, capped. rewrite !andb_true_iff, !bytes_eqb_true, N.leb_le. tauto.
Qed.

Lemma carriesb_spec x c : carriesb x c = true <-> carries x c.
Proof.
  unfold carriesb, carries. rewrite existsb_exists. split; intros (m & Hm & H); exists m; (split; [exact Hm|]); apply cappedb_spec, H.
Qed.

Lemma capped_carries x y c : capped x y -> carries y c -> carries x c.
Proof. intros H (m & Hm & Hc). exists m. split; [exact Hm|eapply capped_trans; eassumption]. Qed.

(* an embedding that keeps topic and payload does not increase any count *)
Lemma Emb_count (R : message -> message -> Prop) t p xs ys :
  (forall x y, R x y -> m_topic x = m_topic y /\ m_payload x = m_payload y) ->
  Emb R xs ys -> (count_key t p xs <= count_key t p ys)%nat.
Proof.
  intros HR H. unfold count_key. eapply Emb_length. eapply Emb_filter; [|exact H].
  intros x y Hxy. cbv beta. destruct (HR x y Hxy) as [-> ->]. reflexivity.
Qed.

Lemma count_key_app t p xs ys : count_key t p (xs ++ ys) = (count_key t p xs + count_key t p ys)%nat.
Proof. unfold count_key. rewrite filter_app, app_length. reflexivity. Qed.
