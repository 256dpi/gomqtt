(* EndToEndProofsConn.v — the connection stages of the end-to-end composition.

   Part 1 (model BC): every trace accepted by the broker-connection model satisfies the two
   per-connection clauses of Broker/EndToEnd.v,
       forward_link_holds, arrival_link_holds,
   by the induction of ConnBase.v, with the case analyses of ConnProc.v, the sweep and the frame
   lemmas of ConnProofsA_lib.v / ConnProofsD0.v / ConnProofsD1.v and the model invariant INV of
   ConnProofsC1.v.
   The existing C15/C06 clauses (c15_dequeue_order, c06_forward_intact, c15_in_order) keep their
   books per goroutine and let a goroutine without an entry do anything, so the order of the
   connection as a whole does not follow from them alone; what is needed in addition is that a
   connection has ONE dequeuer and ONE processor, which is a fact of the model.

   Part 2 (lists): what the two clauses mean for the sequences of Broker/EndToEnd.v:
       forwarded es  embeds in order into  dequeued es            (subscriber's connection)
       published es  embeds in order into  arrived es             (publisher's connection; flow without the will) *)
From Coq Require Import List NArith Bool Lia.
From Coq.Strings Require Import Byte.
From GM Require Import Base.Lts Codec.Packet Session.Ids Session.Store Session.StoreProofs
  Broker.Conn Broker.ConnSpec Broker.ConnSpec2 Broker.ConnBase
  Broker.ConnProofsC1 Broker.ConnProofsA_lib Broker.ConnProofsD0 Broker.ConnProofsD1
  Broker.EndToEnd Broker.EndToEndProofsLists.
Import ListNotations.
Open Scope N_scope.

(* ================================================================ forward_link == *)

Definition fl_R (s : bc) (u : option message) : Prop :=
  match dp s with
  | DOff | DToken | DWait => u = None
  | DNextId m _ => u = Some m
  | DSave p _ | DBackAck p | DSend p => exists m id, p = Publish false m id /\ u = Some m
  | _ => True
  end.

Lemma fl_neutral_step u e : dq_neutral e = true -> fl_step u e = Some u.
Proof.
  intros Hn. destruct e; cbn [dq_neutral] in Hn; try discriminate Hn; cbn [fl_step]; try reflexivity.
  - destruct p; try reflexivity. destruct dup; [reflexivity|discriminate Hn].
  - destruct r; try reflexivity. discriminate Hn.
Qed.

Lemma ack_packet_neutral g p a ok : is_ack_packet p = true -> dq_neutral (ETx g p a ok) = true.
Proof. destruct p; cbn [is_ack_packet dq_neutral]; intros H; try discriminate H; reflexivity. Qed.

Lemma fl_deq s u e s' : fl_R s u -> step_deq s e = Some s' -> exists u', fl_step u e = Some u' /\ fl_R s' u'.
Proof.
  intros R3 Hp. unfold fl_R in *. destruct (step_deq_cases _ _ _ Hp); pc_split.
  all: match goal with H : dp _ = _ |- _ => rewrite H in R3 end.
  all: try (exists u; split; [reflexivity|]; pp_cases; sf; first [exact I|exact R3]; fail).
  - (* a message is dequeued *)
    exists (Some m). split; [cbn [fl_step]; rewrite R3; reflexivity|]. sf. destruct (m_qos m =? 0); [destruct ba|]; eauto.
  - exists u. split; [reflexivity|]. sf. eauto.
  - (* the PUBLISH is sent *)
    destruct R3 as (m & id & -> & ->). exists None. split; [cbn [fl_step]; rewrite message_eqb_refl; reflexivity|].
    destruct ok; [destruct (m_qos m =? 0)|]; sf; auto.
Qed.

Lemma fl_step_ok s u e s' :
  INV s -> fl_R s u -> step s e = Some s' -> exists u', fl_step u e = Some u' /\ fl_R s' u'.
Proof.
  intros HI HR. generalize (conj HI HR). clear HI HR. revert s u e s'.
  apply (step_sweep (fun s u => INV s /\ fl_R s u) (fun u e s' => exists u', fl_step u e = Some u' /\ fl_R s' u')).
  - (* roles *) intros s u g d a c (HI & HR) Hf Hl. split; [exact (INV_learns _ g _ _ _ HI Hf Hl)|exact HR].
  - (* new *) intros s u _ _. exists None. split; reflexivity.
  - (* close-req *) intros s u (_ & HR). exists u. split; [reflexivity|exact HR].
  - (* quiescent *) intros s u (_ & HR) _. exists u. split; [reflexivity|exact HR].
  - (* kill *) intros s u g (_ & HR) _. exists u. split; [reflexivity|exact HR].
  - (* closure *) intros s u e s' (_ & HR) Hc. exists u. split; [apply fl_neutral_step, clo_event_dq, (step_clo_event _ _ _ Hc)|].
    destruct (step_clo_shape _ _ _ Hc) as (se & cl & dy & q & ->). exact HR.
  - (* processor: Restore starts the dequeuer *)
    intros s s1 u e s' g (HI & HR) _ Hv _ Hp.
    assert (HR1 : fl_R s1 u) by (destruct Hv as [[-> _]|(_ & _ & -> & _)]; exact HR).
    pose proof (step_proc_neutral _ _ _ Hp) as Hn. destruct (step_proc_dp _ _ _ Hp) as (_ & Hd).
    exists u. split; [apply fl_neutral_step, Hn|]. unfold fl_R in *. destruct Hd as [->|(Hpr & ->)]; [exact HR1|].
    destruct (I_pre _ (INV_proc_view _ _ _ _ HI Hv)) as (Hoff & _); [rewrite Hpr; reflexivity|].
    rewrite Hoff in HR1. exact HR1.
  - (* dequeuer *) intros s u e s' g (_ & HR) _ _ _ _ Hp. exact (fl_deq _ _ _ _ HR Hp).
  - (* acker: it sends acknowledgements only *)
    intros s u e s' g (HI & HR) _ _ _ _ _ Hp. exists u. split.
    + apply fl_neutral_step. unfold step_ack in Hp. destruct (ap s); destruct e; try discriminate Hp; try reflexivity.
      destruct async; [|discriminate Hp]. destruct (ackq_take (ackq s) p) as [q'|] eqn:Et; [|discriminate Hp].
      apply ack_packet_neutral. eapply ackq_take_is_ack; [exact Et|exact (I_ackq _ HI)].
    + destruct (step_ack_shape _ _ _ Hp) as (a & dy & t1 & t2 & t3 & q & ->). exact HR.
  - (* cleanup *) intros s u e s' (_ & HR) _ Hp. exists u. split; [apply fl_neutral_step, cleanup_event_dq, (step_cleanup_event _ _ _ Hp)|].
    destruct (step_cleanup_shape _ _ _ Hp) as (p & d & a & l & -> & Hx). unfold fl_R in *; sf.
    destruct Hx as [(_ & -> & _)|(_ & _ & _ & -> & _)]; [exact HR|]. destruct (dp s); auto.
Qed.

(* every accepted trace: one message in flight per connection, forwarded before the next is taken *)
Theorem forward_link_holds : forall es s, bc_run es = Some s -> forward_link es = true.
Proof.
  apply (scan_sound_inv fl_step INV fl_R INV_init INV_step fl_step_ok). reflexivity.
Qed.

(* ================================================================ arrival_link == *)

Definition ar_fresh (x : ppc) : bool :=
  match x with PFirst | PDieLog _ | PDieClose | PDone => true | _ => false end.

Definition ar_ok (x : ppc) (t : ar_st) : Prop :=
  match x with
  | PFirst => ar_last t = None
  | PAuth c | PSetup c => ar_will t = c_will c
  | PPub0 m => exists d id, ar_last t = Some (Publish d m id, false) /\ m_qos m = 0
  | PPub1W _ m => exists d id, ar_last t = Some (Publish d m id, false) /\ m_qos m = 1
  | PPub2W p => exists d m id, p = Publish d m id /\ In (id, m) (ar_seen t)
  | PRelLookup id => ar_last t = Some (Pubrel id, false)
  | PRelPub id m => ar_last t = Some (Pubrel id, false) /\ In (id, m) (ar_seen t)
  | _ => True
  end.

(* every packet in the incoming store is a PUBLISH that was received, under its own id *)
Definition in_store_ok (st : store) (seen : list (N * message)) : Prop :=
  forall id p, In (id, p) st -> exists d m, p = Publish d m id /\ In (id, m) seen.

Definition ar_R (s : bc) (t : ar_st) : Prop :=
  ar_ok (pp s) t /\
  (ar_last t = None -> ar_fresh (pp s) = true) /\
  (forall w, will s = Some w -> ar_will t = Some w) /\
  in_store_ok (s_in (sess s)) (ar_seen t) /\
  (pp s = PFirst -> will s = None).

Lemma clo_quiet_ar e : clo_event e = true -> quiet ar_step e. Proof. quiet_by e. Qed.
Lemma deq_quiet_ar e : deq_event e = true -> quiet ar_step e. Proof. quiet_by e. Qed.
Lemma ack_quiet_ar e : ack_event e = true -> quiet ar_step e. Proof. quiet_by e. Qed.

Lemma in_store_put st i p j q : In (j, q) (store_put st i p) -> (j, q) = (i, p) \/ In (j, q) st.
Proof.
  induction st as [|[k r] st IH]; cbn [store_put]; intros H.
  - destruct H as [H|[]]; left; symmetry; exact H.
  - destruct (N.eqb_spec i k) as [->|Hik].
    + destruct H as [H|H]; [left; symmetry; exact H|right; right; exact H].
    + destruct H as [H|H]; [right; left; exact H|]. destruct (IH H) as [E|E]; [left; exact E|right; right; exact E].
Qed.

Lemma in_store_ok_delete st seen i : in_store_ok st seen -> in_store_ok (store_delete st i) seen.
Proof. intros H id p Hin. apply H. eapply in_store_delete; exact Hin. Qed.

Lemma in_store_ok_mono st seen seen' : (forall x, In x seen -> In x seen') -> in_store_ok st seen -> in_store_ok st seen'.
Proof. intros Hm H id p Hin. destruct (H id p Hin) as (d & m & E & Hs). exists d, m. split; [exact E|apply Hm, Hs]. Qed.

Lemma seen_step_mono seen p x : In x seen -> In x (seen_step seen p).
Proof. intros H. destruct p; cbn [seen_step]; try exact H. destruct (m_qos m =? 2); [right|]; exact H. Qed.

(* closures: the processor's control state and the will stay, the incoming store only shrinks *)
Lemma step_clo_in s e s' : step_clo s e = Some s' ->
  pp s' = pp s /\ will s' = will s /\
  (s_in (sess s') = s_in (sess s) \/ exists id, s_in (sess s') = store_delete (s_in (sess s)) id).
Proof.
  intros H. destruct (step_clo_cases _ _ _ H); subst s'; unfold clo_enqueue;
    repeat match goal with |- context [if ?b then _ else _] => destruct b end; repeat split; first [left; reflexivity|right; eexists; reflexivity].
Qed.

Lemma ar_R_frame s s' t :
  pp s' = pp s -> will s' = will s -> s_in (sess s') = s_in (sess s) -> ar_R s t -> ar_R s' t.
Proof. intros E1 E2 E3 H. unfold ar_R in *. rewrite E1, E2, E3. exact H. Qed.

(* a will publish passes the scanner whatever was received last *)
Lemma ar_step_will t g m :
  ar_will t = Some m ->
  exists t', ar_step t (EPub g m None) = Some t' /\ ar_will t' = ar_will t /\ ar_seen t' = ar_seen t.
Proof.
  intros Hw. assert (Hi : ar_is_will t m = Some t).
  { unfold ar_is_will. rewrite Hw. cbn [option_eqb]. rewrite message_eqb_refl. reflexivity. }
  cbn [ar_step]. destruct (ar_last t) as [[p b]|]; [|exists t; auto].
  destruct p; try (exists t; auto; fail). destruct b; [exists t; auto|].
  destruct ((m_qos m0 =? 0) && message_eqb m m0); [|exists t; auto].
  unfold ar_use. eexists; split; [reflexivity|split; reflexivity].
Qed.

Lemma seen_existsb seen id m : In (id, m) seen -> existsb (fun x => (fst x =? id) && message_eqb (snd x) m) seen = true.
Proof. intros H. apply existsb_exists. exists (id, m). split; [exact H|]. cbn [fst snd]. rewrite N.eqb_refl, message_eqb_refl. reflexivity. Qed.

Lemma ar_R_keep s t s' t' :
  ar_R s t -> incl (s_in (sess s')) (s_in (sess s)) -> incl (ar_seen t) (ar_seen t') ->
  (forall w, will s' = Some w -> ar_will t' = Some w) ->
  (ar_last t' = None -> ar_last t = None /\ (ar_fresh (pp s) = true -> ar_fresh (pp s') = true)) ->
  pp s' <> PFirst -> ar_ok (pp s') t' -> ar_R s' t'.
Proof.
  intros (_ & R2 & _ & R4 & _) Hin Hseen Hw Hl Hpp Hok.
  split; [exact Hok|split; [intros E; destruct (Hl E) as [El Hf]; apply Hf, R2, El|split; [exact Hw|split; [|intros E; destruct (Hpp E)]]]].
  intros id p Hp. exact (in_store_ok_mono _ _ _ Hseen R4 id p (Hin _ Hp)).
Qed.

Lemma ar_R_goto s t s' :
  ar_R s t -> will s' = will s -> s_in (sess s') = s_in (sess s) ->
  (ar_fresh (pp s) = true -> ar_fresh (pp s') = true) -> pp s' <> PFirst -> ar_ok (pp s') t -> ar_R s' t.
Proof.
  intros HR Ew Es Hf. apply (ar_R_keep s t); [exact HR|rewrite Es; apply incl_refl|apply incl_refl|rewrite Ew; apply HR|].
  intros E. split; [exact E|exact Hf].
Qed.

Lemma ar_proc s t e s' : ar_R s t -> step_proc s e = Some s' -> exists t', ar_step t e = Some t' /\ ar_R s' t'.
Proof.
  intros HR Hp. pose proof HR as (R1 & R2 & R3 & R4 & R5).
  inv_proc Hp; pp_split; pc_split.
  all: try (exists t; split; [reflexivity|]; pp_cases;
            (apply (ar_R_goto s); [exact HR|reflexivity|reflexivity|first [intros _; reflexivity|rewrite Hpp; discriminate]|discriminate|exact I]); fail).
  all: rewrite Hpp in R1; cbn [ar_ok] in R1.
  - eexists. split; [reflexivity|]. rewrite R1.
    apply (ar_R_keep s t); [exact HR|apply incl_refl|intros x; apply seen_step_mono| |discriminate|destruct p0; discriminate|destruct p0; first [exact I|reflexivity]].
    intros w Hw. sfp. rewrite (R5 Hpp) in Hw. discriminate Hw.
  - exists t. split; [reflexivity|].
    destruct r0; (apply (ar_R_goto s); [exact HR|reflexivity|reflexivity|rewrite Hpp; discriminate|discriminate|first [exact I|exact R1]]).
  - exists t. split; [reflexivity|].
    apply (ar_R_keep s t); [exact HR| |apply incl_refl| |intros E; split; [exact E|rewrite Hpp; discriminate]|discriminate|exact I].
    + sfp. destruct fr0; [intros x []|apply incl_refl].
    + intros w Hw. rewrite R1. exact Hw.
  - (* a packet received in the main loop *)
    destruct (ar_last t) as [lst|] eqn:El; [|specialize (R2 eq_refl); rewrite Hpp in R2; discriminate R2].
    eexists. split; [cbn [ar_step]; rewrite El; reflexivity|].
    dispatch_cases Hd;
      (apply (ar_R_keep s t); [exact HR|apply incl_refl|intros x; apply seen_step_mono|first [exact R3|intros w Hw; discriminate Hw]|discriminate|discriminate|]);
      cbn [ar_ok ar_last ar_seen]; try exact I; try reflexivity; try (exists dup, id; split; [reflexivity|assumption]).
      exists dup, m, id. split; [reflexivity|]. cbn [seen_step].
      match goal with Hq : m_qos m = 2 |- _ => rewrite Hq end. left; reflexivity.
  - (* the backend Publish for the QoS 0 PUBLISH received last *)
    destruct R1 as (d & id & El & Hq).
    eexists. split; [cbn [ar_step]; rewrite El, Hq; cbn [N.eqb andb]; rewrite message_eqb_refl; reflexivity|].
    apply (ar_R_keep s t); [exact HR|apply incl_refl|apply incl_refl|exact R3|discriminate|discriminate|exact I].
  - (* ... for the QoS 1 PUBLISH received last *)
    destruct R1 as (d & id & El & Hq).
    eexists. split; [cbn [ar_step]; rewrite El, Hq; cbn [N.eqb Pos.eqb andb]; rewrite message_eqb_refl; reflexivity|].
    apply (ar_R_keep s t); [exact HR|apply incl_refl|apply incl_refl|exact R3|discriminate|discriminate|exact I].
  - (* the QoS 2 PUBLISH is stored: it was seen *)
    destruct R1 as (d & m & id & -> & Hin). cbn [get_id] in Hid. injection Hid as <-.
    exists t. split; [reflexivity|].
    split; [exact I|split; [intros E; specialize (R2 E); rewrite Hpp in R2; discriminate R2|split; [exact R3|split; [|discriminate]]]].
    sfp. cbn [sess_with sess_store s_in store_save get_id]. intros j q Hj.
    destruct (in_store_put _ _ _ _ _ Hj) as [E|Hold]; [|exact (R4 j q Hold)].
    injection E as -> ->. exists d, m. split; [reflexivity|exact Hin].
  - (* PUBREL id: what the store returns was seen under id *)
    exists t. split; [reflexivity|].
    apply (ar_R_goto s); [exact HR|reflexivity|reflexivity|rewrite Hpp; discriminate|destruct (store_lookup (s_in (sess s)) id0) as [[]|]; discriminate|].
    sfp. destruct (store_lookup (s_in (sess s)) id0) as [[]|] eqn:El; try exact I.
    split; [exact R1|]. destruct (R4 _ _ (lookup_in _ _ _ El)) as (d' & m' & E & Hin). injection E as _ <- _. exact Hin.
  - (* the backend Publish for the PUBREL received last *)
    destruct R1 as (El & Hin).
    eexists. split; [cbn [ar_step]; rewrite El, (seen_existsb _ _ _ Hin); reflexivity|].
    apply (ar_R_keep s t); [exact HR|apply incl_refl|apply incl_refl|exact R3|discriminate|discriminate|exact I].
Qed.

Lemma ar_step_ok s t e s' : ar_R s t -> step s e = Some s' -> exists t', ar_step t e = Some t' /\ ar_R s' t'.
Proof.
  revert s t e s'. apply (step_sweep ar_R (fun t e s' => exists t', ar_step t e = Some t' /\ ar_R s' t')).
  - (* roles *) intros s t g d a c HR _ _. exact HR.
  - (* new *) intros s t (R1 & R2 & R3 & R4 & R5) _. eexists. split; [reflexivity|].
    repeat split; auto; try (intros w Hw; discriminate Hw).
  - (* close-req *) intros s t HR. exists t. split; [reflexivity|exact HR].
  - (* quiescent *) intros s t HR _. exists t. split; [reflexivity|exact HR].
  - (* kill *) intros s t g HR _. exists t. split; [reflexivity|exact HR].
  - (* closure *) intros s t e s' (R1 & R2 & R3 & R4 & R5) Hc. apply sim_keep; [exact (clo_quiet_ar _ (step_clo_event _ _ _ Hc))|].
    destruct (step_clo_in _ _ _ Hc) as (E1 & E2 & E3). unfold ar_R. rewrite E1, E2. repeat split; try assumption.
    destruct E3 as [->|(id & ->)]; [exact R4|apply in_store_ok_delete, R4].
  - (* processor *) intros s s1 t e s' g HR _ Hv _ Hp. apply (ar_proc s1); [|exact Hp]. destruct Hv as [[-> _]|(_ & _ & -> & _)]; exact HR.
  - (* dequeuer *) intros s t e s' g HR _ _ _ _ Hp. apply sim_keep; [exact (deq_quiet_ar _ (step_deq_event _ _ _ Hp))|].
    destruct (step_deq_frame _ _ _ Hp) as (E1 & _ & E2 & _).
    destruct (step_deq_shape _ _ _ Hp) as (se & d & dy & t1 & t2 & t3 & E).
    apply (ar_R_frame s); [exact E2|rewrite E; reflexivity|exact E1|exact HR].
  - (* acker *) intros s t e s' g HR _ _ _ _ _ Hp. apply sim_keep; [exact (ack_quiet_ar _ (step_ack_event _ _ _ Hp))|].
    destruct (step_ack_shape _ _ _ Hp) as (a & dy & t1 & t2 & t3 & q & ->). exact HR.
  - (* cleanup: it publishes the will *)
    intros s t e s' (R1 & R2 & R3 & R4 & R5) _ Hp.
    assert (Hfrozen : forall l t', ar_will t' = ar_will t -> ar_seen t' = ar_seen t -> ar_R (set_lp (freeze s) l) t').
    { intros l t' Ew Es. unfold ar_R; sf. rewrite Ew, Es. repeat split; auto; discriminate. }
    destruct (step_cleanup_cases _ _ _ Hp) as
      [g m -> Hl Hst Hph Hw ->|g ok -> Hl Hst Hph Hw ->| -> Hl Hst Hph ->|g ok -> Hl ->|g -> Hl ->|g ok -> Hl ->|g -> Hl ->| -> Hl ->];
      try (exists t; split; [reflexivity|]; first [apply Hfrozen; reflexivity|repeat split; assumption]).
    destruct (ar_step_will t g m (R3 m Hw)) as (t' & A & B & C). exists t'. split; [exact A|apply Hfrozen; assumption].
Qed.

(* every accepted trace: each backend Publish is for the packet received last, or the will *)
Theorem arrival_link_holds : forall es s, bc_run es = Some s -> arrival_link es = true.
Proof.
  apply (scan_sound ar_step ar_R ar_step_ok).
  unfold ar_R, bc_init. sf. cbn [ar_ok ar_fresh ar_last ar_will ar_seen session_new s_in].
  repeat split; auto; try discriminate. intros j q [].
Qed.

(* ================================================================ what the clauses mean == *)

(* subscriber's connection: the fresh PUBLISHes it sends are, in order and message for message,
   messages it dequeued — none twice, none invented, none swapped *)
Lemma forward_link_emb : forall es u,
  scan fl_step u es = true ->
  Emb eq (forwarded es) ((match u with Some m => [m] | None => [] end) ++ dequeued es).
Proof.
  induction es as [|e es IH]; intros u H; [apply Emb_nil|].
  cbn [scan] in H. destruct (fl_step u e) as [u'|] eqn:Ef; [|discriminate H]. specialize (IH u' H).
  assert (Hneutral : fl_step u e = Some u ->
            forwarded (e :: es) = forwarded es -> dequeued (e :: es) = dequeued es ->
            Emb eq (forwarded (e :: es)) ((match u with Some m => [m] | None => [] end) ++ dequeued (e :: es))).
  { intros E1 E2 E3. rewrite E1 in Ef. injection Ef as <-. rewrite E2, E3. exact IH. }
  destruct e; try (apply Hneutral; reflexivity).
  - (* ENewConn: a message in flight is dropped *)
    cbn [fl_step] in Ef. injection Ef as <-. apply Emb_app_l. exact IH.
  - (* ETx *)
    destruct p; try (apply Hneutral; reflexivity). destruct dup; [apply Hneutral; reflexivity|].
    cbn [fl_step] in Ef. destruct u as [m'|]; [|discriminate Ef].
    destruct (message_eqb m m') eqn:Em; [|discriminate Ef]. injection Ef as <-. apply message_eqb_eq in Em. subst m'.
    change (forwarded (ETx g (Publish false m id) async ok :: es)) with (m :: forwarded es).
    change (dequeued (ETx g (Publish false m id) async ok :: es)) with (dequeued es).
    cbn [app]. apply Emb_take; [reflexivity|exact IH].
  - (* EDeqRet *)
    destruct r; try (apply Hneutral; reflexivity).
    cbn [fl_step] in Ef. destruct u as [m'|]; [discriminate Ef|]. injection Ef as <-.
    change (forwarded (EDeqRet g (QMsg m backack) :: es)) with (forwarded es).
    change (dequeued (EDeqRet g (QMsg m backack) :: es)) with (m :: dequeued es).
    exact IH.
Qed.

Theorem forwarded_embeds_dequeued es : forward_link es = true -> Emb eq (forwarded es) (dequeued es).
Proof. intros H. exact (forward_link_emb es None H). Qed.

(* publisher's connection: the messages of a flow (without the will) that it hands to the backend are,
   in order, carried by arrivals of its wire: each by an arrival of its own, the QoS 0/1 PUBLISH with
   exactly that message or the PUBREL whose packet id a QoS 2 PUBLISH with that message had *)
Definition ar_avail (t : ar_st) : list (list message) :=
  match ar_last t with Some (p, false) => arrival (ar_seen t) p | _ => [] end.
Definition will_ok (fl : flow) (t : ar_st) : Prop :=
  match ar_will t with Some w => in_flow fl w = false | None => True end.

Lemma arrival_seen_step seen p : arrival (seen_step seen p) p = arrival seen p.
Proof. destruct p; try reflexivity. Qed.

Lemma ar_is_will_inv t m t' : ar_is_will t m = Some t' -> t' = t /\ ar_will t = Some m.
Proof.
  unfold ar_is_will. destruct (ar_will t) as [w|]; cbn [option_eqb]; [|discriminate].
  destruct (message_eqb w m) eqn:E; [|discriminate]. intros H. injection H as <-. apply message_eqb_eq in E. subst w. auto.
Qed.

Lemma candidates_in seen id m :
  existsb (fun x => (fst x =? id) && message_eqb (snd x) m) seen = true -> In m (candidates seen id).
Proof.
  intros H. apply existsb_exists in H as ([j x] & Hin & Hx). cbn [fst snd] in Hx.
  apply andb_true_iff in Hx as [Hj Hm]. apply message_eqb_eq in Hm. subst x.
  unfold candidates. apply in_map_iff. exists (j, m). split; [reflexivity|]. apply filter_In. split; [exact Hin|exact Hj].
Qed.

Lemma arrival_link_emb fl : forall es t,
  scan ar_step t es = true -> will_ok fl t -> no_will_in_flow fl es = true ->
  Emb carries (filter (in_flow fl) (published es)) (ar_avail t ++ arrived_from (ar_seen t) es).
Proof.
  induction es as [|e es IH]; intros t H Hw Hn; [apply Emb_nil|].
  cbn [scan] in H. destruct (ar_step t e) as [t'|] eqn:Ef; [|discriminate H].
  cbn [no_will_in_flow forallb] in Hn. apply andb_true_iff in Hn as [Hn1 Hn2]. fold (no_will_in_flow fl es) in Hn2.
  specialize (IH t' H).
  assert (Hneutral : ar_step t e = Some t -> published (e :: es) = published es ->
            arrived_from (ar_seen t) (e :: es) = arrived_from (ar_seen t) es ->
            Emb carries (filter (in_flow fl) (published (e :: es))) (ar_avail t ++ arrived_from (ar_seen t) (e :: es))).
  { intros E1 E2 E3. rewrite E1 in Ef. injection Ef as <-. rewrite E2, E3. apply IH; assumption. }
  (* a backend Publish that uses up the arrival received last *)
  assert (Huse : forall p m, ar_last t = Some (p, false) -> ar_use t p = Some t' -> carries m (hd [] (arrival (ar_seen t) p)) ->
            arrival (ar_seen t) p <> [] ->
            Emb carries (filter (in_flow fl) (m :: published es)) (ar_avail t ++ arrived_from (ar_seen t) es)).
  { intros p m El Eu Hc Hne. unfold ar_use in Eu. injection Eu as <-.
    assert (IH' : Emb carries (filter (in_flow fl) (published es)) (arrived_from (ar_seen t) es)) by (apply IH; [exact Hw|exact Hn2]).
    unfold ar_avail. rewrite El.
    assert (Har : exists c, arrival (ar_seen t) p = [c]).
    { destruct p; cbn [arrival] in *; try (exfalso; apply Hne; reflexivity); eauto.
      destruct (m_qos m0 =? 2); [exfalso; apply Hne; reflexivity|eauto]. }
    destruct Har as (c & Ec). rewrite Ec in *. cbn [hd app] in *. cbn [filter].
    destruct (in_flow fl m); [apply Emb_take; [exact Hc|exact IH']|apply Emb_skip, IH']. }
  destruct e; try (apply Hneutral; reflexivity).
  - (* ENewConn *)
    cbn [ar_step] in Ef. injection Ef as <-. apply Emb_app_l.
    change (published (ENewConn :: es)) with (published es). change (arrived_from (ar_seen t) (ENewConn :: es)) with (arrived_from (ar_seen t) es).
    apply (IH I Hn2).
  - (* ERx *)
    cbn [ar_step] in Ef. injection Ef as <-.
    change (published (ERx g p :: es)) with (published es).
    change (arrived_from (ar_seen t) (ERx g p :: es)) with (arrival (ar_seen t) p ++ arrived_from (seen_step (ar_seen t) p) es).
    apply Emb_app_l. rewrite <- (arrival_seen_step (ar_seen t) p).
    apply IH; [|exact Hn2]. unfold will_ok. cbn [ar_will].
    destruct (ar_last t); [exact Hw|]. destruct p; try exact I.
    destruct (c_will c) as [w|]; [|exact I]. apply negb_true_iff. exact Hn1.
  - (* EPub *)
    change (published (EPub g m k :: es)) with (m :: published es).
    change (arrived_from (ar_seen t) (EPub g m k :: es)) with (arrived_from (ar_seen t) es).
    assert (Hwill : ar_is_will t m = Some t' ->
              Emb carries (filter (in_flow fl) (m :: published es)) (ar_avail t ++ arrived_from (ar_seen t) es)).
    { intros Ew. apply ar_is_will_inv in Ew as [-> Ew]. unfold will_ok in Hw. rewrite Ew in Hw.
      cbn [filter]. rewrite Hw. apply IH; [unfold will_ok; rewrite Ew; exact Hw|exact Hn2]. }
    cbn [ar_step] in Ef. destruct k as [n|].
    + destruct (ar_last t) as [[p b]|] eqn:El; [|discriminate Ef].
      destruct p; try discriminate Ef; destruct b; try discriminate Ef.
      * destruct ((m_qos m0 =? 1) && message_eqb m m0) eqn:C; [|discriminate Ef].
        apply andb_true_iff in C as [Cq Cm]. apply message_eqb_eq in Cm. subst m0. apply N.eqb_eq in Cq.
        apply (Huse _ m eq_refl Ef); cbn [arrival]; rewrite Cq; cbn [N.eqb Pos.eqb hd]; [|discriminate].
        exists m. split; [left; reflexivity|apply capped_refl].
      * destruct (existsb _ (ar_seen t)) eqn:C; [|discriminate Ef].
        apply (Huse _ m eq_refl Ef); cbn [arrival hd]; [|discriminate].
        exists m. split; [apply candidates_in, C|apply capped_refl].
    + destruct (ar_last t) as [[p b]|] eqn:El; [|apply Hwill, Ef].
      destruct p; try (apply Hwill, Ef); destruct b; try (apply Hwill, Ef).
      destruct ((m_qos m0 =? 0) && message_eqb m m0) eqn:C; [|apply Hwill, Ef].
      apply andb_true_iff in C as [Cq Cm]. apply message_eqb_eq in Cm. subst m0. apply N.eqb_eq in Cq.
      apply (Huse _ m eq_refl Ef); cbn [arrival]; rewrite Cq; cbn [N.eqb hd]; [|discriminate].
      exists m. split; [left; reflexivity|apply capped_refl].
Qed.

Theorem published_embeds_arrived fl es :
  arrival_link es = true -> no_will_in_flow fl es = true ->
  Emb carries (filter (in_flow fl) (published es)) (arrived es).
Proof. intros H Hn. exact (arrival_link_emb fl es (ArSt None None []) H I Hn). Qed.
