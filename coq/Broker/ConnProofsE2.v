(* ConnProofsE2.v — c20_acted_on and c16_quiescent_dequeuing (ConnSpec6.v) hold of
   every trace the broker-connection model accepts. *)
From Coq Require Import List NArith Bool Lia.
From GM Require Import Base.Lts Codec.Packet Session.Ids Session.Store Session.StoreProofs
  Broker.Conn Broker.ConnSpec Broker.ConnSpec6 Broker.ConnBase
  Broker.ConnProofsB1 Broker.ConnProofsB3 Broker.ConnProofsB4.
Import ListNotations.
Open Scope N_scope.

(* ============================================================ c20_acted_on == *)

(* the control points at which the processor still owes the first step of a request *)
Definition awaits (x : ppc) (p : packet) : bool :=
  match x with
  | PAuth _ => match p with Connect _ => true | _ => false end
  | PSubW _ _ => match p with Subscribe _ _ => true | _ => false end
  | PUnsubW _ _ => match p with Unsubscribe _ _ => true | _ => false end
  | PPub0 _ => match p with Publish _ m _ => m_qos m =? 0 | _ => false end
  | PPub1W _ _ => match p with Publish _ m _ => m_qos m =? 1 | _ => false end
  | PPub2W _ => match p with Publish _ m _ => m_qos m =? 2 | _ => false end
  | PAckDel _ => match p with Puback _ | Pubcomp _ => true | _ => false end
  | PRecSave _ => match p with Pubrec _ => true | _ => false end
  | PRelLookup _ => match p with Pubrel _ => true | _ => false end
  | PPing => match p with Pingreq => true | _ => false end
  | PDisc => match p with Disconnect => true | _ => false end
  | PDieLog KClient | PDieClose | PDone => true
  | _ => false
  end.

Definition nd_rel (s : bc) (t : list (N * packet)) : Prop :=
  forall g p, aget t g = Some p -> gproc s = Some g /\ awaits (pp s) p = true.

Definition nd_special (e : event) : bool :=
  match e with ENewConn | ERx _ _ | ERxErr _ | EQuiescent => true | _ => false end.

(* on every other event the scanner at most forgets an entry *)
Lemma nd_shrinks t e : nd_special e = false ->
  exists t', nd_step t e = Some t' /\ forall g p, aget t' g = Some p -> aget t g = Some p.
Proof.
  intros Hs. destruct e; try discriminate Hs; cbn [nd_step ev_g];
    try (eexists; split; [reflexivity|]; intros g0 p0 H0; exact H0);
    match goal with |- context [aget t ?g] => destruct (aget t g) as [p0|] eqn:Eg end;
    try (eexists; split; [reflexivity|]; intros g0 q0 H0; exact H0);
    match goal with |- context [nd_discharges ?p ?e] => destruct (nd_discharges p e) end;
    (eexists; split; [reflexivity|]); intros g0 q0 H0; try exact H0;
    apply aget_adel_some in H0; exact (proj1 H0).
Qed.

Lemma nd_keep s t e s' : clo_event e || deq_event e || ack_event e || cleanup_event e = true ->
  gproc s' = gproc s -> (pp s' = pp s \/ pp s' = PDone) ->
  nd_rel s t -> exists t', nd_step t e = Some t' /\ nd_rel s' t'.
Proof.
  intros He Hg Hp HR. assert (Hs : nd_special e = false) by (destruct e; try discriminate He; reflexivity).
  destruct (nd_shrinks t e Hs) as (t' & Ht & Hsub). exists t'. split; [exact Ht|].
  intros g p H. destruct (HR g p (Hsub _ _ H)) as [H1 H2]. rewrite Hg. split; [exact H1|].
  destruct Hp as [->| ->]; [exact H2|reflexivity].
Qed.

Lemma step_proc_not_special s e s' : step_proc s e = Some s' -> e <> ENewConn /\ e <> EQuiescent.
Proof. intros H. unfold step_proc in H. split; intros ->; destruct (pp s); try discriminate H; bm H. Qed.

(* the processor's own steps *)
Lemma nd_proc s t e s' g : gproc s = Some g -> ev_g e = Some g ->
  (forall p, aget t g = Some p -> awaits (pp s) p = true) ->
  step_proc s e = Some s' ->
  exists t', nd_step t e = Some t' /\
    (forall p, aget t' g = Some p -> awaits (pp s') p = true) /\
    (forall g' p, g' <> g -> aget t' g' = Some p -> aget t g' = Some p).
Proof.
  intros Hg Heg Haw H.
  destruct (aget t g) as [pw|] eqn:Eg.
  - (* the processor owes a step: the event is that step, or the request stays owed *)
    specialize (Haw pw eq_refl).
    inv_proc H; cbn [ev_g] in Heg; injection Heg as ->; pp_split; try dispatch_cases Hd; pp_cases;
      try rewrite Hpp in Haw; cbn [awaits] in Haw; try discriminate Haw; sfp;
      destruct pw; try discriminate Haw;
      cbn [nd_step ev_g]; rewrite Eg; cbn [nd_discharges]; rewrite ?Haw;
      (eexists; split; [reflexivity|]); (split; [intros q Hq|intros g' q Hne Hq]);
      rewrite ?aget_adel_eq in Hq; try discriminate Hq;
      try (rewrite aget_adel_ne in Hq by exact Hne; exact Hq);
      try exact Hq;
      try (rewrite Eg in Hq; injection Hq as <-; cbn [awaits]; first [reflexivity|exact Haw]).
  - (* nothing owed *)
    destruct (nd_special e) eqn:Es.
    + destruct e; try discriminate Es.
      * destruct (step_proc_not_special _ _ _ H) as [Hn _]. contradiction Hn. reflexivity.
      * (* ERx *)
        cbn [ev_g] in Heg. injection Heg as ->. cbn [nd_step]. rewrite Eg.
        eexists; split; [reflexivity|]. split.
        -- intros q Hq. rewrite aget_aput_eq in Hq. injection Hq as <-.
           inv_proc_ev H; injection Ee as <- <-; sfp;
             [destruct p0; reflexivity|dispatch_cases Hd; cbn [awaits]; try reflexivity; apply N.eqb_eq; assumption].
        -- intros g' q Hne Hq. rewrite aget_aput_ne in Hq by exact Hne. exact Hq.
      * (* ERxErr *)
        cbn [ev_g] in Heg. injection Heg as ->. cbn [nd_step]. rewrite Eg.
        eexists; split; [reflexivity|]. split; [intros q Hq; rewrite Eg in Hq; discriminate Hq|intros g' q _ Hq; exact Hq].
      * destruct (step_proc_not_special _ _ _ H) as [_ Hn]. contradiction Hn. reflexivity.
    + assert (Ht : nd_step t e = Some t).
      { destruct e; try discriminate Es; cbn [nd_step ev_g]; cbn [ev_g] in Heg; try discriminate Heg;
          injection Heg as ->; rewrite Eg; reflexivity. }
      exists t. split; [exact Ht|]. split; [intros q Hq; rewrite Eg in Hq; discriminate Hq|intros g' q _ Hq; exact Hq].
Qed.

Lemma nd_rel_none s t : gproc s = None -> nd_rel s t -> forall g, aget t g = None.
Proof.
  intros Hn HR g. destruct (aget t g) as [p|] eqn:E; [|reflexivity].
  destruct (HR g p E) as [H1 _]. rewrite Hn in H1. discriminate H1.
Qed.

Lemma nd_hstep s t e s' : nd_rel s t -> step s e = Some s' -> exists t', nd_step t e = Some t' /\ nd_rel s' t'.
Proof.
  refine (step_sweep nd_rel (fun t e s' => exists t', nd_step t e = Some t' /\ nd_rel s' t') _ _ _ _ _ _ _ _ _ _ s t e s'); clear s t e s'.
  - (* roles *) intros s t g d a c HR _ _. exact HR.
  - (* new *) intros s t _ _. exists []. split; [reflexivity|]. intros g p E. discriminate E.
  - (* close-req *) intros s t HR. exists t. split; [reflexivity|exact HR].
  - (* EQuiescent: the processor is back in Receive *)
    intros s t HR Hq. assert (Ht : t = []).
    { destruct t as [|[g p] t]; [reflexivity|]. exfalso.
      destruct (HR g p (aget_cons_eq _ _ _)) as [_ Ha].
      unfold quiescent in Hq. repeat (apply andb_true_iff in Hq; destruct Hq as [Hq ?]).
      destruct (pp s); discriminate. }
    subst t. exists []. split; [reflexivity|exact HR].
  - (* kill *) intros s t g HR _. apply (nd_keep s); [reflexivity|reflexivity|left; reflexivity|exact HR].
  - (* closure *) intros s t e s' HR H. pose proof (step_clo_event _ _ _ H) as He.
    apply step_clo_shape in H. destruct H as (se & cl & dy & q & ->).
    apply (nd_keep s); [rewrite He; reflexivity|reflexivity|left; reflexivity|exact HR].
  - (* processor *)
    intros s s1 t e s' g HR _ Hv Hev H.
    assert (Hg1 : gproc s1 = Some g) by (destruct Hv as [[-> Hg]|(_ & _ & -> & _)]; [exact Hg|reflexivity]).
    assert (HR1 : nd_rel s1 t).
    { destruct Hv as [[-> _]|(Hn & _ & -> & _)]; [exact HR|].
      intros g0 p0 E. rewrite (nd_rel_none _ _ Hn HR g0) in E. discriminate E. }
    destruct (nd_proc s1 t e s' g Hg1 Hev (fun p E => proj2 (HR1 g p E)) H) as (t' & Ht & Hown & Hoth).
    exists t'. split; [exact Ht|].
    apply step_proc_frame in H. destruct H as (_ & Hg' & _).
    intros g0 p0 E. rewrite Hg', Hg1. destruct (N.eq_dec g0 g) as [->|Hne].
    + split; [reflexivity|apply Hown, E].
    + exfalso. destruct (HR1 g0 p0 (Hoth _ _ Hne E)) as [Hx _]. rewrite Hg1 in Hx. injection Hx as Hx. congruence.
  - (* dequeuer *) intros s t e s' g HR _ _ _ _ H. destruct (step_deq_frame _ _ _ H) as (_ & _ & Hp & Hg & _).
    apply (nd_keep s); [rewrite (step_deq_event _ _ _ H), orb_true_r; reflexivity|exact Hg|left; exact Hp|exact HR].
  - (* acker *) intros s t e s' g HR _ _ _ _ _ H. pose proof (step_ack_event _ _ _ H) as He.
    apply step_ack_shape in H. destruct H as (a & dy & t1 & t2 & t3 & q & ->).
    apply (nd_keep s); [rewrite He, orb_true_r; reflexivity|reflexivity|left; reflexivity|exact HR].
  - (* cleanup *) intros s t e s' HR _ H. destruct (step_cleanup_frame _ _ _ H) as (_ & _ & _ & Hg & _ & _ & Hp & _).
    apply (nd_keep s); [rewrite (step_cleanup_event _ _ _ H); apply orb_true_r|exact Hg|exact Hp|exact HR].
Qed.

Theorem c20_acted_on_holds : forall es s, bc_run es = Some s -> c20_acted_on es = true.
Proof.
  unfold c20_acted_on. apply (scan_sound nd_step nd_rel nd_hstep).
  intros g p E. discriminate E.
Qed.

(* ================================================= c16_quiescent_dequeuing == *)

Definition qd_rel (s : bc) (t : bool) : Prop := dp s = DWait -> t = true.

Lemma qd_deq s e s' : step_deq s e = Some s' -> dp s' = DWait -> exists g, e = EDeqCall g.
Proof.
  intros H Hd. unfold step_deq, take_deq, guard in H.
  destruct (dp s) eqn:Edp; destruct e; try discriminate H; bm H; inv_some H; sf;
    try discriminate Hd; try (eexists; reflexivity);
    repeat match goal with Hx : context [match ?b with _ => _ end] |- _ => destruct b end; discriminate Hd.
Qed.

Lemma step_proc_no_deq s e s' : step_proc s e = Some s' ->
  match e with EDeqCall _ | EDeqRet _ _ | ENewConn | EQuiescent => False | _ => True end.
Proof. intros H. inv_proc H; exact I. Qed.

Lemma step_cleanup_dp s e s' : step_cleanup s e = Some s' -> dp s' = dp s \/ dp s' <> DWait.
Proof.
  intros H. destruct (step_cleanup_cases _ _ _ H); subst s'; sf; try (left; reflexivity); right; destruct (dp s); discriminate.
Qed.

Lemma qd_step_other t e :
  match e with EDeqCall _ | EDeqRet _ _ | ENewConn | EQuiescent => False | _ => True end -> qd_step t e = Some t.
Proof. destruct e; intros H; try contradiction; reflexivity. Qed.

Lemma qd_hstep s t e s' : qd_rel s t -> step s e = Some s' -> exists t', qd_step t e = Some t' /\ qd_rel s' t'.
Proof.
  refine (step_sweep qd_rel (fun t e s' => exists t', qd_step t e = Some t' /\ qd_rel s' t') _ _ _ _ _ _ _ _ _ _ s t e s'); clear s t e s'.
  - (* roles *) intros s t g d a c HR _ _. exact HR.
  - (* new *) intros s t _ _. exists false. split; [reflexivity|]. intros Hd. discriminate Hd.
  - (* close-req *) intros s t HR. exists t. split; [reflexivity|exact HR].
  - (* EQuiescent: the dequeuer is inside Dequeue *)
    intros s t HR Hq. assert (Hd : dp s = DWait).
    { unfold quiescent in Hq. repeat (apply andb_true_iff in Hq; destruct Hq as [Hq ?]).
      destruct (dp s); try discriminate. reflexivity. }
    rewrite (HR Hd). exists true. split; [reflexivity|]. intros _. reflexivity.
  - (* kill *) intros s t g HR _. exists t. split; [reflexivity|exact HR].
  - (* closure *) intros s t e s' HR H. exists t. split.
    + apply qd_step_other. apply step_clo_event in H. destruct e; try discriminate H; exact I.
    + apply step_clo_shape in H. destruct H as (se & cl & dy & q & ->). exact HR.
  - (* processor *) intros s s1 t e s' g HR _ Hv _ H.
    assert (HR1 : qd_rel s1 t) by (destruct Hv as [[-> _]|(_ & _ & -> & _)]; exact HR).
    exists t. split; [apply qd_step_other, (step_proc_no_deq _ _ _ H)|].
    unfold qd_rel in *. destruct (step_proc_dp _ _ _ H) as [_ [->|[_ ->]]]; [exact HR1|intros Hd; discriminate Hd].
  - (* dequeuer: it enters Dequeue with EDeqCall only *)
    intros s t e s' g HR _ _ _ _ H.
    destruct (dp s' ) eqn:Ed'; try (
      assert (Hx : exists t', qd_step t e = Some t') by
        (apply step_deq_event in H; destruct e; try discriminate H; eexists; reflexivity);
      destruct Hx as (t' & Ht); exists t'; split; [exact Ht|]; unfold qd_rel; rewrite Ed'; intros Hd; discriminate Hd).
    destruct (qd_deq _ _ _ H Ed') as (g0 & ->). exists true. split; [reflexivity|]. intros _. reflexivity.
  - (* acker *) intros s t e s' g HR _ _ _ _ _ H. exists t. split.
    + apply qd_step_other. apply step_ack_event in H. destruct e; try discriminate H; exact I.
    + apply step_ack_shape in H. destruct H as (a & dy & t1 & t2 & t3 & q & ->). exact HR.
  - (* cleanup *) intros s t e s' HR _ H. exists t. split.
    + apply step_cleanup_event in H. destruct e; try discriminate H; reflexivity.
    + unfold qd_rel in *. destruct (step_cleanup_dp _ _ _ H) as [->|Hn]; [exact HR|intros Hd; contradiction].
Qed.

Theorem c16_quiescent_dequeuing_holds : forall es s, bc_run es = Some s -> c16_quiescent_dequeuing es = true.
Proof.
  unfold c16_quiescent_dequeuing. apply (scan_sound qd_step qd_rel qd_hstep).
  intros Hd. discriminate Hd.
Qed.
