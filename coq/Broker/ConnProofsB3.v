(* ConnProofsB3.v — invariants of the broker-connection model used by the C07
   exactly-once proofs: the closure table has unique keys, a goroutine is inside at
   most one closure, the incoming store has unique keys. *)
From Coq Require Import List NArith Bool Lia.
From GM Require Import Base.Lts Codec.Packet Session.Ids Session.Store Session.StoreProofs
  Broker.Conn Broker.ConnSpec Broker.ConnBase Broker.ConnProofsB1.
Import ListNotations.
Open Scope N_scope.

Inductive proc_clos (s s' : bc) : Prop :=
| Clos_same : clos s' = clos s -> proc_clos s s'
| Clos_reg k a : clo_find (clos s) k = None -> clos s' = clos s ++ [Clo k (conn_no s) a CReg] -> proc_clos s s'.

Inductive proc_sin (s s' : bc) : Prop :=
| Sin_same : s_in (sess s') = s_in (sess s) -> proc_sin s s'
| Sin_save p : s_in (sess s') = store_save (s_in (sess s)) p -> proc_sin s s'
| Sin_new : s_in (sess s') = [] -> proc_sin s s'.

Lemma step_proc_clos s e s' : step_proc s e = Some s' -> proc_clos s s' /\ proc_sin s s'.
Proof.
  intros H. inv_proc H; pp_cases; sfp;
    (split; [first [apply Clos_same; reflexivity | eapply Clos_reg; [eassumption|reflexivity]]|]);
    first [apply Sin_same; reflexivity | eapply Sin_save; reflexivity | apply Sin_new; reflexivity].
Qed.

(* ----------------------------------------------------------- the invariant *)

Lemma clos_enq s c l : clos (set_clos (clo_enqueue s c) l) = l.
Proof. unfold clo_enqueue. destruct (clo_live s c); reflexivity. Qed.

Lemma sess_enq s c l : sess (set_clos (clo_enqueue s c) l) = sess s.
Proof. unfold clo_enqueue. destruct (clo_live s c); reflexivity. Qed.

Definition st_on (g : N) (st : cstat) : bool :=
  match st with CDel g' | CDieLog g' | CDieClose g' | CRun g' => g =? g' | _ => false end.
Lemma clo_on_st g c : clo_on g c = st_on g (c_stat c).
Proof. reflexivity. Qed.

(* neither waiting for the backend's call nor for its own Delete *)
Definition idle_st (st : cstat) : bool := match st with CReg | CDel _ => false | _ => true end.

Definition clo_frame (s s' : bc) : Prop :=
  lp s' = lp s /\ pp s' = pp s /\ ap s' = ap s /\ conn_no s' = conn_no s /\ (dying s = true -> dying s' = true).

(* the steps of a closure that is past its Delete; goroutine g is inside it until the return *)
Inductive late_tr (s s' : bc) (c : closure) (g : N) : event -> cstat -> Prop :=
| LT_die : c_stat c = CDieLog g -> late_tr s s' c g (EDie g KSession) (CDieClose g)
| LT_close : c_stat c = CDieClose g -> (c_conn c = conn_no s -> dying s' = true) ->
    late_tr s s' c g (EConnClose g) (CRun g)
| LT_ret : c_stat c = CRun g -> late_tr s s' c g (EAckRet (c_k c) g) CDone.

(* a closure step sets the status of one closure of the table; besides, a PUBACK/SUBACK closure
   queues its packet when called, a PUBCOMP closure when its Delete succeeded *)
Inductive clo_nf (s : bc) (e : event) (s' : bc) : Prop :=
| NF_call_pc c g id : e = EAckCall (c_k c) g -> In c (clos s) -> c_stat c = CReg -> c_kind c = KPubcomp id ->
    in_closure s g = false ->
    clos s' = clo_set (clos s) (c_k c) (CDel g) -> sess s' = sess s -> ackq s' = ackq s -> clo_nf s e s'
| NF_call_other c g : e = EAckCall (c_k c) g -> In c (clos s) -> c_stat c = CReg -> (forall id, c_kind c <> KPubcomp id) ->
    in_closure s g = false ->
    clos s' = clo_set (clos s) (c_k c) (CRun g) -> sess s' = sess s -> ackq s' = ackq (clo_enqueue s c) -> clo_nf s e s'
| NF_del c g id ok : e = EDelete g Incoming id ok -> In c (clos s) -> c_stat c = CDel g -> c_kind c = KPubcomp id ->
    clos s' = clo_set (clos s) (c_k c) (if ok then CRun g else CDieLog g) ->
    s_in (sess s') = (if ok then store_delete (s_in (sess s)) id else s_in (sess s)) ->
    ackq s' = (if ok then ackq (clo_enqueue s c) else ackq s) -> clo_nf s e s'
| NF_late c g st : late_tr s s' c g e st -> In c (clos s) ->
    clos s' = clo_set (clos s) (c_k c) st -> sess s' = sess s -> ackq s' = ackq s -> clo_nf s e s'
| NF_done c g : e = EAckCall (c_k c) g \/ e = EAckRet (c_k c) g -> In c (clos s) -> c_stat c = CDone ->
    in_closure s g = false -> s' = s -> clo_nf s e s'.

Lemma late_tr_on s s' c g e st : late_tr s s' c g e st ->
  clo_on g c = true /\ idle_st (c_stat c) = true /\ idle_st st = true.
Proof. unfold clo_on. intros [E|E _|E]; rewrite E, N.eqb_refl; repeat split. Qed.

Lemma step_clo_nf s e s' : step_clo s e = Some s' -> clo_nf s e s' /\ clo_frame s s'.
Proof.
  intros H. apply step_clo_cases in H. split.
  - destruct H as [k g c id -> Hf Hs Hi Hk -> | k g c -> Hf Hs Hi Hk -> | k g c -> Hf Hs Hi -> | g id c -> Hf ->
                  | g id c -> Hf -> | g c -> Hin Hs -> | g c -> Hin Hs -> | k g c -> Hf Hs -> | k g c -> Hf Hs Hi ->];
      try (apply clo_find_in in Hf; destruct Hf as [Hin <-]);
      try (apply clo_del_find_in in Hf; destruct Hf as (Hin & Hs & Hk)).
    + eapply NF_call_pc; try eassumption; reflexivity.
    + eapply NF_call_other; try eassumption; [reflexivity|apply clos_enq|apply sess_enq|reflexivity].
    + eapply NF_done; try eassumption; [left|]; reflexivity.
    + eapply (NF_del _ _ _ c g id true); try eassumption; [reflexivity|apply clos_enq|rewrite sess_enq; reflexivity|].
      unfold clo_enqueue, clo_live. cbn [sess_delete]. destruct (_ && _); reflexivity.
    + eapply (NF_del _ _ _ c g id false); try eassumption; reflexivity.
    + eapply NF_late; [apply LT_die, Hs|exact Hin|reflexivity..].
    + eapply NF_late; [apply LT_close; [exact Hs|]|exact Hin|..].
      * intros ->. rewrite N.eqb_refl. reflexivity.
      * destruct (c_conn c =? conn_no s); reflexivity.
      * destruct (c_conn c =? conn_no s); reflexivity.
      * destruct (c_conn c =? conn_no s); reflexivity.
    + eapply NF_late; [apply LT_ret, Hs|exact Hin|reflexivity..].
    + eapply NF_done; try eassumption; [right|]; reflexivity.
  - destruct H as [k g c id -> Hf Hs Hi Hk -> | k g c -> Hf Hs Hi Hk -> | k g c -> Hf Hs Hi -> | g id c -> Hf ->
                  | g id c -> Hf -> | g c -> Hin Hs -> | g c -> Hin Hs -> | k g c -> Hf Hs -> | k g c -> Hf Hs Hi ->];
      unfold clo_frame, clo_enqueue; repeat match goal with |- context [if ?b then _ else _] => destruct b end; sf;
      repeat split; auto.
Qed.

Lemma clo_nf_tab s e s' : clo_nf s e s' ->
  clos s' = clos s \/
  exists c st, In c (clos s) /\ clos s' = clo_set (clos s) (c_k c) st /\
               (forall g, st_on g st = true -> clo_on g c = true \/ in_closure s g = false).
Proof.
  assert (Hg : forall g g0 : N, (g0 =? g) = true -> g0 = g) by (intros g g0; apply N.eqb_eq).
  intros [c g id _ Hin Hs _ Hi Ec _ _ | c g _ Hin Hs _ Hi Ec _ _ | c g id ok _ Hin Hs _ Ec _ _ | c g st Ht Hin Ec _ _
         | c g _ _ _ _ ->]; [right; exists c; eexists; (split; [exact Hin|split; [exact Ec|]]); intros g0 E..|left; reflexivity].
  - right. apply Hg in E. subst g0. exact Hi.
  - right. apply Hg in E. subst g0. exact Hi.
  - left. rewrite clo_on_st, Hs. destruct ok; exact E.
  - left. destruct (late_tr_on _ _ _ _ _ _ Ht) as (Ho & _). destruct Ht; cbn [st_on] in E; try discriminate E;
      apply Hg in E; subst g0; exact Ho.
Qed.

Lemma clo_nf_sin s e s' : clo_nf s e s' ->
  s_in (sess s') = s_in (sess s) \/ exists id, s_in (sess s') = store_delete (s_in (sess s)) id.
Proof.
  intros [c g id _ _ _ _ _ _ -> _ | c g _ _ _ _ _ _ -> _ | c g id ok _ _ _ _ _ -> _ | c g st _ _ _ -> _ | c g _ _ _ _ ->];
    try (left; reflexivity).
  destruct ok; [right; exists id|left]; reflexivity.
Qed.

Definition one_on (l : list closure) : Prop :=
  forall c1 c2 g, In c1 l -> In c2 l -> clo_on g c1 = true -> clo_on g c2 = true -> c_k c1 = c_k c2.

Definition inv_c07 (s : bc) : Prop :=
  NoDup (ckeys (clos s)) /\ one_on (clos s) /\ NoDup (keys (s_in (sess s))).

Lemma inv_c07_init : inv_c07 bc_init.
Proof. repeat split; cbn; try constructor. intros c1 c2 g []. Qed.

Lemma one_on_del l c1 c2 g : one_on l -> In c1 l -> In c2 l -> c_stat c1 = CDel g -> c_stat c2 = CDel g -> c_k c1 = c_k c2.
Proof. intros H H1 H2 E1 E2. eapply H; eauto using clo_on_del. Qed.

Lemma inv_c07_clo s e s' : inv_c07 s -> step_clo s e = Some s' -> inv_c07 s'.
Proof.
  intros (I1 & I2 & I3) H. apply step_clo_nf in H. destruct H as [H _].
  pose proof (clo_nf_tab _ _ _ H) as Ht. pose proof (clo_nf_sin _ _ _ H) as Hs.
  assert (I3' : NoDup (keys (s_in (sess s')))).
  { destruct Hs as [->|(id & ->)]; [exact I3|apply nodup_delete, I3]. }
  unfold inv_c07.
  destruct Ht as [->|(c & st & Hin & -> & Hst)]; [repeat split; assumption|].
  split; [rewrite clo_set_keys; exact I1|split; [|exact I3']].
  intros c1 c2 g H1 H2 E1 E2.
  apply (in_clo_set _ _ _ _ I1) in H1. apply (in_clo_set _ _ _ _ I1) in H2.
  destruct H1 as [[H1 N1]|(x1 & X1 & K1 & ->)]; destruct H2 as [[H2 N2]|(x2 & X2 & K2 & ->)]; cbn [c_k] in *.
  - eapply I2; eassumption.
  - exfalso. rewrite clo_on_st in E2. cbn [c_stat] in E2. destruct (Hst g E2) as [Ho|Hi].
    + apply N1. eapply I2; eassumption.
    + rewrite (in_closure_false _ _ Hi _ H1) in E1. discriminate E1.
  - exfalso. rewrite clo_on_st in E1. cbn [c_stat] in E1. destruct (Hst g E1) as [Ho|Hi].
    + apply N2. eapply I2; eassumption.
    + rewrite (in_closure_false _ _ Hi _ H2) in E2. discriminate E2.
  - reflexivity.
Qed.

Lemma inv_c07_proc s e s' : inv_c07 s -> step_proc s e = Some s' -> inv_c07 s'.
Proof.
  intros (I1 & I2 & I3) H. apply step_proc_clos in H. destruct H as (Hc & Hs).
  assert (I3' : NoDup (keys (s_in (sess s')))).
  { destruct Hs as [->|p ->| ->]; [exact I3| |constructor].
    unfold store_save. destruct (get_id p); [apply nodup_put, I3|exact I3]. }
  unfold inv_c07.
  destruct Hc as [->|k a Hf ->]; [repeat split; assumption|].
  repeat split; [| |exact I3'].
  - unfold ckeys. rewrite map_app. cbn [map c_k]. apply NoDup_app_intro_single; [exact I1|].
    intros Hin. apply in_map_iff in Hin. destruct Hin as (c & Ek & Hin). eapply clo_find_none; eassumption.
  - intros c1 c2 g H1 H2 E1 E2. apply in_app_iff in H1, H2. cbn [In] in H1, H2.
    destruct H1 as [H1|[<-|[]]]; [|discriminate E1]. destruct H2 as [H2|[<-|[]]]; [|discriminate E2].
    eapply I2; eassumption.
Qed.

Lemma inv_c07_step s e s' : inv_c07 s -> step s e = Some s' -> inv_c07 s'.
Proof.
  apply sweep; clear s e s'.
  - intros s p d a c H. exact H.
  - intros s H _. exact H.
  - intros s H. exact H.
  - exact inv_c07_clo.
  - exact inv_c07_proc.
  - intros s e s' H Hd. destruct (step_deq_frame _ _ _ Hd) as (Hs & Hc & _). unfold inv_c07. rewrite Hs, Hc. exact H.
  - intros s e s' H Ha. destruct (step_ack_shape _ _ _ Ha) as (a & dy & t1 & t2 & t3 & q & ->). exact H.
  - intros s e s' H Hl. destruct (step_cleanup_shape _ _ _ Hl) as (p & d & a & l & -> & _). exact H.
Qed.
