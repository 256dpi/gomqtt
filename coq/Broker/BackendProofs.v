(* BackendProofs.v — basic facts: boolean equalities, association lists, and
   MatchFirst (`pick`) against the MQTT matching relation. *)
From Coq Require Import List NArith Bool Lia.
From Coq.Strings Require Import Byte.
From GM Require Export Codec.PacketEqb.
From GM Require Import Codec.Packet Topic.MatchSpec Topic.Levels Broker.Backend Broker.BackendSpec.
Import ListNotations.
Open Scope N_scope.

(* ------------------------------------------------------------------ boolean equalities *)
Lemma bytes_eqb_eq a b : bytes_eqb a b = true <-> a = b.
Proof. split; [apply PacketEqb.bytes_eqb_eq|intros ->; apply bytes_eqb_refl]. Qed.
Lemma bytes_eqb_neq a b : bytes_eqb a b = false <-> a <> b.
Proof. rewrite <- bytes_eqb_eq. destruct (bytes_eqb a b); split; congruence. Qed.

Lemma n_eqb_eq (a b : N) : (a =? b) = true <-> a = b.
Proof. apply N.eqb_eq. Qed.

Lemma message_eqb_eq a b : message_eqb a b = true <-> a = b.
Proof. split; [apply PacketEqb.message_eqb_eq|intros ->; apply PacketEqb.message_eqb_refl]. Qed.
Lemma message_eqb_refl a : message_eqb a a = true.
Proof. apply PacketEqb.message_eqb_refl. Qed.

Lemma msgs_eqb_eq a b : msgs_eqb a b = true <-> a = b.
Proof. split; [apply list_eqb_eq, PacketEqb.message_eqb_eq|intros ->; apply list_eqb_refl, message_eqb_refl]. Qed.
Lemma msgs_eqb_refl a : msgs_eqb a a = true.
Proof. apply msgs_eqb_eq; reflexivity. Qed.

Lemma sub_eqb_refl (a : sub) : sub_eqb a a = true.
Proof. unfold sub_eqb. rewrite bytes_eqb_refl, N.eqb_refl. reflexivity. Qed.
Lemma subs_eqb_eq a b : subs_eqb a b = true <-> a = b.
Proof. split; [apply list_eqb_eq, PacketEqb.sub_eqb_eq|intros ->; apply list_eqb_refl, sub_eqb_refl]. Qed.
Lemma subs_eqb_refl a : subs_eqb a a = true.
Proof. apply subs_eqb_eq; reflexivity. Qed.

Lemma n_opt_eqb_eq (x y : option N) : option_eqb N.eqb x y = true <-> x = y.
Proof. split; [apply option_eqb_eq; intros a b; apply N.eqb_eq|intros ->; apply option_eqb_refl, N.eqb_refl]. Qed.
Lemma n_opt_eqb_refl (a : option N) : option_eqb N.eqb a a = true.
Proof. apply n_opt_eqb_eq; reflexivity. Qed.
Lemma msg_opt_eqb_refl (a : option message) : option_eqb message_eqb a a = true.
Proof. apply option_eqb_refl, message_eqb_refl. Qed.

Lemma session_eqb_refl a : session_eqb a a = true.
Proof. unfold session_eqb. rewrite subs_eqb_refl, !msgs_eqb_refl, n_opt_eqb_refl. reflexivity. Qed.

Lemma skey_eqb_eq a b : skey_eqb a b = true <-> a = b.
Proof.
  destruct a as [c|i], b as [c'|i']; cbn [skey_eqb]; try (split; [discriminate|discriminate]).
  - rewrite N.eqb_eq. split; [intros ->; reflexivity|intros H; injection H; auto].
  - rewrite bytes_eqb_eq. split; [intros ->; reflexivity|intros H; injection H; auto].
Qed.

(* ------------------------------------------------------------------ association lists *)
Section AssocFacts.
  Context {K V : Type} (eqb : K -> K -> bool).
  Hypothesis eqb_eq : forall a b, eqb a b = true <-> a = b.

  Lemma eqb_refl' a : eqb a a = true. Proof. apply eqb_eq; reflexivity. Qed.
  Lemma eqb_neq' a b : a <> b -> eqb a b = false.
  Proof. intros H. destruct (eqb a b) eqn:E; [apply eqb_eq in E; contradiction|reflexivity]. Qed.
  Lemma eqb_sym' a b : eqb a b = eqb b a.
  Proof.
    destruct (eqb a b) eqn:E; [apply eqb_eq in E; subst; symmetry; apply eqb_refl'|].
    destruct (eqb b a) eqn:E2; [|reflexivity]. apply eqb_eq in E2; subst. rewrite eqb_refl' in E; discriminate.
  Qed.

  Lemma alookup_aset (k k' : K) (v : V) l :
    alookup eqb k' (aset eqb k v l) = if eqb k' k then Some v else alookup eqb k' l.
  Proof.
    induction l as [|[k0 v0] l IH]; cbn [aset alookup]; [reflexivity|].
    destruct (eqb k k0) eqn:E.
    - apply eqb_eq in E; subst k0. cbn [alookup]. destruct (eqb k' k); reflexivity.
    - cbn [alookup]. destruct (eqb k' k0) eqn:E2.
      + apply eqb_eq in E2; subst k0. destruct (eqb k' k) eqn:E3; [|reflexivity].
        apply eqb_eq in E3; subst k'. rewrite eqb_refl' in E; discriminate.
      + exact IH.
  Qed.

  Lemma alookup_aremove (k k' : K) (l : list (K * V)) :
    alookup eqb k' (aremove eqb k l) = if eqb k' k then None else alookup eqb k' l.
  Proof.
    induction l as [|[k0 v0] l IH]; cbn [aremove alookup]; [destruct (eqb k' k); reflexivity|].
    destruct (eqb k k0) eqn:E.
    - apply eqb_eq in E; subst k0. rewrite IH. destruct (eqb k' k); reflexivity.
    - cbn [alookup]. destruct (eqb k' k0) eqn:E2; [|exact IH].
      apply eqb_eq in E2; subst k0. destruct (eqb k' k) eqn:E3; [|reflexivity].
      apply eqb_eq in E3; subst k'. rewrite eqb_refl' in E; discriminate.
  Qed.

  Lemma alookup_In k (v : V) l : alookup eqb k l = Some v -> In (k, v) l.
  Proof.
    induction l as [|[k0 v0] l IH]; cbn [alookup]; [discriminate|].
    destruct (eqb k k0) eqn:E; [apply eqb_eq in E; subst k0; intros H; injection H as ->; left; reflexivity|right; auto].
  Qed.

  Lemma In_alookup k (v : V) l : NoDup (map fst l) -> In (k, v) l -> alookup eqb k l = Some v.
  Proof.
    induction l as [|[k0 v0] l IH]; cbn [alookup map fst]; [intros _ []|].
    intros ND [H|H].
    - injection H as -> ->. rewrite eqb_refl'; reflexivity.
    - inversion ND as [|? ? Hn ND']; subst. destruct (eqb k k0) eqn:E; [|auto].
      apply eqb_eq in E; subst k0. exfalso; apply Hn. change k with (fst (k, v)); apply in_map; exact H.
  Qed.

  Lemma alookup_None k (l : list (K * V)) : alookup eqb k l = None -> ~ In k (map fst l).
  Proof.
    induction l as [|[k0 v0] l IH]; cbn [alookup map fst]; [intros _ []|].
    destruct (eqb k k0) eqn:E; [discriminate|]. intros H [H1|H1]; [subst; rewrite eqb_refl' in E; discriminate|exact (IH H H1)].
  Qed.

  Lemma keys_aset k (v : V) l x : In x (map fst (aset eqb k v l)) <-> x = k \/ In x (map fst l).
  Proof.
    induction l as [|[k0 v0] l IH]; cbn [aset map fst In]; [intuition|].
    destruct (eqb k k0) eqn:E.
    - apply eqb_eq in E; subst k0. cbn [map fst In]. intuition.
    - cbn [map fst In]. rewrite IH. intuition.
  Qed.

  Lemma nodup_aset k (v : V) l : NoDup (map fst l) -> NoDup (map fst (aset eqb k v l)).
  Proof.
    induction l as [|[k0 v0] l IH]; cbn [aset map fst]; intros ND.
    - constructor; [intros []|constructor].
    - inversion ND as [|? ? Hn ND']; subst. destruct (eqb k k0) eqn:E.
      + apply eqb_eq in E; subst k0. cbn [map fst]. constructor; assumption.
      + cbn [map fst]. constructor; [|auto].
        rewrite keys_aset. intros [->|H]; [rewrite eqb_refl' in E; discriminate|contradiction].
  Qed.

  Lemma keys_aremove k (l : list (K * V)) x : In x (map fst (aremove eqb k l)) <-> x <> k /\ In x (map fst l).
  Proof.
    induction l as [|[k0 v0] l IH]; cbn [aremove map fst In]; [intuition|].
    destruct (eqb k k0) eqn:E.
    - apply eqb_eq in E; subst k0. rewrite IH. intuition congruence.
    - cbn [map fst In]. rewrite IH. split; [intros [->|[H1 H2]]|intros [H1 [H2|H2]]]; auto.
      split; [intros ->; rewrite eqb_refl' in E; discriminate|left; reflexivity].
  Qed.

  Lemma nodup_aremove k (l : list (K * V)) : NoDup (map fst l) -> NoDup (map fst (aremove eqb k l)).
  Proof.
    induction l as [|[k0 v0] l IH]; cbn [aremove map fst]; intros ND; [constructor|].
    inversion ND as [|? ? Hn ND']; subst. destruct (eqb k k0); [auto|].
    cbn [map fst]. constructor; [|auto]. rewrite keys_aremove. intros [_ H]; contradiction.
  Qed.

  Lemma alookup_map (g : K -> V -> V) k l :
    alookup eqb k (map (fun e => (fst e, g (fst e) (snd e))) l) = option_map (g k) (alookup eqb k l).
  Proof.
    induction l as [|[k0 v0] l IH]; cbn [map alookup fst snd option_map]; [reflexivity|].
    destruct (eqb k k0) eqn:E; [apply eqb_eq in E; subst k0; reflexivity|exact IH].
  Qed.

  Lemma keys_map (g : K -> V -> V) (l : list (K * V)) :
    map fst (map (fun e => (fst e, g (fst e) (snd e))) l) = map fst l.
  Proof. rewrite map_map; cbn [fst]; reflexivity. Qed.
End AssocFacts.

Lemma skey_eqb_refl k : skey_eqb k k = true.
Proof. apply (eqb_refl' skey_eqb skey_eqb_eq). Qed.
Lemma skey_eqb_sym a b : skey_eqb a b = skey_eqb b a.
Proof. apply (eqb_sym' skey_eqb skey_eqb_eq). Qed.
Lemma bytes_eqb_sym a b : bytes_eqb a b = bytes_eqb b a.
Proof. apply (eqb_sym' bytes_eqb bytes_eqb_eq). Qed.

Lemma nodup_keys_iff {V} (l : list (bytes * V)) : nodup_keys l = true <-> NoDup (map fst l).
Proof.
  induction l as [|[k v] l IH]; cbn [nodup_keys map fst]; [split; [constructor|reflexivity]|].
  rewrite andb_true_iff, negb_true_iff, IH. split.
  - intros [H ND]; constructor; [|exact ND]. intros Hin. apply in_map_iff in Hin as [[k' v'] [E Hin]]; cbn in E; subst k'.
    assert (X : existsb (fun x => bytes_eqb k (fst x)) l = true)
      by (apply existsb_exists; exists (k, v'); split; [exact Hin|apply bytes_eqb_refl]).
    congruence.
  - intros ND; inversion ND as [|? ? Hn ND']; subst. split; [|exact ND'].
    destruct (existsb (fun x => bytes_eqb k (fst x)) l) eqn:E; [|reflexivity].
    apply existsb_exists in E as [[k' v'] [Hin E]]; cbn in E. apply bytes_eqb_eq in E; subst k'.
    exfalso; apply Hn. change k with (fst (k, v')); apply in_map; exact Hin.
Qed.

(* ------------------------------------------------------------------ MatchFirst finds a matching filter iff there is one *)
Lemma find_some_In {A} (p : A -> bool) l x : find p l = Some x -> In x l /\ p x = true.
Proof. apply find_some. Qed.

Lemma in_step_plus {A} (subs : list (list level * A)) t a :
  In (t, a) (step_plus subs) <-> exists h, is_plus h = true /\ In (h :: t, a) subs.
Proof.
  unfold step_plus. rewrite in_flat_map. split.
  - intros [[fs a'] [Hin H]]; cbn [fst snd] in H. destruct fs as [|h t']; [destruct H|].
    destruct (is_plus h) eqn:E; [|destruct H]. destruct H as [H|[]]; injection H as -> ->. exists h; auto.
  - intros [h [E Hin]]. exists (h :: t, a); split; [exact Hin|]. cbn [fst snd]. rewrite E; left; reflexivity.
Qed.

Lemma in_step_lit {A} l (subs : list (list level * A)) t a :
  In (t, a) (step_lit l subs) <-> In (l :: t, a) subs.
Proof.
  unfold step_lit. rewrite in_flat_map. split.
  - intros [[fs a'] [Hin H]]; cbn [fst snd] in H. destruct fs as [|h t']; [destruct H|].
    destruct (level_eqb h l) eqn:E; [|destruct H]. destruct H as [H|[]]; injection H as -> ->.
    apply level_eqb_eq in E; subst h; exact Hin.
  - intros Hin. exists (l :: t, a); split; [exact Hin|]. cbn [fst snd].
    replace (level_eqb l l) with true by (symmetry; apply level_eqb_eq; reflexivity). left; reflexivity.
Qed.

Lemma only_hash_matches f n : only_hash f = true -> matches f n = true.
Proof.
  destruct f as [|l [|l' f]]; cbn [only_hash]; try discriminate. intros H.
  cbn [matches]. rewrite H. reflexivity.
Qed.

Lemma pick_sound {A} (n : list level) : forall (subs : list (list level * A)) a,
  pick n subs = Some a -> exists f, In (f, a) subs /\ matches f n = true.
Proof.
  induction n as [|l n IH]; intros subs a; cbn [pick].
  - destruct (find (fun e => only_hash (fst e)) subs) as [[f a']|] eqn:F.
    + intros H; injection H as <-. apply find_some in F as [Hin Hh]. exists f; split; [exact Hin|apply only_hash_matches; exact Hh].
    + destruct (find (fun e => is_nil (fst e)) subs) as [[f a']|] eqn:F2; cbn [option_map]; [|discriminate].
      intros H; injection H as <-. apply find_some in F2 as [Hin Hn]. cbn [fst] in Hn. destruct f; [|discriminate].
      exists []; split; [exact Hin|reflexivity].
  - destruct (find (fun e => only_hash (fst e)) subs) as [[f a']|] eqn:F.
    + intros H; injection H as <-. apply find_some in F as [Hin Hh]. exists f; split; [exact Hin|apply only_hash_matches; exact Hh].
    + destruct (if is_plus l || is_hash l then None else pick n (step_lit l subs)) as [r|] eqn:E1.
      * intros H; injection H as <-. destruct (is_plus l || is_hash l); [discriminate|].
        apply IH in E1 as [f [Hin Hm]]. apply in_step_lit in Hin.
        exists (l :: f); split; [exact Hin|]. cbn [matches].
        assert (X : level_eqb l l = true) by (apply level_eqb_eq; reflexivity).
        rewrite X, orb_true_r, Hm. destruct (is_hash l && _); reflexivity.
      * intros H. apply IH in H as [f [Hin Hm]]. apply in_step_plus in Hin as [h [Hp Hin]].
        exists (h :: f); split; [exact Hin|]. cbn [matches]. rewrite Hp, Hm. destruct (is_hash h && _); reflexivity.
Qed.

Lemma is_plus_not_hash l : is_plus l = true -> is_hash l = false.
Proof.
  unfold is_plus, is_hash. intros H. apply level_eqb_eq in H; subst l. reflexivity.
Qed.

Lemma pick_complete {A} (n : list level) : forall (subs : list (list level * A)) f a,
  forallb (fun l => negb (is_hash l)) n = true ->
  In (f, a) subs -> matches f n = true -> pick n subs <> None.
Proof.
  induction n as [|l n IH]; intros subs f a Hn Hin Hm; cbn [pick].
  - destruct (find (fun e => only_hash (fst e)) subs) as [e|] eqn:F; [discriminate|].
    assert (Hh := find_none _ _ F _ Hin); cbn [fst] in Hh.
    destruct f as [|h f'].
    + destruct (find (fun e => is_nil (fst e)) subs) as [e|] eqn:F2; [cbn; discriminate|].
      assert (X := find_none _ _ F2 _ Hin); cbn in X; discriminate.
    + cbn [matches] in Hm. destruct f' as [|h' f'']; cbn [only_hash] in Hh.
      * rewrite Hh in Hm; cbn in Hm; discriminate.
      * rewrite andb_false_r in Hm; discriminate.
  - destruct (find (fun e => only_hash (fst e)) subs) as [e|] eqn:F; [discriminate|].
    assert (Hh := find_none _ _ F _ Hin); cbn [fst] in Hh.
    cbn [forallb] in Hn. apply andb_true_iff in Hn as [Hl Hn]. apply negb_true_iff in Hl.
    destruct f as [|h f']; [cbn in Hm; discriminate|].
    cbn [matches] in Hm.
    assert (Hm' : (is_plus h || level_eqb h l) && matches f' n = true).
    { destruct (is_hash h && match f' with [] => true | _ :: _ => false end) eqn:E; [|exact Hm].
      apply andb_true_iff in E as [E1 E2]. destruct f'; [|discriminate]. cbn [only_hash] in Hh. congruence. }
    apply andb_true_iff in Hm' as [Hhl Hm'].
    destruct (is_plus h) eqn:Hp.
    + (* the '+' subtree reports something; whatever the literal subtree does, the result is Some *)
      assert (X : pick n (step_plus subs) <> None).
      { apply (IH _ f' a Hn); [apply in_step_plus; exists h; auto|exact Hm']. }
      destruct (if is_plus l || is_hash l then None else pick n (step_lit l subs)); [discriminate|exact X].
    + cbn [orb] in Hhl. apply level_eqb_eq in Hhl; subst h. rewrite Hp, Hl. cbn [orb].
      assert (X : pick n (step_lit l subs) <> None).
      { apply (IH _ f' a Hn); [apply in_step_lit; exact Hin|exact Hm']. }
      destruct (pick n (step_lit l subs)); [discriminate|contradiction].
Qed.

Lemma pick_sub_sound subs t s :
  pick_sub subs t = Some s -> In s subs /\ topic_matches (fst s) t = true.
Proof.
  unfold pick_sub. intros H. apply pick_sound in H as [f [Hin Hm]].
  apply in_map_iff in Hin as [s' [E Hin]]. injection E as <- ->. split; [exact Hin|exact Hm].
Qed.

Lemma pick_sub_complete subs t s :
  name_ok t = true -> In s subs -> topic_matches (fst s) t = true -> pick_sub subs t <> None.
Proof.
  unfold pick_sub, name_ok. intros Hn Hin Hm.
  apply (pick_complete _ _ (split_levels (fst s)) s Hn); [|exact Hm].
  apply in_map_iff. exists s; auto.
Qed.

(* lookupSubscription(topic) != nil  <->  the session holds a matching filter *)
Lemma pick_sub_has_match subs t :
  name_ok t = true -> is_some (pick_sub subs t) = has_match subs t.
Proof.
  intros Hn. unfold has_match. destruct (pick_sub subs t) as [s|] eqn:E; cbn [is_some].
  - apply pick_sub_sound in E as [Hin Hm]. symmetry. apply existsb_exists. exists s; auto.
  - destruct (existsb (fun s => topic_matches (fst s) t) subs) eqn:X; [|reflexivity].
    apply existsb_exists in X as [s [Hin Hm]]. exfalso. exact (pick_sub_complete subs t s Hn Hin Hm E).
Qed.
