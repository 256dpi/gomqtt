(* ConnProofsC4.v — C16: the inflight window.
   c16_bound is FALSE of the model (and of the code): on a resumed connection every
   stored packet is re-sent, "continue if depleted" (client.go:607-630), so the bound
   is exceeded whenever the outgoing store holds more packets than the window of the
   new connection (ConnProofsCTraces.tr_c16_shrink).
   c16_bound holds of every accepted trace on which, at each resume, the store lists
   at most W packets (c16_resume_fits). *)
From Coq Require Import List NArith Bool Lia ZArith ZifyN ZifyNat ZifyBool.
From GM Require Import Base.Lts Codec.Packet Session.Ids Session.Store Session.StoreProofs
  Broker.Conn Broker.ConnSpec Broker.ConnBase Broker.ConnProofsCDefs Broker.ConnProofsC0 Broker.ConnProofsC1 Broker.ConnProofsCTraces.
Import ListNotations.
Open Scope N_scope.

(* ------------------------------------------------------------ the relation *)

Definition pre_setup (p : ppc) : bool :=
  match p with PFirst | PAuth _ | PDeny | PSetup _ => true | _ => false end.
(* phases of a connection in which nothing can be in flight yet *)
Definition early (p : ppc) : bool :=
  match p with PFirst | PAuth _ | PDeny | PSetup _ | PConnack _ _ | PAll => true | _ => false end.

Definition is_setup_ok (e : event) : bool := match e with ESetup _ (SOk _ _ _ _ _) => true | _ => false end.

(* the window as a function of the event *)
Definition next_w (w : N) (e : event) : N :=
  match e with ENewConn => 0 | ESetup _ (SOk _ _ w' _ _) => w' | _ => w end.

Lemma next_w_dull w e : dull e = true -> next_w w e = w.
Proof. intros H. by_dull e H. Qed.

Lemma step_proc_cw s e s' : step_proc s e = Some s' -> cw s' = next_w (cw s) e.
Proof.
  intros H. destruct (step_proc_inv _ _ _ H); subst; try destruct ok; try destruct r; try reflexivity.
  - destruct H0 as [->| ->]; reflexivity.
  - rewrite next_w_dull by exact He. apply (sc_cw _ _ Hc).
Qed.

Lemma step_deq_cw s e s' : dp_shape (dp s) -> step_deq s e = Some s' -> cw s' = next_w (cw s) e.
Proof.
  intros Hsh H. destruct (step_deq_inv _ _ _ Hsh H); subst; try destruct ok; try destruct (m_qos m =? 0); reflexivity.
Qed.

Lemma step_proc_setup s e s' : step_proc s e = Some s' -> is_setup_ok e = true ->
  exists g c r fresh w p b, pp s = PSetup c /\ e = ESetup g (SOk r fresh w p b) /\ 0 < w /\ s' = setup_st s c r fresh w p b.
Proof.
  intros H Ese. destruct (step_proc_inv _ _ _ H); subst; try discriminate Ese.
  - exists g, c, r, fresh, w, p, b. repeat split; assumption.
  - destruct e; try discriminate Ese. destruct r; [discriminate Ese|discriminate He].
Qed.

Lemma setup_dp_off s c : INV s -> pp s = PSetup c -> dp s = DOff.
Proof. intros HI Hp. apply (I_pre _ HI). rewrite Hp. reflexivity. Qed.

(* the hypothesis scanner of c16_resume_fits knows the window *)
Definition RA (s : bc) (u : N) : Prop := u = cw s.

Lemma rf_step_w u e u' : rf_step u e = Some u' -> u' = next_w u e.
Proof.
  destruct e; cbn [rf_step next_w]; intros H; try (injection H as <-; reflexivity).
  - destruct r; injection H as <-; reflexivity.
  - destruct d; try (injection H as <-; reflexivity). destruct r as [ps|]; [|injection H as <-; reflexivity].
    destruct (N.of_nat (length ps) <=? u); [injection H as <-; reflexivity|discriminate].
Qed.

(* what a resume needs: the listing fits the window *)
Definition fits (s : bc) (e : event) : Prop :=
  forall g ps, e = EAll g Outgoing (Some ps) -> N.of_nat (length ps) <= cw s.

Lemma fits_of_rf s u e u' : RA s u -> rf_step u e = Some u' -> fits s e.
Proof.
  unfold RA. intros -> H g ps ->. cbn [rf_step] in H.
  destruct (N.leb_spec (N.of_nat (length ps)) (cw s)) as [Hle|]; [exact Hle|discriminate].
Qed.

(* always: the scanner knows the window, and nothing is in flight in the early phases *)
Definition RW (s : bc) (t : wb_st) : Prop := wb_w t = cw s /\ (early (pp s) = true -> wb_fl t = []).

Lemma wb_step_w t e t' : wb_step t e = Some t' -> wb_w t' = next_w (wb_w t) e.
Proof.
  destruct e; cbn [wb_step next_w]; intros H; try (injection H as <-; reflexivity).
  - destruct p; try (injection H as <-; reflexivity);
      destruct (nmem id (wb_fl t)); injection H as <-; reflexivity.
  - destruct p; try (injection H as <-; reflexivity).
    + destruct ok; [|injection H as <-; reflexivity]. destruct (m_qos m =? 0); [injection H as <-; reflexivity|].
      match type of H with (if ?b then _ else _) = _ => destruct b end; [injection H as <-; reflexivity|discriminate].
    + destruct ok; [|injection H as <-; reflexivity].
      match type of H with (if ?b then _ else _) = _ => destruct b end; [injection H as <-; reflexivity|discriminate].
  - destruct r; injection H as <-; reflexivity.
Qed.

(* the in-flight list stays empty under every event but a successful PUBLISH / PUBREL send *)
Definition tx_counted (e : event) : bool :=
  match e with ETx _ (Publish _ _ _) _ true | ETx _ (Pubrel _) _ true => true | _ => false end.

Lemma wb_step_fl_nil t e t' : wb_step t e = Some t' -> wb_fl t = [] -> tx_counted e = false -> wb_fl t' = [].
Proof.
  intros H Hn Hc. destruct e; cbn [wb_step] in H; try (injection H as <-; exact Hn).
  - reflexivity || (injection H as <-; reflexivity).
  - destruct p; try (injection H as <-; exact Hn); rewrite Hn in H; cbn [nmem existsb] in H; injection H as <-; first [exact Hn|reflexivity].
  - destruct p; try (injection H as <-; exact Hn); destruct ok; try discriminate Hc; injection H as <-; exact Hn.
  - destruct r; injection H as <-; exact Hn.
Qed.

Lemma wb_dull t e : dull e = true -> wb_step t e = Some t.
Proof. intros H. by_dull e H. Qed.

Lemma early_pre x : early x = true -> pre_loop x = true.
Proof. destruct x; try discriminate; reflexivity. Qed.

Lemma step_proc_early s e s' : step_proc s e = Some s' -> early (pp s') = true ->
  early (pp s) = true /\ tx_counted e = false.
Proof.
  intros H. destruct (step_proc_inv _ _ _ H); subst; try destruct ok; rewrite ?Hpp; bcs; try (intros _; split; reflexivity).
  all: try discriminate.
  - unfold resend_next. destruct rest; discriminate.
  - intros Hy. apply early_pre in Hy. rewrite (rx_not_pre _ _ Hx) in Hy. discriminate.
  - intros Hy. apply early_pre in Hy. rewrite (loop_not_pre _ Hx) in Hy. discriminate.
Qed.

Lemma RW_proc s t e s' t' : RW s t -> step_proc s e = Some s' -> wb_step t e = Some t' -> RW s' t'.
Proof.
  intros [Hw Hfl] H Ht. split; [rewrite (step_proc_cw _ _ _ H), (wb_step_w _ _ _ Ht), Hw; reflexivity|].
  intros He. destruct (step_proc_early _ _ _ H He) as [He0 Hc]. eapply wb_step_fl_nil; [exact Ht|apply Hfl, He0|exact Hc].
Qed.

Lemma RW_same s s' t : same_pd s s' -> RW s t -> RW s' t.
Proof. intros Hs HW. unfold RW. rewrite (sp_cw _ _ Hs), (sp_pp _ _ Hs). exact HW. Qed.

Lemma RW_frozen s s' t : frozen s s' -> RW s t -> RW s' t.
Proof. intros Hf [HW _]. unfold RW. rewrite (fz_cw _ _ Hf), (fz_pp _ _ Hf). split; [exact HW|discriminate]. Qed.

(* the dequeuer does not run in the early phases *)
Lemma RW_deq s t e s' t' : INV s -> RW s t -> step_deq s e = Some s' -> wb_step t e = Some t' -> RW s' t'.
Proof.
  intros HI [Hw Hfl] H Ht. split; [rewrite (step_deq_cw _ _ _ (I_shape _ HI) H), (wb_step_w _ _ _ Ht), Hw; reflexivity|].
  destruct (step_deq_proc_view _ _ _ H (I_shape _ HI)) as (Ep & _). rewrite Ep. intros He. apply early_pre in He.
  rewrite (deq_not_pre _ _ _ HI H) in He. discriminate.
Qed.

(* unless the peer sent a spurious acknowledgement in this session:
   |in flight| + free slots + slot held by the dequeuer + slot about to be returned <= W *)
Definition rb_phase (x : ppc) (fl : list N) (w : N) : Prop :=
  match x with
  | PResend rest => N.of_nat (length fl) + N.of_nat (length rest) <= w
  | PRecSave id | PRelTx id => nmem id fl = true
  | _ => True
  end.

Definition RB (s : bc) (t : wb_st) : Prop :=
  wb_spur t = true \/
  (N.of_nat (length (wb_fl t)) + tdeq s + held (dp s) + credit (pp s) <= cw s /\ rb_phase (pp s) (wb_fl t) (cw s)).

Lemma wb_step_spur t e : wb_spur t = true -> is_setup_ok e = false ->
  exists t', wb_step t e = Some t' /\ wb_spur t' = true.
Proof.
  intros Hs Hne. destruct e; try discriminate Hne; try (eexists; split; [reflexivity|exact Hs]).
  - (* ERx *) destruct p; try (eexists; split; [reflexivity|exact Hs]);
      cbn [wb_step]; destruct (nmem id (wb_fl t)); eexists; (split; [reflexivity|]); try exact Hs; reflexivity.
  - (* ETx *) destruct p; try (eexists; split; [reflexivity|exact Hs]).
    + destruct ok; [|eexists; split; [reflexivity|exact Hs]].
      cbn [wb_step]. destruct (m_qos m =? 0); [eexists; split; [reflexivity|exact Hs]|].
      rewrite Hs. cbn [orb]. eexists; split; [reflexivity|reflexivity].
    + destruct ok; [|eexists; split; [reflexivity|exact Hs]].
      cbn [wb_step]. rewrite Hs. cbn [orb]. eexists; split; [reflexivity|reflexivity].
  - (* ESetup *) destruct r; [eexists; split; [reflexivity|exact Hs]|discriminate Hne].
Qed.

Lemma step_proc_newconn s : step_proc s ENewConn = None.
Proof. unfold step_proc. destruct (pp s) as [| | | | | |ps| | | | | | | | | | | | | | | | | | | | | |]; cbv beta iota; try reflexivity. destruct ps; reflexivity. Qed.

(* the scanner's reaction to a received packet: an acknowledgement of an id in flight frees its place,
   a PUBREC of one leaves it there, any other acknowledgement is spurious *)
Definition ack_credit (p : packet) : N := match p with Puback _ | Pubcomp _ => 1 | _ => 0 end.

Lemma wb_rx t g p : exists t', wb_step t (ERx g p) = Some t' /\
  (wb_spur t' = true \/
   (wb_w t' = wb_w t /\ N.of_nat (length (wb_fl t')) + ack_credit p <= N.of_nat (length (wb_fl t)) /\
    (forall x, nmem x (wb_fl t') = true -> nmem x (wb_fl t) = true) /\
    forall id, p = Pubrec id -> nmem id (wb_fl t') = true)).
Proof.
  destruct p; cbn [wb_step ack_credit];
    try (exists t; split; [reflexivity|right; repeat split; [lia|auto|discriminate]]);
    destruct (nmem id (wb_fl t)) eqn:En; (eexists; split; [reflexivity|]); try (left; reflexivity); right; cbn [wb_w wb_fl].
  (* PUBACK and PUBCOMP alike: the id leaves the list *)
  1, 3: pose proof (nremove1_length _ _ En); repeat split;
    [lia|intros x Hx; apply nmem_true_iff in Hx; apply nmem_true_iff; eapply in_nremove1, Hx|discriminate].
  repeat split; [lia|auto|]. intros id0 E. injection E as <-. exact En.
Qed.

Lemma wb_ack t g p id : p = Puback id \/ p = Pubcomp id ->
  wb_step t (ERx g p) = Some (if nmem id (wb_fl t) then WbSt (wb_w t) (nremove1 id (wb_fl t)) (wb_spur t)
                              else WbSt (wb_w t) (wb_fl t) true).
Proof. intros [->| ->]; cbn [wb_step]; destruct (nmem id (wb_fl t)); reflexivity. Qed.

(* the packets that count as in flight once sent *)
Definition counted_id (p : packet) : option N :=
  match p with
  | Publish _ m id => if m_qos m =? 0 then None else Some id
  | Pubrel id => Some id
  | _ => None
  end.

Definition fl_add (id : N) (fl : list N) : list N := if nmem id fl then fl else id :: fl.

Lemma fl_add_length id fl : (length (fl_add id fl) <= S (length fl))%nat.
Proof. unfold fl_add. destruct (nmem id fl); cbn [length]; lia. Qed.

Lemma wb_tx_ok t g p a :
  wb_step t (ETx g p a true) =
  match counted_id p with
  | None => Some t
  | Some id => if wb_spur t || (N.of_nat (length (fl_add id (wb_fl t))) <=? wb_w t)
               then Some (WbSt (wb_w t) (fl_add id (wb_fl t)) (wb_spur t)) else None
  end.
Proof.
  destruct p; cbn [wb_step counted_id]; try reflexivity.
  destruct (m_qos m =? 0); reflexivity.
Qed.

Lemma wb_tx_fail t g p a : wb_step t (ETx g p a false) = Some t.
Proof. destruct p; reflexivity. Qed.

Lemma wb_tx_plain t g p a ok : counted_id p = None -> wb_step t (ETx g p a ok) = Some t.
Proof. intros Hc. destruct ok; [rewrite wb_tx_ok, Hc; reflexivity|apply wb_tx_fail]. Qed.

Lemma wb_tx_fits t g p a id : counted_id p = Some id -> N.of_nat (length (fl_add id (wb_fl t))) <= wb_w t ->
  wb_step t (ETx g p a true) = Some (WbSt (wb_w t) (fl_add id (wb_fl t)) (wb_spur t)).
Proof. intros Hc Hb. rewrite wb_tx_ok, Hc. apply N.leb_le in Hb. rewrite Hb, orb_true_r. reflexivity. Qed.

Lemma counted_set_dup p : counted_id (set_dup p) = counted_id p.
Proof. destruct p; reflexivity. Qed.

Lemma own_reply_not_counted x p : own_reply x p -> counted_id p = None.
Proof. destruct x, p; try contradiction; reflexivity. Qed.

Lemma ack_not_counted p : is_ack_packet p = true -> counted_id p = None.
Proof. destruct p; try discriminate; reflexivity. Qed.

Lemma loop_pc_rb x fl w : loop_pc x = true -> credit x = 0 /\ rb_phase x fl w.
Proof. destruct x; try discriminate; intros _; split; reflexivity || exact I. Qed.

Lemma rx_pc_rb p x fl w : rx_pc p x -> (forall id, p = Pubrec id -> nmem id fl = true) ->
  credit x <= ack_credit p /\ rb_phase x fl w.
Proof.
  intros Hx Hr. destruct p; cbn [rx_pc] in Hx; try (destruct (loop_pc_rb x fl w Hx) as [-> ?]; split; [apply N.le_0_l|assumption]);
    subst x; cbn [credit ack_credit rb_phase]; split; try exact I; try lia. apply Hr. reflexivity.
Qed.

Lemma RB_frame s s' t :
  cw s' = cw s -> tdeq s' = tdeq s -> held (dp s') <= held (dp s) -> credit (pp s') <= credit (pp s) ->
  (rb_phase (pp s) (wb_fl t) (cw s) -> rb_phase (pp s') (wb_fl t) (cw s)) -> RB s t -> RB s' t.
Proof.
  intros Ec Et Eh Ep Hph [Hsp|(Hineq & Hpc)]; [left; exact Hsp|right].
  rewrite Ec, Et. split; [lia|apply Hph, Hpc].
Qed.

(* Setup starts the accounting afresh, whatever happened before *)
Lemma RB_setup (s : bc) (t : wb_st) (c : connect) (g : N) (resumed fresh : bool) (w p b : N) :
  INV s -> RW s t -> pp s = PSetup c ->
  RB (setup_st s c resumed fresh w p b) (WbSt w (wb_fl t) (if fresh then false else wb_spur t)).
Proof.
  intros HI [_ Hfl] Hp.
  assert (Hn : wb_fl t = []) by (apply Hfl; rewrite Hp; reflexivity).
  pose proof (setup_dp_off _ _ HI Hp) as Hd.
  right. unfold setup_st. destruct fresh; bcs; cbn [wb_fl credit rb_phase]; rewrite Hn, Hd; cbn [held deq_busy length]; split; try exact I; lia.
Qed.

Lemma RB_proc s t e s' : INV s -> RW s t -> RB s t -> step_proc s e = Some s' -> wb_spur t = true \/ fits s e ->
  exists t', wb_step t e = Some t' /\ RB s' t'.
Proof.
  intros HI HW HR H Hh. pose proof HW as [Hw Hfl]. pose proof (I_pre _ HI) as Hpre.
  destruct (wb_spur t) eqn:Esp.
  { (* the peer is excused, until a fresh session *)
    destruct (is_setup_ok e) eqn:Ese.
    - destruct (step_proc_setup _ _ _ H Ese) as (g & c & r & fresh & w & p & b & Hpp & -> & _ & ->).
      eexists. split; [reflexivity|]. apply (RB_setup s t c g r fresh w p b HI HW Hpp).
    - destruct (wb_step_spur t e Esp Ese) as (t' & E & Hsp'). exists t'. split; [exact E|left; exact Hsp']. }
  destruct HR as [C|[Hineq Hph]]; [congruence|]. destruct Hh as [C|Hh]; [congruence|].
  (* the control point moves, nothing is sent that counts, no slot moves *)
  assert (Kpp : forall x, credit x <= credit (pp s) -> rb_phase x (wb_fl t) (cw s) -> RB (set_pp s x) t).
  { intros x Hx Hp. right. bcs. split; [lia|exact Hp]. }
  destruct (step_proc_inv _ _ _ H); subst; rewrite ?Hpp in *; cbn [credit rb_phase pre_loop] in *.
  - (* the first packet: an acknowledgement is spurious or harmless *)
    destruct (wb_rx t g p) as (t' & Et & [Hs|(Ew & Hl & _)]); exists t'; (split; [exact Et|]); [left; exact Hs|right]. bcs.
    assert (Ex : credit (match p with Connect c => PAuth c | _ => PDieLog KClient end) = 0) by (destruct p; reflexivity).
    rewrite Ex. split; [lia|destruct p; exact I].
  - exists t. split; [reflexivity|]. destruct r; apply Kpp; first [apply N.le_refl|exact I].
  - exists t. split; [reflexivity|]. apply Kpp; [apply N.le_refl|exact I].
  - eexists. split; [reflexivity|]. apply (RB_setup s t c g r fresh w p b HI HW Hpp).
  - exists t. split; [reflexivity|]. destruct ok; apply Kpp; first [apply N.le_refl|exact I].
  - (* All: the listing fits the window *)
    exists t. split; [reflexivity|]. apply Kpp; [unfold resend_next; destruct (store_all (s_out (sess s))); apply N.le_refl|].
    pose proof (Hh g _ eq_refl) as Hle. rewrite (Hfl eq_refl). unfold resend_next.
    destruct (store_all (s_out (sess s))); cbn [rb_phase length] in *; [exact I|lia].
  - exists t. split; [reflexivity|]. apply Kpp; [apply N.le_refl|exact I].
  - (* Resend: one free slot, if there is one, goes to the packet *)
    destruct (Hpre eq_refl) as [Hd _]. rewrite Hd in Hineq. cbn [held deq_busy length] in Hineq, Hph.
    assert (Hnext : forall t', wb_w t' = wb_w t ->
              N.of_nat (length (wb_fl t')) + (tdeq s - 1) <= cw s -> N.of_nat (length (wb_fl t')) + N.of_nat (length rest) <= cw s ->
              RB (set_pp (sess_save (set_tok s (tdeq s - 1) (tpub s) (tsub s)) Outgoing (set_dup p))
                         (if ok then resend_next rest else PDieLog KTransport)) t').
    { intros t' _ H2 H3. right. bcs. rewrite Hd. unfold resend_next. destruct ok; [destruct rest|]; cbn [credit held deq_busy rb_phase];
        (split; [lia|first [exact I|exact H3]]). }
    destruct ok; [|exists t; split; [apply wb_tx_fail|apply Hnext; [reflexivity|lia|lia]]].
    destruct (counted_id (set_dup p)) as [id|] eqn:Ec; [|exists t; split; [apply wb_tx_plain, Ec|apply Hnext; [reflexivity|lia|lia]]].
    pose proof (fl_add_length id (wb_fl t)) as Hfa.
    eexists. split; [apply (wb_tx_fits _ _ _ _ _ Ec); lia|]. apply Hnext; cbn [wb_w wb_fl]; [reflexivity| |lia].
    destruct (N.eq_dec (tdeq s) 0); lia.
  - (* Restore *)
    exists t. split; [reflexivity|]. destruct (Hpre eq_refl) as [Hd _]. rewrite Hd in Hineq.
    destruct ok; [right; bcs; cbn [credit held deq_busy rb_phase] in *; split; [lia|exact I]|apply Kpp; [apply N.le_refl|exact I]].
  - (* a packet received in the main loop: an acknowledgement of an id in flight frees a slot, which the
       processor holds until it has deleted the packet *)
    destruct (wb_rx t g p) as (t' & Et & [Hs|(Ew & Hl & _ & Hrec)]); exists t'; (split; [exact Et|]); [left; exact Hs|right].
    destruct (rx_pc_rb p x (wb_fl t') (cw s) Hx Hrec) as [Hcr Hp'].
    destruct H0 as [->| ->]; bcs; (split; [lia|exact Hp']).
  - (* AckDel *)
    exists t. split; [reflexivity|]. destruct ok; [|apply Kpp; [apply N.le_0_l|exact I]].
    right. bcs. cbn [credit rb_phase]. split; [lia|exact I].
  - (* RecSave *)
    exists t. split; [reflexivity|]. destruct ok; [|apply Kpp; [apply N.le_0_l|exact I]].
    right. bcs. cbn [credit rb_phase]. split; [lia|exact Hph].
  - (* RelTx: the id is in flight already *)
    destruct ok; [|exists t; split; [apply wb_tx_fail|apply Kpp; [apply N.le_0_l|exact I]]].
    eexists. split; [apply (wb_tx_fits t g (Pubrel id) true id eq_refl); unfold fl_add; rewrite Hph; lia|].
    unfold fl_add. rewrite Hph. right. bcs. cbn [credit rb_phase wb_fl]. split; [lia|exact I].
  - exists t. split; [eapply wb_tx_plain, own_reply_not_counted, Hp|].
    assert (Hl : loop_pc (pp s) = true) by (destruct (pp s); try contradiction; reflexivity).
    destruct (loop_pc_rb (pp s) (wb_fl t) (cw s) Hl) as [Hc0 _]. destruct ok; apply Kpp; first [apply N.le_0_l|exact I].
  - exists t. split; [reflexivity|]. apply Kpp; [apply N.le_0_l|exact I].
  - exists t. split; [apply wb_dull, He|].
    destruct (loop_pc_rb (pp s') (wb_fl t) (cw s') Hx) as [Hc0 Hp']. right. split; [|exact Hp'].
    rewrite Hc0, (sc_cw _ _ Hc), (sc_tdeq _ _ Hc), (sc_dp _ _ Hc). lia.
Qed.

Lemma step_deq_not_setup s e s' : step_deq s e = Some s' -> is_setup_ok e = false.
Proof. unfold step_deq. destruct (dp s), e; try discriminate; reflexivity. Qed.

Lemma RB_deq s t e s' : INV s -> RW s t -> RB s t -> step_deq s e = Some s' ->
  exists t', wb_step t e = Some t' /\ RB s' t'.
Proof.
  intros HI [Hw _] HR H.
  destruct HR as [Hsp|[Hineq Hph]].
  { destruct (wb_step_spur t e Hsp (step_deq_not_setup _ _ _ H)) as (t' & E & Hsp').
    exists t'. split; [exact E|left; exact Hsp']. }
  pose proof (deq_not_pre _ _ _ HI H) as Hnp.
  (* the dequeuer's control point moves; the processor's obligation survives a longer in-flight list *)
  assert (Kdp : forall s1 x fl, cw s1 = cw s -> pp s1 = pp s -> (forall id, nmem id (wb_fl t) = true -> nmem id fl = true) ->
            N.of_nat (length fl) + tdeq s1 + held x + credit (pp s) <= cw s ->
            RB (set_dp s1 x) (WbSt (wb_w t) fl (wb_spur t))).
  { intros s1 x fl Ec Ep Hsub Hle. right. bcs. cbn [wb_fl]. rewrite Ec, Ep. split; [exact Hle|].
    destruct (pp s); try exact I; try discriminate Hnp; apply Hsub; exact Hph. }
  assert (Et : t = WbSt (wb_w t) (wb_fl t) (wb_spur t)) by (destruct t; reflexivity).
  destruct (step_deq_inv _ _ _ (I_shape _ HI) H); subst; rewrite Hdp in Hineq; cbn [held deq_busy] in Hineq;
    try (exists t; split; [reflexivity|rewrite Et; apply Kdp; auto; bcs; cbn [held deq_busy]; lia]).
  - exists t. split; [destruct r; reflexivity|]. rewrite Et. apply Kdp; auto.
    destruct r as [| |m ba]; cbn [deq_ret_pc]; try destruct (m_qos m =? 0); try destruct ba; cbn [held deq_busy]; lia.
  - exists t. split; [reflexivity|]. rewrite Et. destruct ok; [destruct ba|]; apply Kdp; auto; bcs; cbn [held deq_busy]; lia.
  - (* Send: the slot the dequeuer held goes to the packet, or is free again *)
    destruct ok; [|exists t; split; [apply wb_tx_fail|rewrite Et; apply Kdp; auto; cbn [held deq_busy]; lia]].
    rewrite wb_tx_ok. cbn [counted_id]. destruct (m_qos m =? 0) eqn:Eq.
    + eexists. split; [reflexivity|]. rewrite Et. apply Kdp; auto. bcs. cbn [held deq_busy]. lia.
    + pose proof (fl_add_length id (wb_fl t)) as Hfa.
      assert (Hb : N.of_nat (length (fl_add id (wb_fl t))) <= wb_w t) by lia.
      apply N.leb_le in Hb. rewrite Hb, orb_true_r. eexists. split; [reflexivity|]. apply Kdp; auto; [|cbn [held deq_busy]; lia].
      intros id' Hin. unfold fl_add. destruct (nmem id (wb_fl t)); [exact Hin|]. cbn [nmem existsb]. unfold nmem in Hin. rewrite Hin. apply orb_true_r.
Qed.

Lemma RB_same s s' t : same_pd s s' -> RB s t -> RB s' t.
Proof.
  intros Hs. apply RB_frame; [apply (sp_cw _ _ Hs)|apply (sp_tdeq _ _ Hs)|rewrite (sp_dp _ _ Hs); lia|rewrite (sp_pp _ _ Hs); lia|].
  rewrite (sp_pp _ _ Hs). exact (fun x => x).
Qed.

Lemma RB_frozen s s' t : frozen s s' -> RB s t -> RB s' t.
Proof.
  intros Hf. apply RB_frame; [apply (fz_cw _ _ Hf)|apply (fz_tdeq _ _ Hf)| |rewrite (fz_pp _ _ Hf); apply N.le_0_l|rewrite (fz_pp _ _ Hf); exact (fun _ => I)].
  rewrite (fz_dp _ _ Hf). destruct (dp s); cbn [held deq_busy]; lia.
Qed.

Definition R_wb (s : bc) (t : wb_st) (u : N) : Prop := RA s u /\ RW s t /\ RB s t.

Lemma rf_dull u e u' : dull e = true -> rf_step u e = Some u' -> u' = u.
Proof. intros H E. rewrite (rf_step_w _ _ _ E). apply next_w_dull, H. Qed.

Lemma wb_step_ok s t u e s' u' : INV s -> R_wb s t u -> step s e = Some s' -> rf_step u e = Some u' ->
  exists t', wb_step t e = Some t' /\ R_wb s' t' u'.
Proof.
  apply (sweep_pd wb_step rf_step INV R_wb (fun _ H => H) INV_learned).
  - intros s0 s1 t0 u0 Hs (HA & HW & HB). unfold R_wb, RA. rewrite (sp_cw _ _ Hs).
    split; [exact HA|split; [eapply RW_same|eapply RB_same]; eassumption].
  - intros s0 s1 t0 u0 _ Hl HR. destruct Hl as (p & d & a & c & -> & _). exact HR.
  - intros s0 s1 t0 u0 _ Hf (HA & HW & HB). unfold R_wb, RA. rewrite (fz_cw _ _ Hf).
    split; [exact HA|split; [eapply RW_frozen|eapply RB_frozen]; eassumption].
  - intros s0 t0 u0 e0 _ _ _ _. apply wb_dull.
  - apply rf_dull.
  - intros s0 t0 u0 g p ok _ _ _ Hk. apply wb_tx_plain, ack_not_counted, Hk.
  - intros u0 g p ok u1 _ E. injection E as <-. reflexivity.
  - intros s0 t0 u0 u1 _ (HA & HW & HB) E. injection E as <-. eexists. split; [reflexivity|].
    split; [reflexivity|]. split; [split; reflexivity|]. destruct HB as [Hs|_]; [left; exact Hs|right].
    bcs. cbn [wb_fl length held deq_busy credit rb_phase]. split; [lia|exact I].
  - intros s0 t0 u0 e0 s1 u1 g HI (HA & HW & HB) _ _ Hp E.
    destruct (RB_proc _ _ _ _ HI HW HB Hp (or_intror (fits_of_rf _ _ _ _ HA E))) as (t1 & Et & HB1).
    exists t1. split; [exact Et|]. split; [|split; [eapply RW_proc; eassumption|exact HB1]].
    unfold RA in *. subst u0. rewrite (step_proc_cw _ _ _ Hp). apply rf_step_w, E.
  - intros s0 t0 u0 e0 s1 u1 g HI (HA & HW & HB) _ _ _ Hd E.
    destruct (RB_deq _ _ _ _ HI HW HB Hd) as (t1 & Et & HB1).
    exists t1. split; [exact Et|]. split; [|split; [eapply RW_deq; eassumption|exact HB1]].
    unfold RA in *. subst u0. rewrite (step_deq_cw _ _ _ (I_shape _ HI) Hd). apply rf_step_w, E.
Qed.

Lemma R_wb_init : R_wb bc_init (WbSt 0 [] false) 0.
Proof. split; [reflexivity|]. split; [split; reflexivity|]. right. cbn. split; [lia|exact I]. Qed.

Lemma srun_run {S : Type} (f : S -> event -> option S) es : forall t, srun f t es = Lts.run f t es.
Proof. induction es as [|e es IH]; intros t; cbn [srun Lts.run]; [reflexivity|]. destruct (f t e); [apply IH|reflexivity]. Qed.

Lemma run_rel_inv2 {T U : Type} (f : T -> event -> option T) (h : U -> event -> option U) (J : bc -> Prop) (R : bc -> T -> U -> Prop) :
  (forall s e s', J s -> step s e = Some s' -> J s') ->
  (forall s t u e s' u', J s -> R s t u -> step s e = Some s' -> h u e = Some u' -> exists t', f t e = Some t' /\ R s' t' u') ->
  forall es t0 u0 s', J bc_init -> R bc_init t0 u0 -> bc_run es = Some s' -> scan h u0 es = true ->
  exists t' u', srun f t0 es = Some t' /\ R s' t' u'.
Proof.
  intros HJ Hstep es t0 u0 s' HJ0 HR0 Hrun Hh. apply scan_run in Hh as [u' Hh].
  destruct (run_rel f h (fun s t u => J s /\ R s t u)) with (es := es) (s := bc_init) (t := t0) (u := u0) (s' := s') (u' := u')
    as (t' & Ht & _ & HR'); [|split; assumption|exact Hrun|exact Hh|].
  - intros s t u e s1 u1 [Hj Hr] E Eh. destruct (Hstep _ _ _ _ _ _ Hj Hr E Eh) as (t1 & Et & Hr1).
    exists t1. split; [exact Et|]. split; [eapply HJ; eassumption|exact Hr1].
  - exists t', u'. split; [rewrite srun_run; exact Ht|exact HR'].
Qed.

(* the bound, for traces whose resumes fit the window *)
Theorem c16_bound_partial_holds :
  forall es s, bc_run es = Some s -> c16_resume_fits es = true -> c16_bound es = true.
Proof.
  intros es s Hrun Hh.
  destruct (run_rel_inv2 wb_step rf_step INV R_wb INV_step wb_step_ok es _ _ s INV_init R_wb_init Hrun Hh) as (t & _ & E & _).
  unfold c16_bound. apply scan_run. exists t. rewrite <- srun_run. exact E.
Qed.

(* the unconditional bound is false *)
Theorem c16_bound_refuted_holds : exists es s, bc_run es = Some s /\ c16_bound es = false.
Proof.
  destruct (bc_run ConnProofsCTraces.tr_c16_shrink) as [s|] eqn:E.
  - exists ConnProofsCTraces.tr_c16_shrink, s. split; [exact E|vm_compute; reflexivity].
  - vm_compute in E. discriminate E.
Qed.
