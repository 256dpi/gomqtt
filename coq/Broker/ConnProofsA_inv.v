(* ConnProofsA_inv.v — invariants of the broker-connection model BC alone
   (every state reached by an accepted trace satisfies them).  They do not
   mention the role fields. *)
From Coq Require Import List NArith Bool Lia.
From GM Require Import Base.Lts Codec.Packet Session.Ids Session.Store
  Broker.Conn Broker.ConnSpec Broker.ConnBase Broker.ConnProofsA_lib.
Import ListNotations.
Open Scope N_scope.

(* ============================================================== inv_phase *)

(* control points of the processor before authentication has succeeded *)
Definition pre_pp (p : ppc) : bool :=
  match p with PFirst | PAuth _ | PDeny | PDieLog _ | PDieClose | PDone => true | _ => false end.
(* ... that are passed only before authentication *)
Definition early_pp (p : ppc) : bool :=
  match p with PFirst | PAuth _ | PDeny => true | _ => false end.
(* the processor is on its way out or gone *)
Definition dead_pp (p : ppc) : bool :=
  match p with PDieLog _ | PDieClose | PDone => true | _ => false end.

Lemma step_proc_dead s e s' : dead_pp (pp s) = true -> step_proc s e = Some s' ->
  (exists g k, e = EDie g k /\ s' = set_pp s PDieClose) \/ (exists g, e = EConnClose g /\ s' = set_pp (set_dying s) PDone).
Proof.
  intros Hx Hp. inv_proc Hp; pp_split; try rewrite Hpp in Hx; try discriminate Hx; [right|left]; eauto.
Qed.

(* While the client has not passed authentication (Client.state = connecting) the
   processor is before Setup, the dequeuer and the acker have not been started,
   there is no will, and cleanup can only close.  Conversely the control points
   PFirst, PAuth, PDeny are only occupied in that phase. *)
Definition inv_phase (s : bc) : Prop :=
  (ph s = Connecting ->
     pre_pp (pp s) = true /\ dp s = DOff /\ ap s = AOff /\ will s = None /\ (lp s = LNone \/ lp s = LEnd))
  /\ (early_pp (pp s) = true -> ph s = Connecting)
  /\ (forall c, pp s = PSetup c -> ph s = Connected).

(* inv_phase reads ph, pp, dp, ap, will and lp.  A step that moves only the control point keeps it
   if it does not lead out of the control points before Setup, nor back to those passed only
   before authentication, nor to PSetup. *)
Definition pp_moves (x y : ppc) : bool :=
  implb (pre_pp x) (pre_pp y) && implb (early_pp y) (early_pp x) && match y with PSetup _ => false | _ => true end.

Lemma inv_phase_move s s' : inv_phase s -> ph s' = ph s -> dp s' = dp s -> ap s' = ap s -> will s' = will s -> lp s' = lp s ->
  pp_moves (pp s) (pp s') = true -> inv_phase s'.
Proof.
  unfold inv_phase. intros (H1 & H2 & H3) -> -> -> -> -> Hm.
  apply andb_true_iff in Hm as [Hm M3]. apply andb_true_iff in Hm as [M1 M2]. split; [|split].
  - intros Hc. destruct (H1 Hc) as (Hx & R). rewrite Hx in M1. split; [exact M1|exact R].
  - intros He. rewrite He in M2. apply H2, M2.
  - intros c Hc. rewrite Hc in M3. discriminate M3.
Qed.

(* once authentication has succeeded only the control point matters *)
Lemma inv_phase_past s : ph s <> Connecting -> early_pp (pp s) = false -> (forall c, pp s = PSetup c -> ph s = Connected) -> inv_phase s.
Proof. intros Hc He H3. split; [intros Hx; contradiction|split; [rewrite He; discriminate|exact H3]]. Qed.

Lemma inv_phase_init : inv_phase bc_init.
Proof. unfold inv_phase; cbn. split; [intros _; repeat split; auto|split; [discriminate|intros c; discriminate]]. Qed.

Lemma inv_phase_step s e s' : inv_phase s -> step s e = Some s' -> inv_phase s'.
Proof.
  apply sweep; clear s e s'.
  - intros s p d a c H. exact H.
  - intros s _ _. unfold inv_phase; sf. split; [intros _; repeat split; auto|split; [reflexivity|intros c; discriminate]].
  - intros s H. exact H.
  - intros s e s' H Hc. destruct (step_clo_shape _ _ _ Hc) as (se & cl & dy & q & ->). exact H.
  - (* all but four of the processor's steps move its control point and nothing else inv_phase reads *)
    intros s e s' Hi Hp. pose proof Hi as (H1 & H2 & H3).
    inv_proc Hp; pp_split; try dispatch_cases Hd; pp_cases;
      try (apply (inv_phase_move s); [exact Hi|reflexivity..|rewrite Hpp; reflexivity]);
      apply inv_phase_past; sfp; try reflexivity; try discriminate;
      (* Setup succeeded, the stored messages were resent: the processor stood past authentication *)
      intros Hc; destruct (H1 Hc) as [Hx _]; rewrite Hpp in Hx; discriminate Hx.
  - intros s e s' (H1 & H2 & H3) Hd. destruct (step_deq_shape _ _ _ Hd) as (se & d & dy & t1 & t2 & t3 & ->).
    unfold inv_phase; sf. split; [intros Hc|split; [exact H2|exact H3]].
    destruct (H1 Hc) as (_ & Hx & _). rewrite (step_deq_off _ _ (or_introl Hx)) in Hd. discriminate Hd.
  - intros s e s' (H1 & H2 & H3) Ha. destruct (step_ack_shape _ _ _ Ha) as (a & dy & t1 & t2 & t3 & q & ->).
    unfold inv_phase; sf. split; [intros Hc|split; [exact H2|exact H3]].
    destruct (H1 Hc) as (_ & _ & Hx & _). rewrite (step_ack_off _ _ (or_introl Hx)) in Ha. discriminate Ha.
  - intros s e s' (H1 & H2 & H3) Hl. destruct (step_cleanup_shape _ _ _ Hl) as (p & d & a & l & -> & Hsh).
    unfold inv_phase; sf. destruct Hsh as [(-> & -> & -> & Hn)|(Hn & Hst & -> & -> & ->)].
    + split; [intros Hc|split; [exact H2|exact H3]]. destruct (H1 Hc) as (? & ? & ? & ? & [Hx|Hx]); [contradiction|].
      unfold step_cleanup in Hl. rewrite Hx in Hl. discriminate Hl.
    + split; [intros Hc|split; [discriminate|intros c; discriminate]]. destruct (H1 Hc) as (? & Hd & Ha & ? & _).
      rewrite Hd, Ha. repeat split; auto.
      unfold step_cleanup in Hl. rewrite Hn, Hst, Hc in Hl. cbn in Hl.
      destruct e; try discriminate Hl; bm Hl; inv_some Hl; sf; auto.
Qed.

Theorem inv_phase_all es s : bc_run es = Some s -> inv_phase s.
Proof. apply bc_invariant; [exact inv_phase_init|exact inv_phase_step]. Qed.

(* ============================================================= inv_frozen *)

(* once cleanup has begun the three goroutines have returned *)
Definition inv_frozen (s : bc) : Prop :=
  lp s <> LNone -> pp s = PDone /\ (dp s = DOff \/ dp s = DDone) /\ (ap s = AOff \/ ap s = ADone).

Lemma inv_frozen_init : inv_frozen bc_init.
Proof. unfold inv_frozen; cbn. intros _. auto. Qed.

Lemma inv_frozen_step s e s' : inv_frozen s -> step s e = Some s' -> inv_frozen s'.
Proof.
  apply sweep; clear s e s'.
  - intros s p d a c H. exact H.
  - intros s _ _. unfold inv_frozen; sf. intros H; contradiction.
  - intros s H. exact H.
  - intros s e s' H Hc. destruct (step_clo_shape _ _ _ Hc) as (se & cl & dy & q & ->). exact H.
  - intros s e s' H Hp. destruct (step_proc_frame _ _ _ Hp) as (_ & _ & _ & _ & _ & Hl).
    unfold inv_frozen. rewrite Hl. intros Hn. destruct (H Hn) as (Hx & _).
    rewrite (step_proc_off _ _ Hx) in Hp. discriminate Hp.
  - intros s e s' H Hd. destruct (step_deq_shape _ _ _ Hd) as (se & d & dy & t1 & t2 & t3 & ->).
    unfold inv_frozen; sf. intros Hn. destruct (H Hn) as (_ & Hx & _). rewrite (step_deq_off _ _ Hx) in Hd. discriminate Hd.
  - intros s e s' H Ha. destruct (step_ack_shape _ _ _ Ha) as (a & dy & t1 & t2 & t3 & q & ->).
    unfold inv_frozen; sf. intros Hn. destruct (H Hn) as (_ & _ & Hx). rewrite (step_ack_off _ _ Hx) in Ha. discriminate Ha.
  - intros s e s' H Hl. destruct (step_cleanup_shape _ _ _ Hl) as (p & d & a & l & -> & Hsh).
    unfold inv_frozen; sf. intros _. destruct Hsh as [(-> & -> & -> & Hn)|(Hn & Hst & -> & -> & ->)].
    + apply H, Hn.
    + split; [reflexivity|]. split; [destruct (dp s); auto|destruct (ap s); auto].
Qed.

Theorem inv_frozen_all es s : bc_run es = Some s -> inv_frozen s.
Proof. apply bc_invariant; [exact inv_frozen_init|exact inv_frozen_step]. Qed.

(* ============================================================== inv_store *)

Definition out_ok (p : packet) : bool := match p with Publish _ _ _ | Pubrel _ => true | _ => false end.
Definition is_publish (p : packet) : bool := match p with Publish _ _ _ => true | _ => false end.

Definition all_ok (P : packet -> bool) (ps : list packet) : Prop := Forall (fun p => P p = true) ps.

Lemma store_put_ok P st i p : all_ok P (store_all st) -> P p = true -> all_ok P (store_all (store_put st i p)).
Proof.
  unfold all_ok, store_all. induction st as [|[j q] st IH]; cbn [store_put map snd]; intros H Hp.
  - constructor; [exact Hp|constructor].
  - inversion H as [|x l Hq Hl]; subst. destruct (i =? j); cbn [map snd]; constructor; auto.
Qed.

Lemma store_save_ok P st p : all_ok P (store_all st) -> P p = true -> all_ok P (store_all (store_save st p)).
Proof. unfold store_save. intros H Hp. destruct (get_id p); [apply store_put_ok; assumption|exact H]. Qed.

Lemma store_delete_ok P st i : all_ok P (store_all st) -> all_ok P (store_all (store_delete st i)).
Proof.
  unfold all_ok, store_all. induction st as [|[j q] st IH]; cbn [store_delete map snd]; intros H; [exact H|].
  inversion H as [|x l Hq Hl]; subst. destruct (i =? j); cbn [map snd]; [exact Hl|constructor; auto].
Qed.

Lemma is_publish_out_ok p : is_publish p = true -> out_ok p = true.
Proof. destruct p; cbn; intros H; try discriminate H; reflexivity. Qed.

Lemma out_ok_set_dup p : out_ok p = true -> out_ok (set_dup p) = true.
Proof. destruct p; cbn; intros H; try discriminate H; reflexivity. Qed.

Lemma ack_packet_is_ack k : is_ack_packet (ack_packet k) = true.
Proof. destruct k; reflexivity. Qed.

Lemma ackq_take_in q p q' : ackq_take q p = Some q' -> In p q.
Proof.
  revert q'; induction q as [|x q IH]; cbn [ackq_take]; intros q' H; [discriminate H|].
  destruct (packet_eqb x p) eqn:E.
  - apply packet_eqb_eq in E. left; exact E.
  - destruct (ackq_take q p) as [r|] eqn:Er; [|discriminate H]. right. eapply IH; reflexivity.
Qed.

Definition pp_ok (p : ppc) : Prop :=
  match p with
  | PResend ps => all_ok out_ok ps
  | PPub2W p => is_publish p = true
  | _ => True
  end.
Definition dp_ok (d : dpc) : Prop :=
  match d with
  | DSave p _ | DBackAck p | DSend p => is_publish p = true
  | _ => True
  end.

(* The outgoing store holds only PUBLISH and PUBREL packets, the incoming store only
   PUBLISH packets; the packets the processor re-sends come from the outgoing
   store; the dequeuer only ever handles PUBLISH packets; the ack queue holds only
   SUBACK/UNSUBACK/PUBACK/PUBCOMP packets. *)
Definition inv_store (s : bc) : Prop :=
  all_ok out_ok (store_all (s_out (sess s))) /\
  all_ok is_publish (store_all (s_in (sess s))) /\
  pp_ok (pp s) /\ dp_ok (dp s) /\ all_ok is_ack_packet (ackq s).

Lemma step_deq_tx s g p a ok s' : dp_ok (dp s) -> step_deq s (ETx g p a ok) = Some s' -> a = true /\ is_publish p = true.
Proof.
  intros Hok H. unfold step_deq in H. destruct (dp s); try discriminate H. destruct a; [|discriminate H].
  destruct (packet_eqb p0 p) eqn:E; [|discriminate H]. apply packet_eqb_eq in E. subst p0. split; [reflexivity|exact Hok].
Qed.

Lemma step_ack_tx s g p a ok s' : all_ok is_ack_packet (ackq s) -> step_ack s (ETx g p a ok) = Some s' ->
  a = true /\ is_ack_packet p = true.
Proof.
  intros Hok H. unfold step_ack in H. destruct (ap s); try discriminate H. destruct a; [|discriminate H].
  destruct (ackq_take (ackq s) p) eqn:E; [|discriminate H]. split; [reflexivity|].
  unfold all_ok in Hok. rewrite Forall_forall in Hok. apply Hok, (ackq_take_in _ _ _ E).
Qed.

Lemma inv_store_init : inv_store bc_init.
Proof. unfold inv_store, all_ok; cbn. repeat split; constructor. Qed.

Lemma all_ok_nil P : all_ok P []. Proof. constructor. Qed.
Lemma all_ok_app P a b : all_ok P a -> all_ok P b -> all_ok P (a ++ b).
Proof. unfold all_ok. intros. apply Forall_app; split; assumption. Qed.
Lemma all_ok_tail P x l : all_ok P (x :: l) -> all_ok P l.
Proof. unfold all_ok. intros H. inversion H; assumption. Qed.
Lemma all_ok_head P x l : all_ok P (x :: l) -> P x = true.
Proof. unfold all_ok. intros H. inversion H; assumption. Qed.

Ltac store_tac :=
  cbn [s_in s_out sess_with sess_store session_new] in *;
  repeat match goal with
  | |- _ /\ _ => split
  | |- True => exact I
  | |- all_ok _ [] => apply all_ok_nil
  | |- all_ok _ (store_all []) => apply all_ok_nil
  | |- all_ok _ [_] => apply Forall_cons; [|apply Forall_nil]
  | |- all_ok _ (store_all (store_save _ _)) => apply store_save_ok
  | |- all_ok _ (store_all (store_delete _ _)) => apply store_delete_ok
  | |- all_ok _ (_ ++ _) => apply all_ok_app
  | |- is_ack_packet (ack_packet _) = true => apply ack_packet_is_ack
  | |- out_ok (set_dup _) = true => apply out_ok_set_dup
  | H : all_ok ?P (?x :: ?l) |- all_ok ?P ?l => exact (all_ok_tail _ _ _ H)
  | H : all_ok ?P (?x :: ?l) |- ?P ?x = true => exact (all_ok_head _ _ _ H)
  | H : all_ok ?P (?x :: ?l) |- ?P (_ ?x) = true => pose proof (all_ok_head _ _ _ H)
  | |- _ => assumption
  | |- _ => reflexivity
  end.

Lemma inv_store_step s e s' : inv_store s -> step s e = Some s' -> inv_store s'.
Proof.
  apply sweep; clear s e s'.
  - intros s p d a c H. exact H.
  - intros s (H1 & H2 & _) _. unfold inv_store; sf. repeat split; try assumption; constructor.
  - intros s H. exact H.
  - intros s e s' (H1 & H2 & H3 & H4 & H5) Hc. unfold inv_store. unfold step_clo, guard in Hc.
    destruct e; try discriminate Hc; bm Hc; inv_some Hc; unfold clo_enqueue;
      repeat match goal with |- context [if ?b then _ else _] => destruct b end; sf; store_tac.
  - intros s e s' (H1 & H2 & H3 & H4 & H5) Hp. unfold inv_store. inv_proc Hp; try rewrite Hpp in *; try dispatch_cases Hd;
      sfp; pp_cases; sf; cbn [pp_ok] in *; store_tac.
  - intros s e s' (H1 & H2 & H3 & H4 & H5) Hd. unfold inv_store. unfold step_deq, take_deq, guard in Hd.
    destruct (dp s) eqn:Edp; destruct e; try discriminate Hd; bm Hd; inv_some Hd; sf; cbn [dp_ok] in *;
      repeat match goal with |- context [match ?b with _ => _ end] => destruct b end; sf; cbn [dp_ok] in *;
      store_tac.
    all: try (apply is_publish_out_ok; assumption).
  - intros s e s' (H1 & H2 & H3 & H4 & H5) Ha. unfold inv_store. unfold step_ack, guard in Ha.
    destruct (ap s) eqn:Eap; destruct e; try discriminate Ha; bm Ha; inv_some Ha;
      unfold ack_token_back; repeat match goal with |- context [match ?b with _ => _ end] => destruct b end; sf;
      store_tac; eapply ackq_take_forall; eassumption.
  - intros s e s' (H1 & H2 & H3 & H4 & H5) Hl. destruct (step_cleanup_shape _ _ _ Hl) as (p & d & a & l & -> & Hsh).
    unfold inv_store; sf. destruct Hsh as [(-> & -> & -> & Hn)|(Hn & Hst & -> & -> & ->)]; store_tac.
    destruct (dp s); exact I.
Qed.

Theorem inv_store_all es s : bc_run es = Some s -> inv_store s.
Proof. apply bc_invariant; [exact inv_store_init|exact inv_store_step]. Qed.
