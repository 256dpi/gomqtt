(* ConnProofsC5.v — C16, model-level statements: token conservation, tokens
   returned by QoS 0 deliveries and by processed acknowledgements, and
   "a dequeue is never blocked while a window slot is free". *)
From Coq Require Import List NArith Bool Lia ZArith ZifyN ZifyNat ZifyBool.
From GM Require Import Base.Lts Codec.Packet Session.Ids Session.Store Session.StoreProofs
  Broker.Conn Broker.ConnSpec Broker.ConnBase Broker.ConnProofsCDefs Broker.ConnProofsC0 Broker.ConnProofsC1
  Broker.ConnProofsC2 Broker.ConnProofsC4.
Import ListNotations.
Open Scope N_scope.

(* --------------------------------------------------- a second model invariant *)

(* tokens never exceed the window; once cleanup has begun the coroutines are gone *)
Record INVW (s : bc) : Prop := MkINVW {
  W_cap : tdeq s <= cw s;
  W_gone : lp s <> LNone -> pp s = PDone /\ (dp s = DOff \/ dp s = DDone) }.

Lemma INVW_init : INVW bc_init.
Proof. constructor; cbn; [lia|]. intros _. split; [reflexivity|left; reflexivity]. Qed.

Lemma INVW_frame s s' :
  tdeq s' <= cw s' -> lp s' = lp s -> pp s' = pp s -> dp s' = dp s -> INVW s -> INVW s'.
Proof. intros Ht El Ep Ed [H1 H2]. constructor; [exact Ht|]. rewrite El, Ep, Ed. exact H2. Qed.

Lemma INVW_same s s' : same_pd s s' -> lp s' = lp s -> INVW s -> INVW s'.
Proof.
  intros Hs El HW. apply (INVW_frame s s'); try assumption;
    [rewrite (sp_tdeq _ _ Hs), (sp_cw _ _ Hs); apply (W_cap _ HW)|apply (sp_pp _ _ Hs)|apply (sp_dp _ _ Hs)].
Qed.

Lemma INVW_learned s s1 : learned s s1 -> INVW s -> INVW s1.
Proof. intros Hl HW. destruct Hl as (p & d & a & c & -> & _). destruct HW as [H1 H2]. constructor; assumption. Qed.

Lemma step_proc_tok s e s' : step_proc s e = Some s' -> lp s' = lp s /\ (tdeq s <= cw s -> tdeq s' <= cw s').
Proof.
  intros H. destruct (step_proc_inv _ _ _ H); subst; try (destruct Hc; split; [assumption|lia]);
    try destruct H0 as [->| ->]; try destruct ok; try destruct r; try (unfold setup_st; destruct fresh); (split; [reflexivity|bcs; lia]).
Qed.

Lemma step_deq_tok s e s' : dp_shape (dp s) -> step_deq s e = Some s' -> lp s' = lp s /\ (tdeq s <= cw s -> tdeq s' <= cw s').
Proof.
  intros Hsh H. destruct (step_deq_inv _ _ _ Hsh H); subst; try destruct ok; try destruct (m_qos m =? 0); split; try reflexivity; bcs; lia.
Qed.

(* a coroutine that steps is not gone, so cleanup has not begun *)
Lemma INVW_sub s s' : INVW s -> (lp s <> LNone -> False) -> lp s' = lp s -> (tdeq s <= cw s -> tdeq s' <= cw s') -> INVW s'.
Proof.
  intros [H1 H2] Hl El Ht. constructor; [exact (Ht H1)|]. rewrite El. intros C. destruct (Hl C).
Qed.

Lemma INVW_proc s e s' : INVW s -> step_proc s e = Some s' -> INVW s'.
Proof.
  intros HW H. destruct (step_proc_tok _ _ _ H) as [El Ht]. apply (INVW_sub s); try assumption.
  intros C. destruct (W_gone _ HW C) as [Hp _]. unfold step_proc in H. rewrite Hp in H. discriminate H.
Qed.

Lemma INVW_deq s e s' : dp_shape (dp s) -> INVW s -> step_deq s e = Some s' -> INVW s'.
Proof.
  intros Hsh HW H. destruct (step_deq_tok _ _ _ Hsh H) as [El Ht]. apply (INVW_sub s); try assumption.
  intros C. destruct (W_gone _ HW C) as [_ [Hd|Hd]]; unfold step_deq in H; rewrite Hd in H; discriminate H.
Qed.

Lemma INVW_frozen s s' : frozen s s' -> lp s' <> LNone -> INVW s -> INVW s'.
Proof.
  intros Hf Hl [H1 H2]. constructor.
  - rewrite (fz_tdeq _ _ Hf), (fz_cw _ _ Hf). exact H1.
  - intros _. split; [apply (fz_pp _ _ Hf)|]. rewrite (fz_dp _ _ Hf). destruct (dp s); [left|right..]; reflexivity.
Qed.

Lemma INVW_cleanup s e s' : INVW s -> step_cleanup s e = Some s' -> INVW s'.
Proof.
  intros HW H. pose proof H as H0. unfold step_cleanup, guard in H.
  inv_step H; injection H as <-.
  all: try (apply (INVW_frame s); bcsimpl; try reflexivity; try apply (W_cap _ HW); fail).
  all: try (destruct HW as [H1 H2]; constructor; bcsimpl; [exact H1|];
            intros _; apply H2; match goal with Hl : lp _ = _ |- _ => rewrite Hl end; discriminate).
  all: destruct HW as [H1 H2]; constructor; bcsimpl; [exact H1|];
       intros _; (split; [reflexivity|destruct (dp s); [left|right..]; reflexivity]).
Qed.

Lemma INVW_step s e s' : INV s -> INVW s -> step s e = Some s' -> INVW s'.
Proof.
  intros HI HW H. destruct (step_inv _ _ _ H); subst.
  - constructor; bcs; [lia|]. intros C; contradiction.
  - exact HW.
  - exact HW.
  - apply step_clo_sum in Hc as (_ & Hs & El & _). eapply INVW_same; eassumption.
  - eapply INVW_proc; [eapply INVW_learned; eassumption|exact Hp].
  - eapply INVW_deq; [apply (I_shape _ (INV_learned _ _ Hl HI))|eapply INVW_learned; eassumption|exact Hd].
  - pose proof (step_ack_sum _ _ _ Ha) as (Hs & El & _). eapply INVW_same; [exact Hs|exact El|eapply INVW_learned; eassumption].
  - eapply INVW_cleanup; [eapply INVW_learned; eassumption|exact Hc].
  - eapply INVW_cleanup; eassumption.
  - apply (INVW_frame s); bcs; try reflexivity; [apply (W_cap _ HW)|exact HW].
Qed.

(* both model invariants together *)
Definition INV2 (s : bc) : Prop := INV s /\ INVW s.
Lemma INV2_init : INV2 bc_init.
Proof. split; [exact INV_init|exact INVW_init]. Qed.
Lemma INV2_step s e s' : INV2 s -> step s e = Some s' -> INV2 s'.
Proof. intros [H1 H2] H. split; [eapply INV_step|eapply INVW_step]; eassumption. Qed.
Lemma INV2_learned s s1 : learned s s1 -> INV2 s -> INV2 s1.
Proof. intros Hl [H1 H2]. split; [eapply INV_learned|eapply INVW_learned]; eassumption. Qed.

Theorem INV2_reachable es s : bc_run es = Some s -> INV2 s.
Proof. apply (bc_invariant INV2 INV2_init INV2_step). Qed.

(* ------------------------------------------------------------ conservation *)

(* Token conservation.  [wb_fl t] are the ids the c16_bound scanner holds in flight on the
   current connection (QoS>0 PUBLISH or re-sent PUBREL sent successfully, PUBACK/PUBCOMP not
   yet received), [wb_spur t] says that the peer acknowledged an id that was not in flight.  For every
   accepted trace whose resumes fit the window, in the state reached:
     in flight + free slots + slot held by the dequeuer + slot being returned <= W
   unless the peer has sent a spurious acknowledgement in this session; and the
   number of free slots never exceeds W, unconditionally. *)
Theorem c16_conservation_holds : forall es s,
  bc_run es = Some s ->
  tdeq s <= cw s /\
  (c16_resume_fits es = true ->
   exists t, srun wb_step (WbSt 0 [] false) es = Some t /\
     (wb_spur t = true \/
      N.of_nat (length (wb_fl t)) + tdeq s + held (dp s) + credit (pp s) <= cw s)).
Proof.
  intros es s Hrun. split; [apply (W_cap _ (proj2 (INV2_reachable _ _ Hrun)))|]. intros Hh.
  destruct (run_rel_inv2 wb_step rf_step INV R_wb INV_step wb_step_ok es _ _ s INV_init R_wb_init Hrun Hh) as (t & u & E & _ & _ & HB).
  exists t. split; [exact E|]. destruct HB as [Hs|(Hi & _)]; [left; exact Hs|right; exact Hi].
Qed.

(* ------------------------------------------------ tokens come back (no leak) *)

(* every accepted successful send of a fresh QoS 0 PUBLISH is a delivery by the dequeuer
   and returns its window slot at once *)
Theorem c16_qos0_free_holds : forall es s g m id a s',
  bc_run es = Some s -> m_qos m = 0 ->
  step s (ETx g (Publish false m id) a true) = Some s' ->
  dp s = DSend (Publish false m id) /\ dp s' = DToken /\ tdeq s' = N.min (cw s) (tdeq s + 1) /\ cw s' = cw s.
Proof.
  intros es s g m id a s' Hrun Hq H. pose proof (INV_reachable _ _ Hrun) as HI.
  destruct (coarse_cases _ _ _ HI H); try discriminate.
  - injection He as _ <- _ _. discriminate Hk.
  - (* the processor sends no fresh PUBLISH *)
    exfalso. destruct (step_proc_inv _ _ _ Hp); try discriminate He; try (injection He as _ E _ _).
    + exact (eq_ind_r not_fresh (set_dup_not_fresh _) E).
    + rewrite <- E in Hp0. destruct (pp s1); contradiction.
  - pose proof (I_shape _ (INV_learned _ _ Hl HI)) as Hsh. destruct Hl as (p & d & a0 & c & -> & _).
    destruct (step_deq_inv _ _ _ Hsh Hd); try discriminate He.
    injection He as _ <- <- _ <-. subst s'. rewrite Hq. cbn [N.eqb]. repeat split. exact Hdp.
Qed.

(* every processed acknowledgement (PUBACK / PUBCOMP whose removal from the outgoing store
   succeeded) returns a window slot *)
Theorem c16_ack_returns_holds : forall s g id s',
  step s (EDelete g Outgoing id true) = Some s' ->
  pp s = PAckDel id /\ pp s' = PLoop /\ tdeq s' = N.min (cw s) (tdeq s + 1) /\ cw s' = cw s.
Proof.
  intros s g id s' H. destruct (step_inv _ _ _ H); try discriminate.
  - destruct Hl as (p & d & a & c & -> & _).
    destruct (step_proc_inv _ _ _ Hp); try discriminate He. injection He as _ <- <-. subst s'. repeat split. exact Hpp.
  - exfalso. unfold step_deq, guard in Hd. inv_step Hd.
  - pose proof (step_ack_sum _ _ _ Ha) as (_ & _ & [(? & ? & ? & ? & E & _)|[(? & [E|E]) _]]); discriminate E.
  - apply step_cleanup_sum in Hc as (He & _). discriminate He.
Qed.

(* ---------------------------------------------------------------- progress *)

(* a dequeue is never blocked while a window slot is free: in every reachable state in
   which the dequeuer is at its token wait and a slot is free, the Dequeue call is enabled
   for the dequeuer's goroutine (or, if the dequeuer has not shown itself yet, for any
   goroutine without a role), provided that goroutine is not inside an acknowledgement
   closure; it takes exactly one slot.  (And the token timeout is not enabled then: Conn.v
   lets EDie KClient fire at DToken only when tdeq = 0.) *)
Theorem c16_progress_enabled_holds : forall es s g,
  bc_run es = Some s ->
  dp s = DToken -> 0 < tdeq s -> in_closure s g = false ->
  (gdeq s = Some g \/ (gdeq s = None /\ role_free s g = true)) ->
  exists s', step s (EDeqCall g) = Some s' /\ dp s' = DWait /\ tdeq s' + 1 = tdeq s /\ gdeq s' = Some g.
Proof.
  intros es s g Hrun Hd Ht Hc Hg.
  pose proof (INV2_reachable _ _ Hrun) as [HI HW].
  assert (Ho : conn_open s = true).
  { unfold conn_open. destruct (lp s) eqn:El; try reflexivity.
    destruct (W_gone _ HW) as [_ [Hx|Hx]]; [rewrite El; discriminate|congruence|congruence]. }
  assert (Hlt : (0 <? tdeq s) = true) by (apply N.ltb_lt; exact Ht).
  unfold step. rewrite Ho. cbn [negb ev_g step_clo first_some]. rewrite Hc.
  destruct Hg as [Hg|[Hg Hf]].
  - assert (Hp : is_role (gproc s) g = false).
    { destruct (gproc s) as [g'|] eqn:Ep; [|reflexivity]. cbn [is_role]. apply N.eqb_neq. intros ->.
      exact (I_roles _ HI _ Ep Hg). }
    rewrite Hp, Hg. cbn [is_role]. rewrite N.eqb_refl.
    unfold step_deq. rewrite Hd. unfold take_deq. rewrite Hlt.
    eexists. split; [reflexivity|]. bcsimpl. repeat split; [lia|exact Hg].
  - pose proof Hf as Hf'. unfold role_free in Hf'. apply negb_true_iff in Hf'.
    apply orb_false_iff in Hf' as [Hf' H4]. apply orb_false_iff in Hf' as [Hf' H3]. apply orb_false_iff in Hf' as [H1 H2].
    rewrite H1, H2, H3, H4. unfold bind, learn_deq. rewrite Hg. unfold guard. rewrite Hf.
    unfold step_deq. bcsimpl. rewrite Hd. unfold take_deq. bcsimpl. rewrite Hlt.
    eexists. split; [reflexivity|]. bcsimpl. repeat split. lia.
Qed.

(* with a free slot the dequeuer cannot be killed by the token timeout *)
Theorem c16_no_timeout_with_slot_holds : forall es s g,
  bc_run es = Some s -> dp s = DToken -> 0 < tdeq s ->
  (gdeq s = Some g \/ (gdeq s = None /\ role_free s g = true)) ->
  step s (EDie g KClient) = None.
Proof.
  intros es s g Hrun Hd Ht Hg. pose proof (INV_reachable _ _ Hrun) as HI.
  assert (Hz : (tdeq s =? 0) = false) by (apply N.eqb_neq; lia).
  unfold step. destruct (negb (conn_open s)); [reflexivity|].
  cbn [ev_g step_clo first_some]. destruct (in_closure s g); [reflexivity|].
  destruct Hg as [Hg|[Hg Hf]].
  - assert (Hp : is_role (gproc s) g = false).
    { destruct (gproc s) as [g'|] eqn:Ep; [|reflexivity]. cbn [is_role]. apply N.eqb_neq. intros ->.
      exact (I_roles _ HI _ Ep Hg). }
    rewrite Hp, Hg. cbn [is_role]. rewrite N.eqb_refl.
    unfold step_deq, guard. rewrite Hd, Hz. reflexivity.
  - pose proof Hf as Hf'. unfold role_free in Hf'. apply negb_true_iff in Hf'.
    apply orb_false_iff in Hf' as [Hf' H4]. apply orb_false_iff in Hf' as [Hf' H3]. apply orb_false_iff in Hf' as [H1 H2].
    rewrite H1, H2, H3, H4, Hg, Hd. unfold bind, learn_deq. rewrite Hg. unfold guard. rewrite Hf.
    unfold step_deq, guard. bcsimpl. rewrite Hd, Hz. reflexivity.
Qed.

(* at quiescence the dequeuer is inside Dequeue: it holds a window slot, delivery continues
   as soon as the backend has a message *)
Theorem c16_quiescent_in_dequeue_holds : forall es s,
  bc_run (es ++ [EQuiescent]) = Some s -> dp s = DWait /\ dying s = false.
Proof.
  intros es s H. unfold bc_run in H. apply Lts.run_prefix in H as (s1 & _ & H).
  cbn [Lts.run step] in H. unfold guard in H. destruct (quiescent s1) eqn:Eq; [|discriminate]. injection H as <-.
  unfold quiescent in Eq. repeat (apply andb_prop in Eq as [Eq ?]).
  split; [destruct (dp s1); try discriminate; reflexivity|destruct (dying s1); [discriminate|reflexivity]].
Qed.
