(* ConnProofsA_lib.v — shared machinery for the proofs about the broker-connection
   model BC (Conn.v): frame ("shape") lemmas saying which fields each coroutine's step
   function can change and which events it can produce, the case analysis of [step]
   (which coroutine made the step), and the sweep over all steps built on it.  The
   projection and match tactics are in ConnTac.v, the closure table in ConnClos.v, the exact
   case analyses of the processor, the dequeuer and the cleanup, with their tactics
   ([inv_proc], [pp_cases], [sfp], [dispatch_cases]), in ConnProc.v.

   Which dispatch to use for a relation between the model and a trace scanner:
   [step_sweep] below, with [inv_proc] for the processor's case; it assumes nothing about the
   scanner or the relation.  ConnProofsC1.v has a coarser one, [sweep_pd], with three cases
   against the ten here; it fits only a scanner that ignores every [dull] event (ConnProofsC0.v) and
   the acker's sends, and a relation that reads the state through [same_pd] alone.  A lemma
   about one given event, or a relation neither fits, goes through [step_cases]. *)
From Coq Require Import List NArith Bool Lia.
From GM Require Import Base.Lts Codec.Packet Session.Ids Session.Store
  Broker.Conn Broker.ConnSpec Broker.ConnBase.
From GM Require Export Codec.PacketEqb Broker.ConnAssoc Broker.ConnClos Broker.ConnTac Broker.ConnProc.
Import ListNotations.
Open Scope N_scope.

Lemma is_role_true r g : is_role r g = true -> r = Some g.
Proof. destruct r as [g'|]; cbn [is_role]; [|discriminate]. intros H. apply N.eqb_eq in H. congruence. Qed.

Lemma is_role_some g : is_role (Some g) g = true.
Proof. cbn [is_role]. apply N.eqb_refl. Qed.

Lemma is_role_false r g : is_role r g = false -> r <> Some g.
Proof. intros H ->. rewrite is_role_some in H. discriminate H. Qed.

Lemma is_role_false_of r g : r <> Some g -> is_role r g = false.
Proof. intros H. destruct (is_role r g) eqn:E; [apply is_role_true in E; contradiction|reflexivity]. Qed.

Lemma ackq_take_forall (P : packet -> Prop) q p q' : ackq_take q p = Some q' -> Forall P q -> Forall P q'.
Proof.
  revert q'. induction q as [|x q IH]; intros q' H HF; cbn [ackq_take] in H; [discriminate|].
  inversion HF as [|? ? Hx Hq]; subst.
  destruct (packet_eqb x p); [injection H as <-; exact Hq|].
  destruct (ackq_take q p) as [r|]; [|discriminate]. injection H as <-. constructor; [exact Hx|apply IH; [reflexivity|exact Hq]].
Qed.

(* --------------------------------------------------------- shape of a step *)

(* s1 is s with other role fields *)
Definition roles_only (s s1 : bc) : Prop :=
  s1 = set_roles s (gproc s1) (gdeq s1) (gack s1) (gcl s1).

Lemma roles_only_refl s : roles_only s s.
Proof. unfold roles_only. dbc s; reflexivity. Qed.

Lemma roles_only_set s p d a c : roles_only s (set_roles s p d a c).
Proof. unfold roles_only. reflexivity. Qed.

Ltac shape_tac := repeat eexists; (etransitivity; [apply bc_eta|]); sf; reflexivity.

(* what a closure step can change: session, closure table, dying, ack queue *)
Lemma step_clo_shape s e s' : step_clo s e = Some s' ->
  exists se cl dy q,
    s' = BC (conn_no s) se cl (gproc s) (gdeq s) (gack s) (gcl s) (ph s) (pp s) (dp s) (ap s) (lp s)
            dy (will s) (cw s) (cpp s) (cps s) (tdeq s) (tpub s) (tsub s) q.
Proof.
  intros H. destruct (step_clo_cases _ _ _ H); subst s'; unfold clo_enqueue;
    repeat match goal with |- context [if ?b then _ else _] => destruct b end; shape_tac.
Qed.

Lemma step_clo_sess s e s' : step_clo s e = Some s' ->
  s_counter (sess s') = s_counter (sess s) /\ s_out (sess s') = s_out (sess s).
Proof.
  intros H. destruct (step_clo_cases _ _ _ H); subst s'; unfold clo_enqueue;
    repeat match goal with |- context [if ?b then _ else _] => destruct b end; split; reflexivity.
Qed.

Definition clo_event (e : event) : bool :=
  match e with
  | EAckCall _ _ | EAckRet _ _ | EDelete _ Incoming _ _ | EDie _ KSession | EConnClose _ => true
  | _ => false
  end.
Definition deq_event (e : event) : bool :=
  match e with
  | EDeqCall _ | EDeqRet _ _ | EDeqAck _ | ENextId _ _ | ESave _ Outgoing _ _ | ETx _ _ true _ | EDie _ _ | EConnClose _ => true
  | _ => false
  end.
Definition ack_event (e : event) : bool :=
  match e with ETx _ _ true _ | EDie _ KTransport | EConnClose _ => true | _ => false end.
Definition cleanup_event (e : event) : bool :=
  match e with EPub _ _ None | ETerm _ _ | EClosed | EPubRet _ _ | EDie _ KBackend => true | _ => false end.

Lemma step_clo_event s e s' : step_clo s e = Some s' -> clo_event e = true.
Proof. intros H. destruct (step_clo_cases _ _ _ H); subst e; reflexivity. Qed.

Lemma step_deq_event s e s' : step_deq s e = Some s' -> deq_event e = true.
Proof.
  intros H. unfold step_deq in H. destruct (dp s); destruct e; try discriminate H; try reflexivity.
  - destruct d; [discriminate H|reflexivity].
  - destruct async; [reflexivity|discriminate H].
Qed.

Lemma step_ack_event s e s' : step_ack s e = Some s' -> ack_event e = true.
Proof.
  intros H. unfold step_ack in H. destruct (ap s); destruct e; try discriminate H; try reflexivity.
  - destruct async; [reflexivity|discriminate H].
  - destruct k; try discriminate H; reflexivity.
Qed.

Lemma step_cleanup_event s e s' : step_cleanup s e = Some s' -> cleanup_event e = true.
Proof.
  intros H. unfold step_cleanup in H. destruct (lp s); destruct e; try discriminate H; try reflexivity;
    destruct k; try discriminate H; reflexivity.
Qed.

(* a coroutine that has not been started or has returned makes no step *)
Lemma step_proc_off s e : pp s = PDone -> step_proc s e = None.
Proof. unfold step_proc. intros ->. reflexivity. Qed.

Lemma step_deq_off s e : dp s = DOff \/ dp s = DDone -> step_deq s e = None.
Proof. unfold step_deq. intros [-> | ->]; reflexivity. Qed.

Lemma step_ack_off s e : ap s = AOff \/ ap s = ADone -> step_ack s e = None.
Proof. unfold step_ack. intros [-> | ->]; reflexivity. Qed.

(* dequeuer: session, dp, dying, tokens *)
Lemma step_deq_shape s e s' : step_deq s e = Some s' ->
  exists se d dy t1 t2 t3,
    s' = BC (conn_no s) se (clos s) (gproc s) (gdeq s) (gack s) (gcl s) (ph s) (pp s) d (ap s) (lp s)
            dy (will s) (cw s) (cpp s) (cps s) t1 t2 t3 (ackq s).
Proof.
  intros H. unfold step_deq, take_deq, guard in H. destruct (dp s) eqn:Edp; destruct e; try discriminate H; bm H; inv_some H;
    repeat match goal with |- context [match ?b with _ => _ end] => destruct b end;
    shape_tac.
Qed.

(* acker: ap, dying, tokens, ack queue *)
Lemma step_ack_shape s e s' : step_ack s e = Some s' ->
  exists a dy t1 t2 t3 q,
    s' = BC (conn_no s) (sess s) (clos s) (gproc s) (gdeq s) (gack s) (gcl s) (ph s) (pp s) (dp s) a (lp s)
            dy (will s) (cw s) (cpp s) (cps s) t1 t2 t3 q.
Proof.
  intros H. unfold step_ack, guard in H. destruct (ap s) eqn:Eap; destruct e; try discriminate H; bm H; inv_some H;
    unfold ack_token_back; repeat match goal with |- context [match ?p with _ => _ end] => destruct p end;
    shape_tac.
Qed.

(* cleanup: lp, and (freeze) pp dp ap *)
Lemma step_cleanup_shape s e s' : step_cleanup s e = Some s' ->
  exists p d a l,
    s' = BC (conn_no s) (sess s) (clos s) (gproc s) (gdeq s) (gack s) (gcl s) (ph s) p d a l
            (dying s) (will s) (cw s) (cpp s) (cps s) (tdeq s) (tpub s) (tsub s) (ackq s)
    /\ ((p = pp s /\ d = dp s /\ a = ap s /\ lp s <> LNone) \/
        (lp s = LNone /\ all_stopped s = true /\ p = PDone
         /\ d = (match dp s with DOff => DOff | _ => DDone end)
         /\ a = (match ap s with AOff => AOff | _ => ADone end))).
Proof.
  intros H. unfold step_cleanup, guard in H. destruct (lp s) eqn:Elp; destruct e; try discriminate H; bm H; inv_some H;
    repeat match goal with Hx : _ && _ = true |- _ => apply andb_true_iff in Hx as [Hx ?] end;
    do 4 eexists; (split; [etransitivity; [apply bc_eta|sf; reflexivity]|]); sf;
    first [ left; repeat split; congruence | right; repeat split; assumption ].
Qed.

Lemma step_deq_frame s e s' : step_deq s e = Some s' ->
  s_in (sess s') = s_in (sess s) /\ clos s' = clos s /\ pp s' = pp s /\ gproc s' = gproc s /\
  conn_no s' = conn_no s /\ lp s' = lp s /\ ackq s' = ackq s /\ ap s' = ap s /\ (dying s = true -> dying s' = true).
Proof.
  intros H. unfold step_deq, take_deq, guard in H.
  destruct (dp s) eqn:Edp; destruct e; try discriminate H; bm H; inv_some H; sf;
    repeat split; try reflexivity; try (intros; assumption).
Qed.

Lemma step_cleanup_frame s e s' : step_cleanup s e = Some s' ->
  conn_no s' = conn_no s /\ sess s' = sess s /\ clos s' = clos s /\ gproc s' = gproc s /\
  ackq s' = ackq s /\ dying s' = dying s /\ (pp s' = pp s \/ pp s' = PDone) /\ lp s' <> LNone.
Proof.
  intros H. unfold step_cleanup, guard in H.
  destruct (lp s) eqn:Elp; destruct e; try discriminate H; bm H; inv_some H; sf;
    repeat split; try reflexivity; try (left; reflexivity); try (right; reflexivity); discriminate.
Qed.

(* ------------------------------------------------------- who made the step *)

Definition is_rx (e : event) : bool := match e with ERx _ _ | ERxErr _ => true | _ => false end.

Definition proc_view (s s1 : bc) (g : N) (e : event) : Prop :=
  (s1 = s /\ gproc s = Some g) \/
  (gproc s = None /\ role_free s g = true /\ s1 = set_roles s (Some g) (gdeq s) (gack s) (gcl s) /\ is_rx e = true).
Definition deq_view (s s1 : bc) (g : N) : Prop :=
  (s1 = s /\ gdeq s = Some g) \/
  (gdeq s = None /\ role_free s g = true /\ s1 = set_roles s (gproc s) (Some g) (gack s) (gcl s)).
Definition ack_view (s s1 : bc) (g : N) : Prop :=
  (s1 = s /\ gack s = Some g) \/
  (gack s = None /\ role_free s g = true /\ s1 = set_roles s (gproc s) (gdeq s) (Some g) (gcl s)).
Definition cl_view (s s1 : bc) (g : N) : Prop :=
  (s1 = s /\ gcl s = Some g) \/
  (gcl s = None /\ role_free s g = true /\ s1 = set_roles s (gproc s) (gdeq s) (gack s) (Some g)).

Inductive step_case (s : bc) (e : event) (s' : bc) : Prop :=
| SC_new : e = ENewConn -> lp s = LEnd -> s' = new_conn s -> step_case s e s'
| SC_closereq : e = ECloseReq -> conn_open s = true -> s' = s -> step_case s e s'
| SC_quiet : e = EQuiescent -> quiescent s = true -> s' = s -> step_case s e s'
| SC_clo : step_clo s e = Some s' -> step_case s e s'
| SC_closed : e = EClosed -> step_cleanup s e = Some s' -> step_case s e s'
| SC_proc g s1 : conn_open s = true -> ev_g e = Some g -> step_clo s e = None -> in_closure s g = false ->
    proc_view s s1 g e -> step_proc s1 e = Some s' -> step_case s e s'
| SC_deq g s1 : conn_open s = true -> ev_g e = Some g -> step_clo s e = None -> in_closure s g = false ->
    is_role (gproc s) g = false ->
    deq_view s s1 g -> step_deq s1 e = Some s' -> step_case s e s'
| SC_ack g s1 : conn_open s = true -> ev_g e = Some g -> step_clo s e = None -> in_closure s g = false ->
    is_role (gproc s) g = false -> is_role (gdeq s) g = false ->
    ack_view s s1 g -> step_ack s1 e = Some s' -> step_case s e s'
| SC_cl g s1 : conn_open s = true -> ev_g e = Some g -> step_clo s e = None -> in_closure s g = false ->
    is_role (gproc s) g = false -> is_role (gdeq s) g = false -> is_role (gack s) g = false ->
    cl_view s s1 g -> step_cleanup s1 e = Some s' -> step_case s e s'
| SC_ext g : e = EConnClose g -> conn_open s = true -> step_clo s e = None -> in_closure s g = false -> role_free s g = true ->
    s' = set_dying s -> step_case s e s'.

Lemma conn_open_false s : conn_open s = false -> lp s = LEnd.
Proof. unfold conn_open. destruct (lp s); intros H; try discriminate H; reflexivity. Qed.

Lemma conn_open_true s : conn_open s = true -> lp s <> LEnd.
Proof. unfold conn_open. intros H E. rewrite E in H. discriminate H. Qed.

Lemma role_free_of s g :
  is_role (gproc s) g = false -> is_role (gdeq s) g = false -> is_role (gack s) g = false ->
  is_role (gcl s) g = false -> role_free s g = true.
Proof. intros H1 H2 H3 H4. unfold role_free. rewrite H1, H2, H3, H4. reflexivity. Qed.

Lemma role_free_inv s g : role_free s g = true ->
  is_role (gproc s) g = false /\ is_role (gdeq s) g = false /\ is_role (gack s) g = false /\ is_role (gcl s) g = false.
Proof.
  unfold role_free. intros H. apply negb_true_iff in H.
  apply orb_false_iff in H as [H H4]. apply orb_false_iff in H as [H H3]. apply orb_false_iff in H as [H1 H2].
  repeat split; assumption.
Qed.

(* the generic branch of [step] *)
Definition step_gen (s : bc) (e : event) : option bc :=
  if negb (conn_open s) then step_clo s e
  else match ev_g e with
       | None => None
       | Some g =>
           first_some (step_clo s e)
           (if in_closure s g then None
            else if is_role (gproc s) g then step_proc s e
            else if is_role (gdeq s) g then step_deq s e
            else if is_role (gack s) g then step_ack s e
            else if is_role (gcl s) g then step_cleanup s e
            else
              match e with
              | ERx _ _ | ERxErr _ => bind (learn_proc s g) (fun s1 => step_proc s1 e)
              | EDeqCall _ => bind (learn_deq s g) (fun s1 => step_deq s1 e)
              | EDie _ KClient =>
                  match gdeq s, dp s with
                  | None, DToken => bind (learn_deq s g) (fun s1 => step_deq s1 e)
                  | _, _ => None
                  end
              | ETx _ _ _ _ => bind (learn_ack s g) (fun s1 => step_ack s1 e)
              | EPub _ _ None | ETerm _ _ => bind (learn_cl s g) (fun s1 => step_cleanup s1 e)
              | EConnClose _ => Some (set_dying s)
              | _ => None
              end)
       end.

Definition special_event (e : event) : bool :=
  match e with ENewConn | ECloseReq | EQuiescent | EAckCall _ _ | EAckRet _ _ | EClosed => true | _ => false end.

Lemma step_is_gen s e : special_event e = false -> step s e = step_gen s e.
Proof. destruct e; cbn [special_event]; intros H; try discriminate H; reflexivity. Qed.

Lemma learn_inv (r : option N) s g (s2 : bc) :
  match r with Some g' => guard (g =? g') s | None => guard (role_free s g) s2 end = None \/
  (exists g', r = Some g' /\ (g =? g') = true) \/ (r = None /\ role_free s g = true).
Proof.
  destruct r as [g'|]; unfold guard.
  - destruct (g =? g') eqn:E; [right; left; eauto|left; reflexivity].
  - destruct (role_free s g); [right; right; split; reflexivity|left; reflexivity].
Qed.

Lemma step_gen_cases s e s' : step_gen s e = Some s' -> step_case s e s'.
Proof.
  unfold step_gen. intros H.
  destruct (conn_open s) eqn:Eo; cbn [negb] in H; cbv iota in H; [|apply SC_clo; exact H].
  destruct (ev_g e) as [g|] eqn:Eg; [|discriminate H].
  unfold first_some in H. destruct (step_clo s e) as [sc|] eqn:Ec; [injection H as <-; apply SC_clo; exact Ec|].
  destruct (in_closure s g) eqn:Ei; [discriminate H|].
  destruct (is_role (gproc s) g) eqn:Rp.
  { eapply SC_proc; try eassumption. left. split; [reflexivity|apply is_role_true, Rp]. }
  destruct (is_role (gdeq s) g) eqn:Rd.
  { eapply SC_deq; try eassumption. left. split; [reflexivity|apply is_role_true, Rd]. }
  destruct (is_role (gack s) g) eqn:Ra.
  { eapply SC_ack; try eassumption. left. split; [reflexivity|apply is_role_true, Ra]. }
  destruct (is_role (gcl s) g) eqn:Rc.
  { eapply SC_cl; try eassumption. left. split; [reflexivity|apply is_role_true, Rc]. }
  assert (Hfree : role_free s g = true) by (apply role_free_of; assumption).
  assert (Hp : gproc s = None \/ exists g', gproc s = Some g') by (destruct (gproc s); eauto).
  unfold bind, learn_proc, learn_deq, learn_ack, learn_cl, guard in H.
  destruct e; try discriminate H; cbn [ev_g] in Eg; injection Eg as ->.
  - (* ERx *)
    destruct (gproc s) as [g'|] eqn:Egp; [cbn [is_role] in Rp; rewrite Rp in H; discriminate H|].
    rewrite Hfree in H. eapply SC_proc; try eassumption; [reflexivity|].
    right. repeat split; assumption.
  - (* ERxErr *)
    destruct (gproc s) as [g'|] eqn:Egp; [cbn [is_role] in Rp; rewrite Rp in H; discriminate H|].
    rewrite Hfree in H. eapply SC_proc; try eassumption; [reflexivity|].
    right. repeat split; assumption.
  - (* ETx *)
    destruct (gack s) as [g'|] eqn:Ega; [cbn [is_role] in Ra; rewrite Ra in H; discriminate H|].
    rewrite Hfree in H. eapply SC_ack; try eassumption; [reflexivity|].
    right. repeat split; assumption.
  - (* EConnClose *)
    injection H as <-. eapply SC_ext; try eassumption; reflexivity.
  - (* EPub *)
    destruct k; [discriminate H|].
    destruct (gcl s) as [g'|] eqn:Egc; [cbn [is_role] in Rc; rewrite Rc in H; discriminate H|].
    rewrite Hfree in H. eapply SC_cl; try eassumption; [reflexivity|].
    right. repeat split; assumption.
  - (* EDeqCall *)
    destruct (gdeq s) as [g'|] eqn:Egd; [cbn [is_role] in Rd; rewrite Rd in H; discriminate H|].
    rewrite Hfree in H. eapply SC_deq; try eassumption; [reflexivity|].
    right. repeat split; assumption.
  - (* ETerm *)
    destruct (gcl s) as [g'|] eqn:Egc; [cbn [is_role] in Rc; rewrite Rc in H; discriminate H|].
    rewrite Hfree in H. eapply SC_cl; try eassumption; [reflexivity|].
    right. repeat split; assumption.
  - (* EDie *)
    destruct k; try discriminate H.
    destruct (gdeq s) as [g'|] eqn:Egd; [discriminate H|].
    destruct (dp s) eqn:Edp; try discriminate H.
    rewrite Hfree in H. eapply SC_deq; try eassumption; [reflexivity|].
    right. repeat split; assumption.
Qed.

Theorem step_cases s e s' : step s e = Some s' -> step_case s e s'.
Proof.
  intros H. destruct (special_event e) eqn:Es.
  - destruct e; try discriminate Es; cbn [step] in H.
    + destruct (conn_open s) eqn:Eo; [discriminate H|]. injection H as <-.
      apply SC_new; [reflexivity|apply conn_open_false, Eo|reflexivity].
    + apply SC_clo, H.
    + apply SC_clo, H.
    + unfold guard in H. destruct (conn_open s) eqn:Eo; [|discriminate H]. injection H as <-.
      apply SC_closereq; auto.
    + apply SC_closed; [reflexivity|exact H].
    + unfold guard in H. destruct (quiescent s) eqn:Eo; [|discriminate H]. injection H as <-.
      apply SC_quiet; auto.
  - rewrite (step_is_gen _ _ Es) in H. apply step_gen_cases, H.
Qed.

(* ------------------------------------------------ sweeping over all steps *)

Definition quiet {T : Type} (f : T -> event -> option T) (e : event) : Prop := forall t, f t e = Some t.

Definition cl_owner (s : bc) (e : event) : Prop :=
  forall g, ev_g e = Some g ->
    gcl s = Some g /\ is_role (gproc s) g = false /\ is_role (gdeq s) g = false /\ is_role (gack s) g = false.

Definition learns (s : bc) (g : N) (d a c : option N) : Prop :=
  (gdeq s = None /\ d = Some g /\ a = gack s /\ c = gcl s) \/
  (d = gdeq s /\ gack s = None /\ a = Some g /\ c = gcl s) \/
  (d = gdeq s /\ a = gack s /\ gcl s = None /\ c = Some g).

(* To show [C x e s'] of every step s -e-> s' from a state with [P s x], show it of each
   coroutine's sub-step.  The case analysis of [step] and the learning of the roles are
   done here once: [P] must survive the learning of the roles of dequeuer, acker and
   cleanup; the processor's obligation is stated with [proc_view], since its first event
   (a receive) is the one that makes its goroutine known. *)
Section StepSweep.
  Context {X : Type}.
  Variable P : bc -> X -> Prop.
  Variable C : X -> event -> bc -> Prop.
  Hypothesis P_roles : forall s x g d a c, P s x -> role_free s g = true -> learns s g d a c ->
    P (set_roles s (gproc s) d a c) x.
  Hypothesis C_new : forall s x, P s x -> lp s = LEnd -> C x ENewConn (new_conn s).
  Hypothesis C_closereq : forall s x, P s x -> C x ECloseReq s.
  Hypothesis C_quiescent : forall s x, P s x -> quiescent s = true -> C x EQuiescent s.
  Hypothesis C_kill : forall s x g, P s x -> role_free s g = true -> C x (EConnClose g) (set_dying s).
  Hypothesis C_clo : forall s x e s', P s x -> step_clo s e = Some s' -> C x e s'.
  Hypothesis C_proc : forall s s1 x e s' g, P s x -> conn_open s = true -> proc_view s s1 g e -> ev_g e = Some g ->
    step_proc s1 e = Some s' -> C x e s'.
  Hypothesis C_deq : forall s x e s' g, P s x -> conn_open s = true -> ev_g e = Some g -> gdeq s = Some g ->
    is_role (gproc s) g = false -> step_deq s e = Some s' -> C x e s'.
  Hypothesis C_ack : forall s x e s' g, P s x -> conn_open s = true -> ev_g e = Some g -> gack s = Some g ->
    is_role (gproc s) g = false -> is_role (gdeq s) g = false -> step_ack s e = Some s' -> C x e s'.
  Hypothesis C_cl : forall s x e s', P s x -> cl_owner s e -> step_cleanup s e = Some s' -> C x e s'.

  Lemma step_sweep s x e s' : P s x -> step s e = Some s' -> C x e s'.
  Proof.
    intros HP H. destruct (step_cases _ _ _ H) as
      [-> Hl -> | -> _ -> | -> Hq -> | Hc | -> Hc | g s1 Ho Hg _ _ Hv Hp | g s1 Ho Hg _ _ R1 Hv Hp
      | g s1 Ho Hg _ _ R1 R2 Hv Hp | g s1 _ Hg _ _ R1 R2 R3 Hv Hp | g -> _ _ _ Hf ->].
    - apply C_new; assumption.
    - apply C_closereq, HP.
    - apply C_quiescent; assumption.
    - eapply C_clo; eassumption.
    - eapply C_cl; [exact HP|intros g Hg; discriminate Hg|exact Hc].
    - eapply C_proc; eassumption.
    - apply (C_deq s1 x e s' g); try assumption; destruct Hv as [[-> Hr]|(Hn & Hf & ->)];
        first [assumption|reflexivity|apply (P_roles _ _ g); [exact HP|exact Hf|left; auto]].
    - apply (C_ack s1 x e s' g); try assumption; destruct Hv as [[-> Hr]|(Hn & Hf & ->)];
        first [assumption|reflexivity|apply (P_roles _ _ g); [exact HP|exact Hf|right; left; auto]].
    - apply (C_cl s1 x e s'); try assumption; destruct Hv as [[-> Hr]|(Hn & Hf & ->)];
        first [exact HP|apply (P_roles _ _ g); [exact HP|exact Hf|right; right; auto]
              |intros g' Hg'; rewrite Hg in Hg'; injection Hg' as <-; auto].
    - apply C_kill; assumption.
  Qed.
End StepSweep.

(* An invariant that does not mention the role fields is preserved by [step] if
   each coroutine's step function preserves it. *)
Section Sweep.
  Variable I : bc -> Prop.
  Hypothesis I_roles : forall s p d a c, I s -> I (set_roles s p d a c).
  Hypothesis I_new : forall s, I s -> lp s = LEnd -> I (new_conn s).
  Hypothesis I_dying : forall s, I s -> I (set_dying s).
  Hypothesis I_clo : forall s e s', I s -> step_clo s e = Some s' -> I s'.
  Hypothesis I_proc : forall s e s', I s -> step_proc s e = Some s' -> I s'.
  Hypothesis I_deq : forall s e s', I s -> step_deq s e = Some s' -> I s'.
  Hypothesis I_ack : forall s e s', I s -> step_ack s e = Some s' -> I s'.
  Hypothesis I_cl : forall s e s', I s -> step_cleanup s e = Some s' -> I s'.

  Lemma sweep s e s' : I s -> step s e = Some s' -> I s'.
  Proof.
    intros Hi H. refine (step_sweep (fun s (_ : unit) => I s) (fun _ _ s' => I s') _ _ _ _ _ _ _ _ _ _ s tt e s' Hi H);
      clear s e s' Hi H.
    - intros s _ g d a c Hi _ _. apply I_roles, Hi.
    - intros s _. apply I_new.
    - intros s _ Hi. exact Hi.
    - intros s _ Hi _. exact Hi.
    - intros s _ g Hi _. apply I_dying, Hi.
    - intros s _. apply I_clo.
    - intros s s1 _ e s' g Hi _ Hv _. apply I_proc. destruct Hv as [[-> _]|(_ & _ & -> & _)]; [exact Hi|apply I_roles, Hi].
    - intros s _ e s' g Hi _ _ _ _. apply I_deq, Hi.
    - intros s _ e s' g Hi _ _ _ _ _. apply I_ack, Hi.
    - intros s _ e s' Hi _. apply I_cl, Hi.
  Qed.
End Sweep.

(* fields no processor step changes *)
Lemma step_proc_frame s e s' : step_proc s e = Some s' ->
  conn_no s' = conn_no s /\ gproc s' = gproc s /\ gdeq s' = gdeq s /\ gack s' = gack s /\ gcl s' = gcl s /\ lp s' = lp s.
Proof. intros H. inv_proc H; pp_cases; repeat split; reflexivity. Qed.

Lemma step_proc_dp s e s' : step_proc s e = Some s' ->
  gdeq s' = gdeq s /\ (dp s' = dp s \/ pp s = PRestore /\ dp s' = DToken).
Proof.
  intros H. split; [apply (step_proc_frame _ _ _ H)|].
  inv_proc H; pp_cases; sfp; first [left; reflexivity|right; split; [assumption|reflexivity]].
Qed.
