(* ConnProofsB1.v — machinery for the C07 proofs about the broker-connection model:
   the case analysis of [step] and the association-list lemmas are those of
   ConnProofsA_lib.v; here are a few more facts about lists and the session stores. *)
From Coq Require Import List NArith Bool Lia.
From GM Require Import Base.Lts Codec.Packet Session.Ids Session.Store
  Broker.Conn Broker.ConnSpec Broker.ConnBase.
From GM Require Export Broker.ConnProofsA_lib.
Import ListNotations.
Open Scope N_scope.

Lemma subs_eqb_eq a b : subs_eqb a b = true -> a = b.
Proof. exact (ConnProc.subs_eqb_eq a b). Qed.

Lemma subs_eqb_refl a : subs_eqb a a = true.
Proof. exact (ConnProc.subs_eqb_refl a). Qed.

Lemma is_role_some g : is_role (Some g) g = true.
Proof. exact (ConnProofsA_lib.is_role_some g). Qed.

Lemma bc_eta s : s = BC (conn_no s) (sess s) (clos s) (gproc s) (gdeq s) (gack s) (gcl s) (ph s) (pp s)
                        (dp s) (ap s) (lp s) (dying s) (will s) (cw s) (cpp s) (cps s) (tdeq s) (tpub s) (tsub s) (ackq s).
Proof. exact (ConnTac.bc_eta s). Qed.

(* s1 is s with other role fields *)
Definition roles_only (s s1 : bc) : Prop :=
  s1 = set_roles s (gproc s1) (gdeq s1) (gack s1) (gcl s1).

Lemma roles_only_refl s : roles_only s s.
Proof. exact (ConnProofsA_lib.roles_only_refl s). Qed.

Lemma roles_only_set s p d a c : roles_only s (set_roles s p d a c).
Proof. exact (ConnProofsA_lib.roles_only_set s p d a c). Qed.

Lemma conn_open_true s : conn_open s = true -> lp s <> LEnd.
Proof. exact (ConnProofsA_lib.conn_open_true s). Qed.

Lemma learn_inv (r : option N) s g (s2 : bc) :
  match r with Some g' => guard (g =? g') s | None => guard (role_free s g) s2 end = None \/
  (exists g', r = Some g' /\ (g =? g') = true) \/ (r = None /\ role_free s g = true).
Proof. exact (ConnProofsA_lib.learn_inv r s g s2). Qed.

Lemma in_nremove1_ne k x l : x <> k -> In x l -> In x (nremove1 k l).
Proof.
  intros Hne. induction l as [|y l IH]; cbn [nremove1 In]; [tauto|].
  destruct (y =? k) eqn:E; cbn [In].
  - apply N.eqb_eq in E. subst y. intros [H|H]; [congruence|exact H].
  - tauto.
Qed.

Lemma first_some_inv a b x : first_some a b = Some x -> a = Some x \/ (a = None /\ b = Some x).
Proof. unfold first_some. destruct a; intros H; [left; exact H|right; split; [reflexivity|exact H]]. Qed.

(* ---------------------------------------------------------- session stores *)

Lemma s_in_sess_save_out s p : s_in (sess (sess_save s Outgoing p)) = s_in (sess s).
Proof. reflexivity. Qed.
Lemma s_in_sess_delete_out s i : s_in (sess (sess_delete s Outgoing i)) = s_in (sess s).
Proof. reflexivity. Qed.

