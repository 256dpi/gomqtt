(* BackendOwn.v — in every reachable state (any history, kill timeouts and Close included) a session names a
   connection as its active one only if it is the session that connection holds (client.Session()).  Hence the
   pre-check of Publish looks at the only session whose own-queue branch the fan-out could run into: after the
   pre-check a live publisher never meets its own full queue midway (BackendProofsPublish.no_midway). *)
From Coq Require Import List NArith Bool Lia.
From Coq.Strings Require Import Byte.
From GM Require Import Codec.Packet Topic.MatchSpec Broker.Backend Broker.BackendSpec
  Broker.BackendProofs Broker.BackendProofsPublish Broker.BackendEffect Broker.BackendProofsSteps.
Import ListNotations.
Open Scope N_scope.

Record Own (st : state) : Prop := {
  o_act : forall k s c, get_session st k = Some s -> s_act s = Some c -> alookup N.eqb c (st_sess st) = Some k;
  o_cid : forall c, alookup N.eqb c (st_sess st) <> None -> alookup N.eqb c (st_cid st) <> None;
  o_shape : forall c x, alookup N.eqb c (st_sess st) = Some (KTemp x) -> x = c;
  o_pend : forall p, st_pending st = Some p ->
             alookup N.eqb (p_conn p) (st_sess st) = None /\ alookup N.eqb (p_conn p) (st_cid st) <> None
}.

Lemma own_ownok st : Own st -> OwnOk st.
Proof.
  intros O k s c G A. unfold session_of. rewrite (o_act _ O k s c G A), G. reflexivity.
Qed.

Lemma own_init cap : Own (init cap).
Proof.
  constructor; cbn.
  - intros k s c H. destruct k; discriminate.
  - intros c H. exfalso; apply H; reflexivity.
  - intros c x H; discriminate.
  - intros p H; discriminate.
Qed.

(* steps that change no connection bookkeeping and keep every session's active connection *)
Lemma own_frame st st' :
  Own st ->
  st_sess st' = st_sess st -> st_cid st' = st_cid st -> st_pending st' = st_pending st ->
  (forall k, option_map s_act (get_session st' k) = option_map s_act (get_session st k)) ->
  Own st'.
Proof.
  intros O E1 E2 E3 H. constructor; rewrite ?E1, ?E2, ?E3.
  - intros k s' c G A. destruct (same_act_some _ _ s' (H k) G) as [s [G0 A0]]. apply (o_act _ O k s c G0). congruence.
  - exact (o_cid _ O).
  - exact (o_shape _ O).
  - exact (o_pend _ O).
Qed.

Lemma own_with_cid st c id : Own st -> Own (with_cid st c id).
Proof.
  intros O. constructor; cbn [with_cid st_sess st_cid st_pending]; [exact (o_act _ O)| |exact (o_shape _ O)|discriminate].
  intros x Hx. rewrite (alookup_aset N.eqb N.eqb_eq). destruct (x =? c); [discriminate|exact (o_cid _ O x Hx)].
Qed.

Lemma own_fresh st c : Own st -> alookup N.eqb c (st_cid st) = None -> alookup N.eqb c (st_sess st) = None.
Proof. intros O H. destruct (alookup N.eqb c (st_sess st)) eqn:E; [|reflexivity]. exfalso. apply (o_cid _ O c); congruence. Qed.

Lemma own_granted st c K S del st' :
  Own st -> granted st c K S del st' ->
  alookup N.eqb c (st_sess st) = None -> alookup N.eqb c (st_cid st) <> None -> Own st'.
Proof.
  intros O Gr NS HC.
  constructor; rewrite ?(g_sess _ _ _ _ _ _ Gr), ?(g_cid _ _ _ _ _ _ Gr), ?(g_pending _ _ _ _ _ _ Gr); [| | |discriminate].
  - intros k s' c1 G A. rewrite (g_get _ _ _ _ _ _ Gr) in G. rewrite (alookup_aset N.eqb N.eqb_eq).
    destruct (skey_eqb k K) eqn:EK.
    + apply skey_eqb_eq in EK. injection G as <-. rewrite (g_act _ _ _ _ _ _ Gr) in A. injection A as <-.
      rewrite N.eqb_refl, EK. reflexivity.
    + destruct (del k); [discriminate|]. pose proof (o_act _ O k s' c1 G A) as S1.
      destruct (c1 =? c) eqn:E; [apply N.eqb_eq in E; congruence|exact S1].
  - intros x Hx. rewrite (alookup_aset N.eqb N.eqb_eq) in Hx.
    destruct (x =? c) eqn:E; [apply N.eqb_eq in E; subst; exact HC|exact (o_cid _ O x Hx)].
  - intros x y Hx. rewrite (alookup_aset N.eqb N.eqb_eq) in Hx.
    destruct (x =? c) eqn:E; [apply N.eqb_eq in E; injection Hx as Hx; rewrite (g_key _ _ _ _ _ _ Gr y Hx); auto|exact (o_shape _ O x y Hx)].
Qed.

Lemma with_cid_cid st c id : alookup N.eqb c (st_cid (with_cid st c id)) <> None.
Proof. rewrite with_cid_own. discriminate. Qed.

Lemma own_effect st o r st' : effect st o r st' -> Own st -> Own st'.
Proof.
  intros E O.
  destruct E as [o r _|o r st' B|c clean _ H|c id clean _ H _ _|p P _|c k s0 o r s2 S Pu|c m got Hnb|c id _ _ _].
  - exact O.
  - destruct B as [c id clean _ H|c id clean s c1 _ H _ _ _|p P|c _|].
    + apply own_with_cid, O.
    + pose proof (own_with_cid st c id O) as O1.
      constructor; [exact (o_act _ O1)|exact (o_cid _ O1)|exact (o_shape _ O1)|].
      intros p Hp. injection Hp as <-. split; [exact (own_fresh st c O H)|apply with_cid_cid].
    + constructor; [exact (o_act _ O)|exact (o_cid _ O)|exact (o_shape _ O)|discriminate].
    + apply (own_frame st _ O); reflexivity.
    + apply (own_frame st _ O); reflexivity.
  - apply (own_granted _ c _ _ _ _ (own_with_cid st c [] O) (temp_session_granted _ c));
      [exact (own_fresh st c O H)|apply with_cid_cid].
  - apply (own_granted _ c _ _ _ _ (own_with_cid st c id O) (setup_finish_granted _ c id clean));
      [exact (own_fresh st c O H)|apply with_cid_cid].
  - destruct (o_pend _ O p P) as [NS HC].
    apply (own_granted _ _ _ _ _ _ O (setup_finish_granted st (p_conn p) (p_id p) (p_clean p)) NS HC).
  - apply (own_frame st _ O); try (destruct k; reflexivity). intros k'. exact (put_keeps_act st c k s0 o r s2 k' S Pu).
  - apply (own_frame st _ O); try (rewrite publish_unfold, Hnb; reflexivity). intros k. exact (publish_keeps_act st c m got k Hnb).
  - (* Terminate: c loses its session entry; its temporary session goes, its stored session is released *)
    constructor; cbn [terminated st_sess st_cid st_pending].
    + intros k s' c1 G A. rewrite (alookup_aremove N.eqb N.eqb_eq).
      destruct (terminated_inv st c id k s' G) as (Hk & s & G0 & ->).
      destruct (releases st c k s) eqn:R; [discriminate A|].
      pose proof (o_act _ O k s c1 G0 A) as S1. destruct (c1 =? c) eqn:E1; [|exact S1]. apply N.eqb_eq in E1; subst c1.
      (* the session of c itself: its temporary one is gone, its stored one was released *)
      exfalso. destruct k as [x|i]; [apply Hk; rewrite (o_shape _ O c x S1); reflexivity|].
      cbn [releases] in R. rewrite S1, A in R. cbn [option_eqb] in R. rewrite skey_eqb_refl, N.eqb_refl in R. discriminate R.
    + intros x Hx. rewrite (alookup_aremove N.eqb N.eqb_eq) in Hx. destruct (x =? c); [exfalso; apply Hx; reflexivity|exact (o_cid _ O x Hx)].
    + intros x y Hx. rewrite (alookup_aremove N.eqb N.eqb_eq) in Hx. destruct (x =? c); [discriminate|exact (o_shape _ O x y Hx)].
    + intros p Hp. destruct (o_pend _ O p Hp) as [A B]. split; [|exact B].
      rewrite (alookup_aremove N.eqb N.eqb_eq). destruct (p_conn p =? c); [reflexivity|exact A].
Qed.

Lemma own_step st o : Own st -> Own (snd (step st o)).
Proof. apply own_effect with (1 := step_effect st o). Qed.

Lemma own_run ops : forall st, Own st -> Own (run_state st ops).
Proof. apply run_state_inv, own_step. Qed.
