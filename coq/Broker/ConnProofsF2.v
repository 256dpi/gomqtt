(* ConnProofsF2.v — the readable corollary of c08_ledger (ConnSpec7.v): NOTHING IS LOST.
   Every QoS 1/2 message the dequeuer obtained is, at the end of every accepted trace,
   acknowledged, or recorded in the session (and in the replica store the next resume will
   list), or its save failed, or it is in the hand of a goroutine of a connection that has
   not ended, or a clean session was started afterwards — or, after the packet ids wrapped
   around, its record was overwritten; the last case is excluded by c08_no_id_clash.
   Also: under c08_no_id_clash the strict ledger clause holds. *)
From Coq Require Import List NArith Bool Lia PeanoNat.
From GM Require Import Base.Lts Codec.Packet Session.Ids Session.Store Session.StoreProofs
  Broker.Conn Broker.ConnSpec Broker.ConnSpec6 Broker.ConnSpec7 Broker.ConnBase Broker.ConnProofsCDefs
  Broker.ConnProofsC0 Broker.ConnProofsC1 Broker.ConnProofsC4 Broker.ConnProofsC5 Broker.ConnProofsF1.
From GM Require Broker.ConnProofsE4.
Import ListNotations.
Open Scope N_scope.

(* ------------------------------------------------ the scanner, on its own *)

Definition is_fresh (e : event) : bool :=
  match e with ESetup _ (SOk _ true _ _ _) => true | _ => false end.

(* the ledger has an entry for the message dequeued at position k *)
Definition has (t : lg_st) (k : nat) (m : message) : Prop :=
  (exists g oid, aget (lg_hand t) g = Some (LH k m oid)) \/ (exists st, In (LMsg k m st) (lg_log t ++ lg_arch t)).

Lemma in_lg_upd f dflt id l y : In y (lg_upd f dflt id l) ->
  In y dflt \/ In y l \/ exists x, In x l /\ holds x id = true /\ In y (f x).
Proof.
  induction l as [|x l IH]; cbn [lg_upd]; [intros H; left; exact H|].
  destruct (holds x id) eqn:Eh.
  - intros H. apply in_app_or in H as [H|H].
    + right. right. exists x. split; [left; reflexivity|split; assumption].
    + right. left. right. exact H.
  - intros [<-|H]; [right; left; left; reflexivity|].
    destruct (IH H) as [H1|[H1|(x0 & H1 & H2 & H3)]]; [left; exact H1|right; left; right; exact H1|].
    right. right. exists x0. split; [right; exact H1|split; assumption].
Qed.

Definition keeps_entries (f : litem -> list litem) : Prop :=
  forall k m st, exists st', In (LMsg k m st') (f (LMsg k m st)).

(* an entry stays an entry (its status may change) *)
Lemma lg_upd_keeps f dflt id l k m st :
  keeps_entries f -> In (LMsg k m st) l -> exists st', In (LMsg k m st') (lg_upd f dflt id l).
Proof.
  intros Hf. induction l as [|x l IH]; cbn [lg_upd In]; [tauto|].
  intros [->|Hin].
  - destruct (holds (LMsg k m st) id).
    + destruct (Hf k m st) as (st' & Hst). exists st'. apply in_or_app. left. exact Hst.
    + exists st. left. reflexivity.
  - destruct (holds x id).
    + exists st. apply in_or_app. right. exact Hin.
    + destruct (IH Hin) as (st' & Hst). exists st'. right. exact Hst.
Qed.

Lemma over_keeps new : keeps_entries (fun x => [it_over x; new]).
Proof. intros k m st. destruct st; cbn [it_over]; eexists; left; reflexivity. Qed.
Lemma release_keeps : keeps_entries (fun x => [it_release x]).
Proof. intros k m st. destruct st; cbn [it_release]; eexists; left; reflexivity. Qed.
Lemma done_keeps : keeps_entries (fun x => [it_done x]).
Proof. intros k m st. destruct st; cbn [it_done]; eexists; left; reflexivity. Qed.

Lemma lg_put_new l id new : In new (lg_put l id new).
Proof.
  unfold lg_put. induction l as [|x l IH]; cbn [lg_upd]; [left; reflexivity|].
  destruct (holds x id); [right; left; reflexivity|right; exact IH].
Qed.

(* committing an updated list of records loses no entry *)
Lemma commit_keeps t l x : In x (l ++ lg_arch t) -> In x (lg_log (lg_commit t l) ++ lg_arch (lg_commit t l)).
Proof.
  cbn [lg_commit lg_log lg_arch]. intros H. apply in_app_or in H as [H|H].
  - destruct (is_live x) eqn:E.
    + apply in_or_app. left. apply filter_In. split; assumption.
    + apply in_or_app. right. apply in_or_app. left. apply filter_In. split; [exact H|rewrite E; reflexivity].
  - apply in_or_app. right. apply in_or_app. right. exact H.
Qed.

Lemma commit_upd_keeps t h f dflt id k m st :
  keeps_entries f -> In (LMsg k m st) (lg_log t ++ lg_arch t) ->
  exists st', In (LMsg k m st') (lg_log (lg_commit (lg_with_hand t h) (lg_upd f dflt id (lg_log t))) ++
                                 lg_arch (lg_commit (lg_with_hand t h) (lg_upd f dflt id (lg_log t)))).
Proof.
  intros Hf Hl. apply in_app_or in Hl as [Hl|Hl].
  - destruct (lg_upd_keeps f dflt id _ _ _ _ Hf Hl) as (st' & Hst). exists st'. apply commit_keeps. apply in_or_app; left. exact Hst.
  - exists st. apply commit_keeps. apply in_or_app; right. exact Hl.
Qed.

Lemma commit_has t f dflt id k m :
  keeps_entries f -> has t k m -> has (lg_commit t (lg_upd f dflt id (lg_log t))) k m.
Proof.
  intros Hf [Hg|(st & Hl)]; [left; exact Hg|right]. destruct t. exact (commit_upd_keeps _ _ f dflt id k m st Hf Hl).
Qed.

Lemma act_keeps b t e t' k m : lg_act b t e = Some t' -> has t k m -> is_fresh e = true \/ has t' k m.
Proof.
  intros H Hh. unfold lg_act in H.
  destruct e; try (injection H as <-; right; exact Hh); inv_step H; injection H as <-; subst;
    try (right; exact Hh); cbn [is_fresh].
  - (* ENewConn *)
    right. destruct Hh as [(g0 & oid & Hg)|Hl]; [|right; exact Hl].
    match goal with Hx : lg_hand t = [] |- _ => rewrite Hx in Hg end. discriminate Hg.
  - (* Setup *)
    destruct fresh; [left; reflexivity|right; exact Hh].
  - (* DeqRet *)
    right. destruct Hh as [(g0 & oid & Hg)|Hl]; [|right; exact Hl].
    left. exists g0, oid. cbn [lg_with_hand lg_hand]. rewrite aget_cons.
    destruct (N.eqb_spec g0 g) as [->|Hne]; [|exact Hg].
    match goal with Hx : aget (lg_hand t) g = None |- _ => rewrite Hx in Hg end. discriminate Hg.
  - (* NextId *)
    right. destruct Hh as [(g0 & oid & Hg)|Hl]; [|right; exact Hl].
    left. cbn [lg_with_hand lg_hand]. destruct (N.eqb_spec g0 g) as [->|Hne].
    + match goal with Hx : aget (lg_hand t) g = Some _ |- _ => rewrite Hx in Hg; injection Hg as -> end.
      exists g, (Some id). rewrite aget_aput_eq. reflexivity.
    + exists g0, oid. rewrite aget_aput_ne by exact Hne. exact Hg.
  - (* Save ok *)
    right. destruct Hh as [(g0 & oid & Hg)|(st & Hl)].
    + destruct (N.eqb_spec g0 g) as [->|Hne].
      * match goal with Hx : aget (lg_hand t) g = Some _ |- _ => rewrite Hx in Hg; injection Hg as -> end.
        right. eexists. apply commit_keeps. apply in_or_app; left. cbn [lh_at lh_msg]. apply lg_put_new.
      * left. exists g0, oid. cbn [lg_commit lg_with_hand lg_hand]. rewrite aget_adel.
        destruct (N.eqb_spec g0 g); [contradiction|exact Hg].
    + right. exact (commit_upd_keeps t _ _ _ id k m st (over_keeps _) Hl).
  - (* Save failed *)
    right. destruct Hh as [(g0 & oid & Hg)|(st & Hl)].
    + destruct (N.eqb_spec g0 g) as [->|Hne].
      * match goal with Hx : aget (lg_hand t) g = Some _ |- _ => rewrite Hx in Hg; injection Hg as -> end.
        right. cbn [lg_log lg_arch lh_at lh_msg]. eexists. apply in_or_app; right. left. reflexivity.
      * left. exists g0, oid. cbn [lg_hand]. rewrite aget_adel. destruct (N.eqb_spec g0 g); [contradiction|exact Hg].
    + right. cbn [lg_log lg_arch]. exists st. apply in_app_or in Hl as [Hl|Hl]; [apply in_or_app; left; exact Hl|apply in_or_app; right; right; exact Hl].
  - (* Save Pubrel *) right. destruct ok; [apply commit_has, Hh; apply release_keeps|exact Hh].
  - (* Delete *) right. destruct ok; [apply commit_has, Hh; apply done_keeps|exact Hh].
  - right. destruct ok; [apply commit_has, Hh; apply done_keeps|exact Hh].
  - (* EClosed *)
    right. destruct Hh as [(g0 & oid & Hg)|Hl]; [|right; exact Hl].
    match goal with Hx : lg_idle t = true |- _ => unfold lg_idle in Hx; destruct (lg_hand t); [|discriminate Hx] end.
    discriminate Hg.
Qed.

Lemma act_n b t e t' : lg_act b t e = Some t' -> lg_n t' = lg_n t.
Proof.
  intros H. unfold lg_act in H.
  destruct e; try (injection H as <-; reflexivity); inv_step H; injection H as <-; subst;
    repeat match goal with |- context[if ?c then _ else _] => destruct c end; reflexivity.
Qed.

Lemma act_open b t e t' : lg_act b t e = Some t' ->
  lg_open t' = match e with ENewConn => true | EClosed => false | _ => lg_open t end.
Proof.
  intros H. unfold lg_act in H.
  destruct e; try (injection H as <-; reflexivity); inv_step H; injection H as <-; subst;
    repeat match goal with |- context[if ?c then _ else _] => destruct c end; reflexivity.
Qed.

(* the records are in lg_log, the closed entries in lg_arch *)
Definition lg_wf (t : lg_st) : Prop :=
  Forall (fun x => is_live x = true) (lg_log t) /\ Forall (fun x => is_live x = false) (lg_arch t).

Lemma commit_wf t l : lg_wf t -> lg_wf (lg_commit t l).
Proof.
  intros [_ H2]. split; cbn [lg_commit lg_log lg_arch].
  - apply Forall_forall. intros x Hx. apply filter_In in Hx as [_ Hx]. exact Hx.
  - apply Forall_app. split; [|exact H2]. apply Forall_forall. intros x Hx. apply filter_In in Hx as [_ Hx].
    destruct (is_live x); [discriminate Hx|reflexivity].
Qed.

Lemma act_wf b t e t' : lg_act b t e = Some t' -> lg_wf t -> lg_wf t'.
Proof.
  intros H Hw. unfold lg_act in H.
  destruct e; try (injection H as <-; exact Hw); inv_step H; injection H as <-; subst; try exact Hw.
  - destruct fresh; [split; constructor|exact Hw].
  - apply commit_wf. exact Hw.
  - destruct Hw as [H1 H2]. split; cbn [lg_log lg_arch]; [exact H1|constructor; [reflexivity|exact H2]].
  - destruct ok; [apply commit_wf|]; exact Hw.
  - destruct ok; [apply commit_wf|]; exact Hw.
  - destruct ok; [apply commit_wf|]; exact Hw.
Qed.

Lemma step_inv_act b t e t' : lg_step b t e = Some t' -> exists t1, lg_act b t e = Some t1 /\ t' = lg_tick t1.
Proof. unfold lg_step. destruct (lg_act b t e) as [t1|]; [|discriminate]. intros H. injection H as <-. exists t1. split; reflexivity. Qed.

Lemma step_keeps b t e t' k m : lg_step b t e = Some t' -> has t k m -> is_fresh e = true \/ has t' k m.
Proof.
  intros H Hh. apply step_inv_act in H as (t1 & Ha & ->).
  destruct (act_keeps _ _ _ _ _ _ Ha Hh) as [Hf|Hk]; [left; exact Hf|right; exact Hk].
Qed.

Lemma step_n b t e t' : lg_step b t e = Some t' -> lg_n t' = S (lg_n t).
Proof. intros H. apply step_inv_act in H as (t1 & Ha & ->). cbn [lg_tick lg_n]. rewrite (act_n _ _ _ _ Ha). reflexivity. Qed.

Lemma step_open b t e t' : lg_step b t e = Some t' ->
  lg_open t' = match e with ENewConn => true | EClosed => false | _ => lg_open t end.
Proof. intros H. apply step_inv_act in H as (t1 & Ha & ->). cbn [lg_tick lg_open]. exact (act_open _ _ _ _ Ha). Qed.

Definition fresh_in (es : list event) : Prop :=
  exists j g r w p b, nth_error es j = Some (ESetup g (SOk r true w p b)).

Lemma is_fresh_inv e : is_fresh e = true -> exists g r w p b, e = ESetup g (SOk r true w p b).
Proof.
  destruct e; try discriminate. destruct r; try discriminate. destruct fresh; try discriminate.
  intros _. eexists _, _, _, _, _. reflexivity.
Qed.

Lemma has_persists b es : forall t t' k m, srun (lg_step b) t es = Some t' -> has t k m -> fresh_in es \/ has t' k m.
Proof.
  induction es as [|e es IH]; intros t t' k m Hrun Hh; cbn [srun] in Hrun.
  - injection Hrun as <-. right. exact Hh.
  - destruct (lg_step b t e) as [t1|] eqn:E; [|discriminate Hrun].
    destruct (step_keeps _ _ _ _ _ _ E Hh) as [Hf|Hk].
    + left. apply is_fresh_inv in Hf as (g & r & w & p & b0 & ->). exists 0%nat, g, r, w, p, b0. reflexivity.
    + destruct (IH _ _ _ _ Hrun Hk) as [(j & g & r & w & p & b0 & Hj)|Hk']; [|right; exact Hk'].
      left. exists (S j), g, r, w, p, b0. exact Hj.
Qed.

(* every dequeued QoS 1/2 message gets an entry, which stays until a clean session *)
Lemma deq_has b es : forall t t' i g m ba, srun (lg_step b) t es = Some t' ->
  nth_error es i = Some (EDeqRet g (QMsg m ba)) -> 0 < m_qos m ->
  (exists j g' r w p b', (i < j)%nat /\ nth_error es j = Some (ESetup g' (SOk r true w p b'))) \/
  has t' (lg_n t + i) m.
Proof.
  induction es as [|e es IH]; intros t t' i g m ba Hrun Hi Hq; [destruct i; discriminate Hi|].
  cbn [srun] in Hrun. destruct (lg_step b t e) as [t1|] eqn:E; [|discriminate Hrun].
  destruct i as [|i]; cbn [nth_error] in Hi.
  - injection Hi as ->.
    assert (H1 : has t1 (lg_n t) m).
    { apply step_inv_act in E as (t0 & Ha & ->). cbn [lg_act] in Ha.
      destruct (N.eqb_spec (m_qos m) 0) as [E0|_]; [rewrite E0 in Hq; discriminate Hq|].
      destruct (aget (lg_hand t) g) eqn:Eg; [discriminate Ha|]. injection Ha as <-.
      left. exists g, None. cbn [lg_tick lg_with_hand lg_hand]. rewrite aget_cons, N.eqb_refl. reflexivity. }
    destruct (has_persists _ _ _ _ _ _ Hrun H1) as [(j & g' & r & w & p & b' & Hj)|Hk].
    + left. exists (S j), g', r, w, p, b'. split; [lia|exact Hj].
    + right. rewrite Nat.add_0_r. exact Hk.
  - destruct (IH _ _ _ _ _ _ Hrun Hi Hq) as [(j & g' & r & w & p & b' & Hlt & Hj)|Hk].
    + left. exists (S j), g', r, w, p, b'. split; [lia|exact Hj].
    + right. rewrite (step_n _ _ _ _ E) in Hk. replace (lg_n t + S i)%nat with (S (lg_n t) + i)%nat by lia. exact Hk.
Qed.

Lemma srun_wf b es : forall t t', srun (lg_step b) t es = Some t' -> lg_wf t -> lg_wf t'.
Proof.
  induction es as [|e es IH]; intros t t' Hrun Hw; cbn [srun] in Hrun; [injection Hrun as <-; exact Hw|].
  destruct (lg_step b t e) as [t1|] eqn:E; [|discriminate Hrun].
  apply (IH _ _ Hrun). apply step_inv_act in E as (t0 & Ha & ->). exact (act_wf _ _ _ _ Ha Hw).
Qed.

Lemma wf_live t x : lg_wf t -> In x (lg_log t ++ lg_arch t) -> is_live x = true -> In x (lg_log t).
Proof.
  intros [_ H2] Hin Hl. apply in_app_or in Hin as [Hin|Hin]; [exact Hin|].
  rewrite Forall_forall in H2. rewrite (H2 _ Hin) in Hl. discriminate Hl.
Qed.
Lemma wf_closed t x : lg_wf t -> In x (lg_log t ++ lg_arch t) -> is_live x = false -> In x (lg_arch t).
Proof.
  intros [H1 _] Hin Hl. apply in_app_or in Hin as [Hin|Hin]; [|exact Hin].
  rewrite Forall_forall in H1. rewrite (H1 _ Hin) in Hl. discriminate Hl.
Qed.

Lemma open_is_live b es : forall t t', srun (lg_step b) t es = Some t' ->
  lg_open t' = fold_left (fun o e => match e with ENewConn => true | EClosed => false | _ => o end) es (lg_open t).
Proof.
  induction es as [|e es IH]; intros t t' Hrun; cbn [srun fold_left] in *.
  - injection Hrun as <-. reflexivity.
  - destruct (lg_step b t e) as [t1|] eqn:E; [|discriminate Hrun].
    rewrite (IH _ _ Hrun), (step_open _ _ _ _ E). reflexivity.
Qed.

(* ------------------------------------------------------- with the model *)

Lemma undup_publish p m id : undup p = Publish false m id -> exists d, p = Publish d m id.
Proof. destruct p; cbn [undup]; intros H; try discriminate H. injection H as -> ->. eexists. reflexivity. Qed.
Lemma undup_pubrel p id : undup p = Pubrel id -> p = Pubrel id.
Proof. destruct p; cbn [undup]; intros H; try discriminate H. exact H. Qed.

Lemma in_lg_live x l i p : In x l -> item_rec x = Some (i, p) -> In (i, p) (lg_live l).
Proof.
  intros Hin Hx. unfold lg_live. apply in_flat_map. exists x. split; [exact Hin|]. rewrite Hx. left. reflexivity.
Qed.

(* the replica store of c08_store_replica is the model's outgoing store *)
Lemma replica_is_store es s : bc_run es = Some s -> replica es = s_out (sess s).
Proof.
  intros Hrun. unfold replica.
  destruct (run_rel1 sr_step ConnProofsE4.sr_rel ConnProofsE4.sr_hstep es bc_init (SrSt [] None) s (conj eq_refl eq_refl) Hrun)
    as (t & Ht & [Hst _]).
  rewrite srun_run, Ht. exact Hst.
Qed.

Lemma conn_live_open es t : ledger_of es = Some t -> lg_open t = conn_live es.
Proof. intros H. unfold ledger_of in H. rewrite (open_is_live _ _ _ _ H). reflexivity. Qed.

Lemma recorded_in_store s t x i p :
  R_lg s t -> In x (lg_log t) -> item_rec x = Some (i, p) -> exists q, In (i, q) (s_out (sess s)) /\ undup q = p.
Proof.
  intros HR Hin Hx. pose proof (in_lg_live _ _ _ _ Hin Hx) as Hl. rewrite <- (R_store _ _ HR) in Hl.
  apply in_map_iff in Hl as ([j q] & E & Hq). unfold undup1 in E. cbn [fst snd] in E. injection E as -> E.
  exists q. split; assumption.
Qed.

Lemma fate_of_entry es s t i m :
  bc_run es = Some s -> ledger_of es = Some t -> R_lg s t -> INV2 s -> has t i m -> accounted es i m.
Proof.
  intros Hrun Ht HR [HI HW] [(g & oid & Hg)|(st & Hl)].
  - (* in hand: the dequeuer is between Dequeue and SavePacket, the connection is open *)
    exists (FInHand g). cbn [fate_is]. split.
    + rewrite <- (conn_live_open _ _ Ht), (R_o _ _ HR).
      pose proof (R_h _ _ HR) as Hh. unfold conn_open. destruct (lp s) eqn:El; try reflexivity.
      destruct (W_gone _ HW) as [_ Hd]; [rewrite El; discriminate|].
      destruct Hd as [Hd|Hd]; rewrite Hd in Hh; cbn [R_hand] in Hh; rewrite Hh in Hg; discriminate Hg.
    + exists t, oid. split; [exact Ht|apply aget_in; exact Hg].
  - assert (Hw : lg_wf t) by (unfold ledger_of in Ht; apply (srun_wf _ _ _ _ Ht); split; constructor).
    destruct st as [id|id|id| |id].
    + pose proof (wf_live _ _ Hw Hl eq_refl) as Hl'.
      exists (FRecorded id). cbn [fate_is]. exists t. split; [exact Ht|]. left. split; [exact Hl'|].
      destruct (recorded_in_store _ _ _ _ _ HR Hl' eq_refl) as (q & Hq & Hu).
      apply undup_publish in Hu as (d & ->). exists d. rewrite (replica_is_store _ _ Hrun). exact Hq.
    + pose proof (wf_live _ _ Hw Hl eq_refl) as Hl'.
      exists (FRecorded id). cbn [fate_is]. exists t. split; [exact Ht|]. right. split; [exact Hl'|].
      destruct (recorded_in_store _ _ _ _ _ HR Hl' eq_refl) as (q & Hq & Hu).
      apply undup_pubrel in Hu as ->. rewrite (replica_is_store _ _ Hrun). exact Hq.
    + exists (FAcked id). cbn [fate_is]. exists t. split; [exact Ht|exact (wf_closed _ _ Hw Hl eq_refl)].
    + exists FSaveFailed. cbn [fate_is]. exists t. split; [exact Ht|exact (wf_closed _ _ Hw Hl eq_refl)].
    + exists (FOverwritten id). cbn [fate_is]. exists t. split; [exact Ht|exact (wf_closed _ _ Hw Hl eq_refl)].
Qed.

Theorem nothing_lost_holds : forall es s, bc_run es = Some s -> nothing_lost es.
Proof.
  intros es s Hrun i m (g & ba & Hi & Hq).
  destruct (ledger_of_run _ _ Hrun) as (t & Ht & HR & HI).
  destruct (deq_has false es lg_init t i g m ba Ht Hi Hq) as [Hf|Hh].
  - exists FCleanSession. exact Hf.
  - cbn [lg_init lg_n] in Hh. rewrite Nat.add_0_l in Hh. eapply fate_of_entry; eassumption.
Qed.

(* ------------------------------------------- without id clashes: strict *)

Lemma act_strict t e t1 : lg_act true t e = Some t1 -> lg_act false t e = Some t1.
Proof.
  destruct e; try exact (fun x => x). destruct d; try exact (fun x => x). destruct p; try exact (fun x => x).
  cbn [lg_act]. destruct (aget (lg_hand t) g) as [h|]; [|exact (fun x => x)].
  destruct (negb dup && message_eqb m (lh_msg h) && option_eqb N.eqb (lh_id h) (Some id)); [|exact (fun x => x)].
  destruct ok; [|exact (fun x => x)]. cbn [andb]. destruct (lg_clash (lg_log t) id); [discriminate|exact (fun x => x)].
Qed.

Lemma step_strict t e t1 : lg_step true t e = Some t1 -> lg_step false t e = Some t1.
Proof.
  unfold lg_step. destruct (lg_act true t e) as [t0|] eqn:E; [|discriminate]. rewrite (act_strict _ _ _ E). exact (fun x => x).
Qed.

(* where no id clashes, the strict ledger is the ledger *)
Lemma srun_strict es : forall t t', srun (lg_step false) t es = Some t' -> scan nc_step t es = true ->
  srun (lg_step true) t es = Some t'.
Proof.
  induction es as [|e es IH]; intros t t' Hrun Hnc; cbn [srun scan] in *; [exact Hrun|].
  destruct (lg_step false t e) as [t1|] eqn:E; [|discriminate Hrun].
  unfold nc_step in Hnc. destruct (lg_step true t e) as [t2|] eqn:E2.
  - rewrite (step_strict _ _ _ E2) in E. injection E as <-. apply IH; assumption.
  - rewrite E in Hnc. discriminate Hnc.
Qed.

Lemma scan_of_srun {S : Type} (f : S -> event -> option S) es : forall t t', srun f t es = Some t' -> scan f t es = true.
Proof.
  induction es as [|e es IH]; intros t t' H; cbn [srun scan] in *; [reflexivity|].
  destruct (f t e) as [t1|]; [eapply IH; exact H|discriminate H].
Qed.

Definition no_over (l : list litem) : Prop := forall k m id, ~ In (LMsg k m (LOverwritten id)) l.

Lemma lg_clash_false l id x : lg_clash l id = false -> In x l -> holds x id = true -> is_msg x = false.
Proof.
  unfold lg_clash. intros Hc Hin Hh. destruct (is_msg x) eqn:Em; [|reflexivity].
  assert (Hex : existsb (fun x => is_msg x && holds x id) l = true).
  { apply existsb_exists. exists x. split; [exact Hin|]. rewrite Em, Hh. reflexivity. }
  rewrite Hex in Hc. discriminate Hc.
Qed.

Lemma no_over_commit t l : no_over (l ++ lg_arch t) -> no_over (lg_log (lg_commit t l) ++ lg_arch (lg_commit t l)).
Proof.
  intros Hn k m id Hin. apply (Hn k m id). cbn [lg_commit lg_log lg_arch] in Hin.
  apply in_app_or in Hin as [Hin|Hin]; [apply filter_In in Hin as [Hin _]; apply in_or_app; left; exact Hin|].
  apply in_app_or in Hin as [Hin|Hin]; [apply filter_In in Hin as [Hin _]; apply in_or_app; left; exact Hin|apply in_or_app; right; exact Hin].
Qed.

Lemma no_over_app l r : no_over l -> no_over r -> no_over (l ++ r).
Proof. intros H1 H2 k m id Hin. apply in_app_or in Hin as [Hin|Hin]; [exact (H1 _ _ _ Hin)|exact (H2 _ _ _ Hin)]. Qed.
Lemma no_over_l l r : no_over (l ++ r) -> no_over l.
Proof. intros H k m id Hin. apply (H k m id). apply in_or_app; left. exact Hin. Qed.
Lemma no_over_r l r : no_over (l ++ r) -> no_over r.
Proof. intros H k m id Hin. apply (H k m id). apply in_or_app; right. exact Hin. Qed.

Lemma commit_upd_no_over t f dflt id :
  (forall x k m i, In x (lg_log t) -> holds x id = true -> In (LMsg k m (LOverwritten i)) (f x) -> x = LMsg k m (LOverwritten i)) ->
  no_over dflt -> no_over (lg_log t ++ lg_arch t) ->
  no_over (lg_log (lg_commit t (lg_upd f dflt id (lg_log t))) ++ lg_arch (lg_commit t (lg_upd f dflt id (lg_log t)))).
Proof.
  intros Hf Hd Hn. apply no_over_commit. apply no_over_app; [|exact (no_over_r _ _ Hn)].
  intros k m i Hin. apply in_lg_upd in Hin as [Hin|[Hin|(x & Hx & Hh & Hin)]].
  - exact (Hd _ _ _ Hin).
  - exact (no_over_l _ _ Hn _ _ _ Hin).
  - rewrite (Hf x k m i Hx Hh Hin) in Hx. exact (no_over_l _ _ Hn _ _ _ Hx).
Qed.

Lemma release_no_over x k m i : In (LMsg k m (LOverwritten i)) [it_release x] -> x = LMsg k m (LOverwritten i).
Proof. intros [E|[]]. destruct x as [a m1 [j|j|j| |j]|j lv]; cbn [it_release] in E; try discriminate E; exact E. Qed.

Lemma done_no_over x k m i : In (LMsg k m (LOverwritten i)) [it_done x] -> x = LMsg k m (LOverwritten i).
Proof. intros [E|[]]. destruct x as [a m1 [j|j|j| |j]|j lv]; cbn [it_done] in E; try discriminate E; exact E. Qed.

Lemma act_no_over t e t' : lg_act true t e = Some t' -> no_over (lg_log t ++ lg_arch t) -> no_over (lg_log t' ++ lg_arch t').
Proof.
  intros H Hn. unfold lg_act in H.
  destruct e; try (injection H as <-; exact Hn); inv_step H; injection H as <-; subst; try exact Hn.
  - (* Setup *) destruct fresh; [intros k m id []|exact Hn].
  - (* Save ok, no clash: the entry put aside is a phantom *)
    match goal with Hc : true && lg_clash _ _ = false |- _ => cbn [andb] in Hc; rename Hc into Hcl end.
    apply (commit_upd_no_over (lg_with_hand t _)); [| |exact Hn].
    + intros x k mx i Hx Hh Hi. pose proof (lg_clash_false _ _ _ Hcl Hx Hh) as Hm.
      destruct x as [a m1 st|j lv]; [discriminate Hm|]. destruct Hi as [E|[E|[]]]; discriminate E.
    + intros k mx i [E|[]]. discriminate E.
  - (* Save failed *)
    cbn [lg_log lg_arch]. intros k mx idx Hin. apply in_app_or in Hin as [Hin|[Hin|Hin]];
      [exact (no_over_l _ _ Hn _ _ _ Hin)|discriminate Hin|exact (no_over_r _ _ Hn _ _ _ Hin)].
  - (* Save Pubrel *)
    destruct ok; [|exact Hn]. apply commit_upd_no_over; [intros x k mx i _ _; apply release_no_over| |exact Hn].
    intros k mx i [E|[]]. discriminate E.
  - (* Delete *)
    destruct ok; [|exact Hn]. apply commit_upd_no_over; [intros x k mx i _ _; apply done_no_over|intros k mx i []|exact Hn].
  - destruct ok; [|exact Hn]. apply commit_upd_no_over; [intros x k mx i _ _; apply done_no_over|intros k mx i []|exact Hn].
Qed.

Lemma srun_no_over es : forall t t', srun (lg_step true) t es = Some t' ->
  no_over (lg_log t ++ lg_arch t) -> no_over (lg_log t' ++ lg_arch t').
Proof.
  induction es as [|e es IH]; intros t t' Hrun Hn; cbn [srun] in Hrun; [injection Hrun as <-; exact Hn|].
  destruct (lg_step true t e) as [t1|] eqn:E; [|discriminate Hrun].
  apply (IH _ _ Hrun). apply step_inv_act in E as (t0 & Ha & ->). cbn [lg_tick lg_log lg_arch]. exact (act_no_over _ _ _ Ha Hn).
Qed.

Theorem c08_ledger_strict_holds : forall es s,
  bc_run es = Some s -> c08_no_id_clash es = true -> c08_ledger_strict es = true.
Proof.
  intros es s Hrun Hnc. destruct (ledger_of_run _ _ Hrun) as (t & Ht & _).
  unfold c08_ledger_strict. eapply scan_of_srun. apply srun_strict; [exact Ht|exact Hnc].
Qed.

Theorem nothing_lost_strict_holds : forall es s,
  bc_run es = Some s -> c08_no_id_clash es = true -> nothing_lost_strict es.
Proof.
  intros es s Hrun Hnc i m Hd. destruct (nothing_lost_holds _ _ Hrun i m Hd) as (f & Hf).
  exists f. split; [exact Hf|]. destruct f; try exact I.
  cbn [fate_is] in Hf. destruct Hf as (t & Ht & Hin).
  pose proof (srun_strict _ _ _ Ht Hnc) as Hs.
  exact (srun_no_over _ _ _ Hs (fun k m0 id0 (H : In _ []) => H) _ _ _ (in_or_app _ _ _ (or_intror Hin))).
Qed.

Print Assumptions nothing_lost_holds.
Print Assumptions c08_ledger_strict_holds.
Print Assumptions nothing_lost_strict_holds.
