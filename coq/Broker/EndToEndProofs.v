(* EndToEndProofs.v — the composition theorems: the stages of C15 (order) and C06 (once, intact,
   QoS-capped) put together over a composed run

       publisher's connection trace esP   (model BC, Broker/Conn.v)
       backend history ops                (model MB, Broker/Backend.v)
       subscriber's connection trace esS  (model BC)

   glued by glue_publish / glue_dequeue (Broker/EndToEnd.v: the backend calls seen in the connection
   traces ARE the operations of the history).

   Stage theorems used (none is re-proved here):
     subscriber's connection   forward_link_holds  + forwarded_embeds_dequeued   (EndToEndProofsConn.v)
     backend                   backend_order, backend_once, backend_intact      (EndToEndProofsBackend.v,
                               from the delivery log of C06/C15: BackendLog.queue_step / delivery_log)
     publisher's connection    arrival_link_holds + published_embeds_arrived     (EndToEndProofsConn.v)
   and the composition is list reasoning: order embeddings compose (Emb_trans). *)
From Coq Require Import List NArith Bool Lia.
From Coq.Strings Require Import Byte.
From GM Require Import Base.Lts Codec.Packet Codec.PacketEqb Session.Store Broker.Conn Broker.ConnSpec
  Broker.EndToEnd Broker.EndToEndProofsLists Broker.EndToEndProofsConn.
From GM Require Broker.Backend Broker.BackendSpec Broker.BackendProofsHist Broker.BackendLog Broker.EndToEndProofsBackend.
Import ListNotations.
Open Scope N_scope.

Lemma eq_in_flow fl (x y : message) : x = y -> in_flow fl x = in_flow fl y.
Proof. intros ->. reflexivity. Qed.

(* ------------------------------------------------------------------ (a) order *)

(* The composition over the trace clauses: whatever the two connection traces are (observed on the
   implementation or accepted by the model), if the subscriber's trace satisfies forward_link and the
   publisher's arrival_link, the order statement follows. *)
Theorem e2e_order_clauses : forall cap ops cPs k temp fl esP esS,
  arrival_link esP = true -> forward_link esS = true ->
  BackendLog.names_ok ops = true ->
  glue_publish cPs esP (history cap ops) ->
  glue_dequeue k esS (history cap ops) ->
  flow_exclusive fl cPs k temp (history cap ops) = true ->
  no_will_in_flow fl esP = true ->
  Emb carries (filter (in_flow fl) (forwarded esS)) (arrived esP).
Proof.
  intros cap ops cPs k temp fl esP esS HP HS Hnames Gp Gd Hflow Hwill.
  (* subscriber's wire -> what it dequeued *)
  apply (Emb_sub carries _ (filter (in_flow fl) (dequeued esS))).
  { apply Emb_filter; [apply eq_in_flow|apply forwarded_embeds_dequeued, HS]. }
  (* glue: what it dequeued are the results of the Dequeue operations on k *)
  apply (Emb_sub carries _ (filter (in_flow fl) (deq_results k (history cap ops)))).
  { apply prefix_Emb; [reflexivity|apply prefix_filter, Gd]. }
  (* backend: dequeued for k -> the publisher's Publish calls *)
  apply (Emb_trans capped carries carries capped_carries (filter (in_flow fl) (pub_calls cPs (history cap ops))));
    [|exact (EndToEndProofsBackend.backend_order cap ops fl cPs k temp Hnames Hflow)].
  (* glue: the Publish calls are the EPubs of the publisher's connection *)
  apply (Emb_sub carries _ (filter (in_flow fl) (published esP))).
  { apply prefix_Emb; [reflexivity|apply prefix_filter, Gp]. }
  (* publisher's connection: what it published -> its wire *)
  exact (published_embeds_arrived fl esP HP Hwill).
Qed.

(* C15 end to end.  esP, esS accepted by the connection model, ops any backend history with legal
   topic names, glued; fl a flow: messages (selected by topic and payload) that only the clients cPs of
   one publisher publish, all in one QoS class (temp: QoS 0 / the temporary queue, or QoS > 0 / the
   stored queue), none of them the publisher's will or replayed to session k as a retained message.
   Then the fresh PUBLISHes of the flow on the subscriber's wire embed IN ORDER into the arrivals on
   the publisher's wire: each is carried (same topic and payload, QoS not raised) by an arrival of its
   own — a QoS 0/1 PUBLISH with that message, or the PUBREL releasing a QoS 2 PUBLISH with that
   message — and a later one by a later arrival.  No two messages of the flow are swapped between the
   two wires, none is delivered that did not arrive, none more often than it arrived. *)
Theorem e2e_order : forall cap ops cPs k temp fl esP esS sP sS,
  bc_run esP = Some sP -> bc_run esS = Some sS ->
  BackendLog.names_ok ops = true ->
  glue_publish cPs esP (history cap ops) ->
  glue_dequeue k esS (history cap ops) ->
  flow_exclusive fl cPs k temp (history cap ops) = true ->
  no_will_in_flow fl esP = true ->
  Emb carries (filter (in_flow fl) (forwarded esS)) (arrived esP).
Proof.
  intros cap ops cPs k temp fl esP esS sP sS HP HS.
  apply e2e_order_clauses; [eapply arrival_link_holds; exact HP|eapply forward_link_holds; exact HS].
Qed.

(* With one candidate per arrival the statement is about two sequences of messages: the flow on the
   subscriber's wire is, message for message (topic and payload equal, QoS not raised), a subsequence of
   the messages on the publisher's wire in arrival order (QoS 0/1 at the PUBLISH, QoS 2 at the PUBREL). *)
Lemma Emb_heads xs (cs : list (list message)) :
  Emb carries xs cs -> forallb single_valued cs = true ->
  Emb capped xs (flat_map (fun c => match c with [] => [] | m :: _ => [m] end) cs).
Proof.
  intros H. induction H as [cs|xs c cs H IH|x xs c cs Hc H IH]; intros Hs; [apply Emb_nil| |];
    cbn [forallb] in Hs; apply andb_true_iff in Hs as [Hs1 Hs2]; cbn [flat_map].
  - apply Emb_app_l, IH, Hs2.
  - destruct Hc as (m & Hm & Hcap). destruct c as [|m0 rest]; [destruct Hm|].
    cbn [single_valued] in Hs1. cbn [app]. apply Emb_take; [|apply IH, Hs2].
    destruct Hm as [<-|Hm]; [exact Hcap|].
    rewrite forallb_forall in Hs1. rewrite (message_eqb_eq _ _ (Hs1 m Hm)). exact Hcap.
Qed.

Theorem e2e_order_flat : forall cap ops cPs k temp fl esP esS sP sS,
  bc_run esP = Some sP -> bc_run esS = Some sS ->
  BackendLog.names_ok ops = true ->
  glue_publish cPs esP (history cap ops) ->
  glue_dequeue k esS (history cap ops) ->
  flow_exclusive fl cPs k temp (history cap ops) = true ->
  no_will_in_flow fl esP = true ->
  unambiguous esP = true ->
  Emb capped (filter (in_flow fl) (forwarded esS)) (arrived_msgs esP).
Proof.
  intros cap ops cPs k temp fl esP esS sP sS HP HS Hn Gp Gd Hx Hw Hu.
  apply Emb_heads; [|exact Hu]. eapply e2e_order; eassumption.
Qed.

(* ------------------------------------------------------------------ (b) once, intact *)

Theorem e2e_intact_once_clauses : forall cap ops k esS,
  forward_link esS = true ->
  BackendLog.names_ok ops = true ->
  glue_dequeue k esS (history cap ops) ->
  (forall x, In x (forwarded esS) ->
     In x (dequeued esS) /\
     exists temp y, In y (enqueued k temp (history cap ops)) /\ capped x y) /\
  (forall t p,
     (count_key t p (forwarded esS) <= count_key t p (dequeued esS))%nat /\
     (count_key t p (dequeued esS) <=
        count_key t p (enqueued k true (history cap ops)) + count_key t p (enqueued k false (history cap ops)))%nat).
Proof.
  intros cap ops k esS HS Hnames Gd.
  pose proof (forwarded_embeds_dequeued esS HS) as S1.
  assert (S2 : Emb eq (dequeued esS) (deq_results k (history cap ops))) by (apply prefix_Emb; [reflexivity|exact Gd]).
  assert (Hk : forall x y : message, x = y -> m_topic x = m_topic y /\ m_payload x = m_payload y) by (intros x y ->; auto).
  split.
  - intros x Hx. destruct (Emb_in eq _ _ x S1 Hx) as (y & Hy & <-). split; [exact Hy|].
    destruct (Emb_in eq _ _ x S2 Hy) as (z & Hz & <-).
    exact (EndToEndProofsBackend.backend_intact cap ops k x Hnames Hz).
  - intros t p. split; [apply (Emb_count eq t p _ _ Hk S1)|].
    pose proof (Emb_count eq t p _ _ Hk S2) as C2.
    pose proof (EndToEndProofsBackend.backend_once cap ops k t p Hnames) as C3. fold (history cap ops) in C3. lia.
Qed.

(* C06 end to end, on the subscriber's side.  Every fresh PUBLISH the subscriber's connection sends
   carries a message it dequeued, and that message is (topic and payload intact, QoS not raised) one
   that the delivery specification of the backend enqueued for session k — by BackendLog.enq_event: a
   copy of a Publish that returned nil while k held a matching filter (one copy whatever the number of
   matching filters), or a retained message replayed to k by a Subscribe; nothing is invented.  And
   once: for every (topic, payload) the number of fresh PUBLISHes carrying it is at most the number of
   times it was dequeued, which is at most the number of times it was enqueued for k. *)
Theorem e2e_intact_once : forall cap ops k esS sS,
  bc_run esS = Some sS ->
  BackendLog.names_ok ops = true ->
  glue_dequeue k esS (history cap ops) ->
  (forall x, In x (forwarded esS) ->
     In x (dequeued esS) /\
     exists temp y, In y (enqueued k temp (history cap ops)) /\ capped x y) /\
  (forall t p,
     (count_key t p (forwarded esS) <= count_key t p (dequeued esS))%nat /\
     (count_key t p (dequeued esS) <=
        count_key t p (enqueued k true (history cap ops)) + count_key t p (enqueued k false (history cap ops)))%nat).
Proof.
  intros cap ops k esS sS HS. apply e2e_intact_once_clauses. eapply forward_link_holds; exact HS.
Qed.

(* ... spelled out: where a forwarded message comes from.  It is a Publish operation of the history
   that returned nil at a moment when session k held a filter matching its topic (and the queue of its
   QoS class had room), with the same topic and payload and a QoS not below the forwarded one — or a
   message of the retained replay of a Subscribe by the connection holding k. *)
Theorem e2e_forwarded_origin : forall cap ops k esS sS x,
  bc_run esS = Some sS ->
  BackendLog.names_ok ops = true ->
  glue_dequeue k esS (history cap ops) ->
  In x (forwarded esS) ->
  exists st o r st1 s, In (st, o, r, st1) (history cap ops) /\ Backend.get_session st k = Some s /\
    match o with
    | Backend.OPublish c m got =>
        r = Backend.ROk /\ m_topic x = m_topic m /\ m_payload x = m_payload m /\ m_qos x <= m_qos m /\
        BackendSpec.has_match (Backend.s_subs s) (m_topic m) = true
    | Backend.OSubscribe c subs batches =>
        BackendLog.holds st c k = true /\ exists y, In y (concat batches) /\ capped x y
    | _ => False
    end.
Proof.
  intros cap ops k esS sS x HS Hnames Gd Hx.
  destruct (e2e_intact_once cap ops k esS sS HS Hnames Gd) as [Hin _].
  destruct (Hin x Hx) as (_ & temp & y & Hy & Hc).
  destruct (EndToEndProofsBackend.enqueued_reading k temp _ y Hy) as (st & o & r & st1 & s & Hstep & Hs & Ho).
  exists st, o, r, st1, s. split; [exact Hstep|split; [exact Hs|]].
  destruct o; try exact Ho.
  - destruct Ho as (_ & Hh & Hb). split; [exact Hh|exists y; split; assumption].
  - destruct Ho as (Hr & -> & _ & Hm & _). destruct Hc as (C1 & C2 & C3). cbn [m_topic m_payload m_qos] in *.
    repeat split; assumption.
Qed.
