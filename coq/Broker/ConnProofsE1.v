(* ConnProofsE1.v — c07_release_in_ack (ConnSpec6.v) holds of every trace the
   broker-connection model accepts: the stored QoS 2 PUBLISH is deleted from the
   publisher's session only by a goroutine inside the acknowledgement closure of the
   Publish its PUBREL triggered.  The relation between the closure table of the model and
   the scanner's (open, busy) bookkeeping is pk_clo of ConnProofsB4.v (the prompt_acks
   scanner keeps the same two tables). *)
From Coq Require Import List NArith Bool Lia.
From GM Require Import Base.Lts Codec.Packet Session.Ids Session.Store Session.StoreProofs
  Broker.Conn Broker.ConnSpec Broker.ConnSpec6 Broker.ConnBase
  Broker.ConnProofsB1 Broker.ConnProofsB3 Broker.ConnProofsB4.
Import ListNotations.
Open Scope N_scope.

Definition ra_rel (s : bc) (t : ra_st) : Prop :=
  last_rel s (ra_last t) /\ pk_clo (clos s) (ra_open t) (ra_busy t).

Lemma ra_last_next t e t' : ra_step t e = Some t' -> ra_last t' = lt_next (ra_last t) e.
Proof. intros H. unfold ra_step in H. destruct e; bm H; inv_some H; reflexivity. Qed.

(* ---------------------------------------------------------------- closures *)

Lemma ra_clo s t e s' : inv_c07 s -> pk_clo (clos s) (ra_open t) (ra_busy t) -> step_clo s e = Some s' ->
  exists t', ra_step t e = Some t' /\ pk_clo (clos s') (ra_open t') (ra_busy t').
Proof.
  intros (I1 & I2 & _) Hc H. apply step_clo_nf in H. destruct H as [H _].
  destruct H as [c g id -> Hin Hs Hk Hi -> _ _ | c g -> Hin Hs Hk Hi -> _ _ | c g id ok -> Hin Hs Hk -> _ _
                | c g st Hl Hin -> _ _ | c g He Hin Hs Hi ->]; cbn [ra_step].
  - (* call of a pubcomp closure: its key is open *)
    rewrite (proj1 Hc _ _ Hin Hk Hs). eexists; split; [reflexivity|]. cbn [ra_open ra_busy].
    apply pk_clo_call; auto. exact (in_closure_false _ _ Hi).
  - (* call of another closure *)
    rewrite (irrelevant_closed _ _ _ _ I1 Hin (or_introl Hk) Hc). eexists; split; [reflexivity|].
    apply pk_clo_set_irr; auto. left. exact Hk.
  - (* the Delete: the goroutine is inside the closure for exactly this id *)
    rewrite (proj1 (proj2 Hc) _ _ _ Hin Hk Hs), N.eqb_refl. eexists; split; [reflexivity|]. cbn [ra_open ra_busy].
    apply pk_clo_del; auto using clo_on_del. destruct ok; reflexivity.
  - destruct (late_tr_on _ _ _ _ _ _ Hl) as (Hon & Hst & Hst').
    destruct Hl; (eexists; split; [reflexivity|]); cbn [ra_open ra_busy].
    + apply pk_clo_set_irr; auto. right. exact Hst.
    + apply pk_clo_set_irr; auto. right. exact Hst.
    + apply pk_clo_del; auto.
  - (* a finished closure is called or returns again *)
    destruct He as [-> | ->].
    + assert (Hirr : irrelevant c) by (right; rewrite Hs; reflexivity).
      cbn [ra_step]. rewrite (irrelevant_closed _ _ _ _ I1 Hin Hirr Hc). eexists; split; [reflexivity|exact Hc].
    + eexists; split; [reflexivity|]. cbn [ra_open ra_busy].
      apply pk_clo_adel_free; [exact (in_closure_false _ _ Hi)|exact Hc].
Qed.

(* --------------------------------------------------------------- processor *)

Lemma ra_proc s t e s' g : gproc s = Some g -> ev_g e = Some g ->
  plast (pp s) (aget (ra_last t) g) -> pk_clo (clos s) (ra_open t) (ra_busy t) ->
  step_proc s e = Some s' ->
  exists t', ra_step t e = Some t' /\ pk_clo (clos s') (ra_open t') (ra_busy t').
Proof.
  intros Hg Heg HL Hc H.
  inv_proc H; cbn [ev_g] in Heg; injection Heg as ->; pp_cases; sfp;
    try (eexists; split; [cbn [ra_step]; reflexivity|]; cbn [ra_open ra_busy];
         solve [exact Hc | apply pk_clo_app_other; [discriminate|exact Hc]]).
  - (* PPub1W: the closure stands for a PUBACK *)
    rewrite Hpp in HL. destruct HL as (d & m' & HL). cbn [ra_step]. rewrite HL.
    eexists; split; [reflexivity|]. apply pk_clo_app_other; [discriminate|exact Hc].
  - (* PRelPub: the closure stands for the PUBCOMP *)
    rewrite Hpp in HL. cbn [plast] in HL. cbn [ra_step]. rewrite HL.
    eexists; split; [reflexivity|]. cbn [ra_open ra_busy]. apply pk_clo_app_pc; assumption.
Qed.

(* -------------------------------------------------------------------- step *)

Lemma ra_hstep s t e s' : inv_c07 s -> ra_rel s t -> step s e = Some s' ->
  exists t', ra_step t e = Some t' /\ ra_rel s' t'.
Proof.
  intros Hi [HL HR] H.
  assert (Hmain : exists t', ra_step t e = Some t' /\ pk_clo (clos s') (ra_open t') (ra_busy t')).
  { revert H. refine (step_sweep (fun s t => inv_c07 s /\ ra_rel s t)
                        (fun t e s' => exists t', ra_step t e = Some t' /\ pk_clo (clos s') (ra_open t') (ra_busy t'))
                        _ _ _ _ _ _ _ _ _ _ s t e s' (conj Hi (conj HL HR))); clear s t e s' Hi HL HR.
    - (* roles *) intros s t g d a c HP _ _. exact HP.
    - (* new *) intros s t [_ [_ HR]] _. eexists; split; [reflexivity|exact HR].
    - (* close-req *) intros s t [_ [_ HR]]. eexists; split; [reflexivity|exact HR].
    - (* quiescent *) intros s t [_ [_ HR]] _. eexists; split; [reflexivity|exact HR].
    - (* kill *) intros s t g [_ [_ HR]] _. eexists; split; [reflexivity|exact HR].
    - (* closure *) intros s t e s' [Hi [_ HR]] H. eapply ra_clo; eassumption.
    - (* processor *) intros s s1 t e s' g [_ [HL HR]] _ Hv Hev H. apply (ra_proc s1 t e s' g); try assumption.
      + destruct Hv as [[-> Hg]|(_ & _ & -> & _)]; [exact Hg|reflexivity].
      + exact (last_rel_view _ _ _ _ _ Hv HL).
      + destruct Hv as [[-> _]|(_ & _ & -> & _)]; exact HR.
    - (* dequeuer *) intros s t e s' g [_ [_ HR]] _ _ _ _ H. exists t. split.
      + apply step_deq_event in H. destruct e; try discriminate H; reflexivity.
      + apply step_deq_shape in H. destruct H as (se & d & dy & t1 & t2 & t3 & ->). exact HR.
    - (* acker *) intros s t e s' g [_ [_ HR]] _ _ _ _ _ H. exists t. split.
      + apply step_ack_event in H. destruct e; try discriminate H; reflexivity.
      + apply step_ack_shape in H. destruct H as (a & dy & t1 & t2 & t3 & q & ->). exact HR.
    - (* cleanup *) intros s t e s' [_ [_ HR]] _ H. exists t. split.
      + apply step_cleanup_event in H. destruct e; try discriminate H; try reflexivity. destruct k; [discriminate H|reflexivity].
      + apply step_cleanup_shape in H. destruct H as (p & d & a & l & -> & _). exact HR. }
  destruct Hmain as (t' & Ht & Hc). exists t'. split; [exact Ht|]. split; [|exact Hc].
  rewrite (ra_last_next _ _ _ Ht). exact (last_hstep _ _ _ _ HL H).
Qed.

Theorem c07_release_in_ack_holds : forall es s, bc_run es = Some s -> c07_release_in_ack es = true.
Proof.
  unfold c07_release_in_ack.
  apply (scan_sound_inv ra_step inv_c07 ra_rel inv_c07_init inv_c07_step ra_hstep).
  split; [exact I|]. split; [|split]; cbn.
  - intros c id [].
  - intros c id g [].
  - intros k id E. discriminate E.
Qed.
