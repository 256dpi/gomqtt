(* ConnProc.v — the processor, the dequeuer and the cleanup of the broker-connection
   model (Conn.v), read as transition systems: an exact case analysis of [step_proc],
   [step_deq] and [step_cleanup], one case per pair of control point and event, with
   the boolean tests turned into equations and the new state written out. *)
From Coq Require Import List NArith Bool Lia.
From GM Require Import Codec.Packet Codec.PacketEqb Session.Ids Session.Store Broker.Conn Broker.ConnTac.
Import ListNotations.
Open Scope N_scope.

Lemma subs_eqb_eq a b : subs_eqb a b = true -> a = b.
Proof. apply list_eqb_eq. exact sub_eqb_eq. Qed.

Lemma subs_eqb_refl a : subs_eqb a a = true.
Proof. apply list_eqb_refl. intros x. rewrite bytes_eqb_refl, N.eqb_refl. reflexivity. Qed.

Lemma take_deq_inv s s1 : take_deq s = Some s1 -> 0 < tdeq s /\ s1 = set_tok s (tdeq s - 1) (tpub s) (tsub s).
Proof. unfold take_deq. destruct (N.ltb_spec 0 (tdeq s)) as [Hlt|Hge]; [|discriminate]. intros H; injection H as <-. split; [exact Hlt|reflexivity]. Qed.
Lemma take_pub_inv s s1 : take_pub s = Some s1 -> 0 < tpub s /\ s1 = set_tok s (tdeq s) (tpub s - 1) (tsub s).
Proof. unfold take_pub. destruct (N.ltb_spec 0 (tpub s)) as [Hlt|Hge]; [|discriminate]. intros H; injection H as <-. split; [exact Hlt|reflexivity]. Qed.
Lemma take_sub_inv s s1 : take_sub s = Some s1 -> 0 < tsub s /\ s1 = set_tok s (tdeq s) (tpub s) (tsub s - 1).
Proof. unfold take_sub. destruct (N.ltb_spec 0 (tsub s)) as [Hlt|Hge]; [|discriminate]. intros H; injection H as <-. split; [exact Hlt|reflexivity]. Qed.
Lemma clo_reg_inv s k a s1 : clo_reg s k a = Some s1 ->
  clo_find (clos s) k = None /\ s1 = set_clos s (clos s ++ [Clo k (conn_no s) a CReg]).
Proof. unfold clo_reg. destruct (clo_find (clos s) k); [discriminate|]. intros H; injection H as <-. split; reflexivity. Qed.
(* with no token left, [tdeq s - 1] is 0 as well *)
Lemma take_deq_if_any_eq s : take_deq_if_any s = set_tok s (tdeq s - 1) (tpub s) (tsub s).
Proof.
  unfold take_deq_if_any, take_deq. destruct (N.ltb_spec 0 (tdeq s)) as [|Hz]; [reflexivity|].
  destruct s; cbn [set_tok Conn.tdeq Conn.tpub Conn.tsub] in *. apply N.le_0_r in Hz. subst. reflexivity.
Qed.

Definition dispatch_pp (p : packet) : option ppc :=
  match p with
  | Subscribe id subs => Some (PSubW id subs)
  | Unsubscribe id ts => Some (PUnsubW id ts)
  | Publish _ m id =>
      if m_qos m =? 0 then Some (PPub0 m)
      else if m_qos m =? 1 then Some (PPub1W id m)
      else if m_qos m =? 2 then Some (PPub2W p)
      else None
  | Puback id | Pubcomp id => Some (PAckDel id)
  | Pubrec id => Some (PRecSave id)
  | Pubrel id => Some (PRelLookup id)
  | Pingreq => Some PPing
  | Disconnect => Some PDisc
  | _ => Some (PDieLog KClient)
  end.

Definition dispatch_st (s : bc) (p : packet) : bc :=
  match p with Disconnect => set_ph s Disconnected None | _ => s end.

Lemma proc_dispatch_eq s p :
  proc_dispatch s p = match dispatch_pp p with Some x => Some (set_pp (dispatch_st s p) x) | None => None end.
Proof.
  destruct p; try reflexivity. cbn [proc_dispatch dispatch_pp dispatch_st].
  destruct (m_qos m =? 0); [reflexivity|]. destruct (m_qos m =? 1); [reflexivity|]. destruct (m_qos m =? 2); reflexivity.
Qed.

Lemma dispatch_publish d m id x : dispatch_pp (Publish d m id) = Some x ->
  (x = PPub0 m /\ m_qos m = 0) \/ (x = PPub1W id m /\ m_qos m = 1) \/ (x = PPub2W (Publish d m id) /\ m_qos m = 2).
Proof.
  cbn [dispatch_pp]. destruct (N.eqb_spec (m_qos m) 0); [intros H; injection H as <-; auto|].
  destruct (N.eqb_spec (m_qos m) 1); [intros H; injection H as <-; auto|].
  destruct (N.eqb_spec (m_qos m) 2); [intros H; injection H as <-; auto|discriminate].
Qed.

Definition resend_next (rest : list packet) : ppc := match rest with [] => PRestore | _ => PResend rest end.

Definition setup_st (s : bc) (c : connect) (resumed fresh : bool) (w p b : N) : bc :=
  BC (conn_no s) (if fresh then session_new else sess s) (clos s) (gproc s) (gdeq s) (gack s) (gcl s) (ph s)
     (PConnack c resumed) (dp s) (ap s) (lp s) (dying s) (c_will c) w p b w p b [].

Definition reg_st (s : bc) (k : N) (a : ackkind) : bc := set_clos s (clos s ++ [Clo k (conn_no s) a CReg]).

Definition use_sub (s : bc) : bc := set_tok s (tdeq s) (tpub s) (tsub s - 1).
Definition use_pub (s : bc) : bc := set_tok s (tdeq s) (tpub s - 1) (tsub s).

Definition wait_sub (x : ppc) : bool := match x with PSubW _ _ | PUnsubW _ _ => true | _ => false end.
Definition wait_pub (x : ppc) : bool := match x with PPub1W _ _ | PPub2W _ => true | _ => false end.

Definition pre_loop (p : ppc) : bool :=
  match p with
  | PFirst | PAuth _ | PDeny | PSetup _ | PConnack _ _ | PAll | PResend _ | PRestore => true
  | _ => false
  end.

Inductive proc_case (s : bc) (e : event) (s' : bc) : Prop :=
(* until the session is set up *)
| PC_first g p : e = ERx g p -> pp s = PFirst ->
    s' = set_pp s (match p with Connect c => PAuth c | _ => PDieLog KClient end) -> proc_case s e s'
| PC_rxerr g : e = ERxErr g -> pp s = PFirst \/ pp s = PLoop -> s' = set_pp s (PDieLog KTransport) -> proc_case s e s'
| PC_auth g c r : e = EAuth g r -> pp s = PAuth c ->
    s' = match r with
         | AErr => set_pp s (PDieLog KBackend)
         | ADeny => set_pp s PDeny
         | AOk => set_pp (set_ph s Connected (will s)) (PSetup c)
         end -> proc_case s e s'
| PC_deny g ok : e = ETx g (Connack false 5) false ok -> pp s = PDeny ->
    s' = set_pp s (PDieLog (if ok then KClient else KTransport)) -> proc_case s e s'
| PC_setup_err g c : e = ESetup g SErr -> pp s = PSetup c -> s' = set_pp s (PDieLog KBackend) -> proc_case s e s'
| PC_setup g c resumed fresh w p b : e = ESetup g (SOk resumed fresh w p b) -> pp s = PSetup c ->
    0 < w -> 0 < p -> 0 < b -> s' = setup_st s c resumed fresh w p b -> proc_case s e s'
| PC_connack g c resumed ok : e = ETx g (Connack (negb (c_clean c) && resumed) 0) false ok -> pp s = PConnack c resumed ->
    s' = set_pp s (if ok then PAll else PDieLog KTransport) -> proc_case s e s'
| PC_all_err g : e = EAll g Outgoing None -> pp s = PAll -> s' = set_pp s (PDieLog KSession) -> proc_case s e s'
| PC_all g : e = EAll g Outgoing (Some (store_all (s_out (sess s)))) -> pp s = PAll ->
    s' = set_pp s (resend_next (store_all (s_out (sess s)))) -> proc_case s e s'
| PC_resend g p rest ok : e = ETx g (set_dup p) true ok -> pp s = PResend (p :: rest) ->
    s' = set_pp (sess_save (set_tok s (tdeq s - 1) (tpub s) (tsub s)) Outgoing (set_dup p))
                (if ok then resend_next rest else PDieLog KTransport) ->
    proc_case s e s'
| PC_restore g ok : e = ERestore g ok -> pp s = PRestore ->
    s' = (if ok then set_ap (set_dp (set_pp s PLoop) DToken) AIdle else set_pp s (PDieLog KBackend)) -> proc_case s e s'
(* the main loop *)
| PC_rx g p x : e = ERx g p -> pp s = PLoop -> dispatch_pp p = Some x -> s' = set_pp (dispatch_st s p) x -> proc_case s e s'
| PC_sub g id subs k : e = ESub g subs k -> pp s = PSubW id subs -> 0 < tsub s -> clo_find (clos s) k = None ->
    s' = set_pp (reg_st (use_sub s) k (KSuback id (map snd subs))) PSubR -> proc_case s e s'
| PC_unsub g id ts k : e = EUnsub g ts k -> pp s = PUnsubW id ts -> 0 < tsub s -> clo_find (clos s) k = None ->
    s' = set_pp (reg_st (use_sub s) k (KUnsuback id)) PUnsubR -> proc_case s e s'
| PC_subret g ok : e = ESubRet g ok -> pp s = PSubR -> s' = set_pp s (if ok then PLoop else PDieLog KBackend) -> proc_case s e s'
| PC_unsubret g ok : e = EUnsubRet g ok -> pp s = PUnsubR -> s' = set_pp s (if ok then PLoop else PDieLog KBackend) -> proc_case s e s'
| PC_pubret g ok : e = EPubRet g ok -> pp s = PPubR -> s' = set_pp s (if ok then PLoop else PDieLog KBackend) -> proc_case s e s'
| PC_pub0 g m : e = EPub g m None -> pp s = PPub0 m -> s' = set_pp s PPubR -> proc_case s e s'
| PC_pub1 g id m k : e = EPub g m (Some k) -> pp s = PPub1W id m -> 0 < tpub s -> clo_find (clos s) k = None ->
    s' = set_pp (reg_st (use_pub s) k (KPuback id)) PPubR -> proc_case s e s'
| PC_save2 g p id : e = ESave g Incoming p true -> pp s = PPub2W p -> 0 < tpub s -> get_id p = Some id ->
    s' = set_pp (sess_save (use_pub s) Incoming p) (PPubrec id) -> proc_case s e s'
| PC_save2_err g p : e = ESave g Incoming p false -> pp s = PPub2W p -> 0 < tpub s ->
    s' = set_pp (use_pub s) (PDieLog KSession) -> proc_case s e s'
| PC_ackdel g id ok : e = EDelete g Outgoing id ok -> pp s = PAckDel id ->
    s' = (if ok then set_pp (put_deq (sess_delete s Outgoing id)) PLoop else set_pp s (PDieLog KSession)) -> proc_case s e s'
| PC_recsave g id ok : e = ESave g Outgoing (Pubrel id) ok -> pp s = PRecSave id ->
    s' = (if ok then set_pp (sess_save s Outgoing (Pubrel id)) (PRelTx id) else set_pp s (PDieLog KSession)) -> proc_case s e s'
| PC_lookup_err g id : e = ELookup g Incoming id LErr -> pp s = PRelLookup id -> s' = set_pp s (PDieLog KSession) -> proc_case s e s'
| PC_lookup g id : e = ELookup g Incoming id (LRes (store_lookup (s_in (sess s)) id)) -> pp s = PRelLookup id ->
    s' = set_pp s (match store_lookup (s_in (sess s)) id with Some (Publish _ m _) => PRelPub id m | _ => PCompTx id end) ->
    proc_case s e s'
| PC_relpub g id m k : e = EPub g m (Some k) -> pp s = PRelPub id m -> clo_find (clos s) k = None ->
    s' = set_pp (reg_st s k (KPubcomp id)) PPubR -> proc_case s e s'
(* the packets sent in the main loop: PUBREC, PUBREL, PUBCOMP, PINGRESP *)
| PC_tx g p ok : e = ETx g p true ok ->
    (exists id, p = Pubrec id /\ pp s = PPubrec id) \/ (exists id, p = Pubrel id /\ pp s = PRelTx id) \/
    (exists id, p = Pubcomp id /\ pp s = PCompTx id) \/ (p = Pingresp /\ pp s = PPing) ->
    s' = set_pp s (if ok then PLoop else PDieLog KTransport) -> proc_case s e s'
(* the way out *)
| PC_close g : e = EConnClose g -> pp s = PDisc \/ pp s = PDieClose -> s' = set_pp (set_dying s) PDone -> proc_case s e s'
| PC_die g k : e = EDie g k -> pp s = PDieLog k -> s' = set_pp s PDieClose -> proc_case s e s'
| PC_timeout g : e = EDie g KClient ->
    (wait_sub (pp s) = true /\ tsub s = 0) \/ (wait_pub (pp s) = true /\ tpub s = 0) ->
    s' = set_pp s PDieClose -> proc_case s e s'.

(* the one place where all pairs of control point and event are gone through *)
Lemma step_proc_cases s e s' : step_proc s e = Some s' -> proc_case s e s'.
Proof.
  intros H. unfold step_proc in H. rewrite ?proc_dispatch_eq in H. unfold die_p, guard, clo_reg in H.
  destruct (pp s) eqn:Epp; destruct e; try discriminate H; bm H; try inv_some H;
    repeat match goal with
    | Hx : _ && _ = true |- _ => apply andb_true_iff in Hx as [? ?]
    | Hx : (_ =? _) = true |- _ => apply N.eqb_eq in Hx
    | Hx : (_ <? _) = true |- _ => apply N.ltb_lt in Hx
    | Hx : Bool.eqb _ _ = true |- _ => apply Bool.eqb_prop in Hx
    | Hx : packet_eqb _ _ = true |- _ => apply packet_eqb_eq in Hx
    | Hx : message_eqb _ _ = true |- _ => apply message_eqb_eq in Hx
    | Hx : subs_eqb _ _ = true |- _ => apply subs_eqb_eq in Hx
    | Hx : list_eqb bytes_eqb _ _ = true |- _ => apply (list_eqb_eq _ bytes_eqb_eq) in Hx
    | Hx : list_eqb packet_eqb _ _ = true |- _ => apply (list_eqb_eq _ packet_eqb_eq) in Hx
    | Hx : opt_packet_eqb _ _ = true |- _ => apply (option_eqb_eq _ packet_eqb_eq) in Hx
    end; subst.
  all: repeat match goal with
       | Hx : take_sub _ = Some _ |- _ => apply take_sub_inv in Hx as [? ->]
       | Hx : take_pub _ = Some _ |- _ => apply take_pub_inv in Hx as [? ->]
       end.
  all: rewrite ?take_deq_if_any_eq.
  all: try (econstructor; eauto; fail).
  all: try (eapply PC_timeout; [reflexivity|rewrite Epp; auto|reflexivity]).
  all: try (eapply PC_lookup; [reflexivity|assumption|]; match goal with Hx : store_lookup _ _ = _ |- _ => rewrite Hx end; reflexivity).
  - eapply PC_all; [reflexivity|assumption|]. rewrite E2. reflexivity.
  - eapply PC_all; [reflexivity|assumption|]. rewrite E2. reflexivity.
  - rewrite proc_dispatch_eq in H. destruct (dispatch_pp p) eqn:Ed; [injection H as <-|discriminate H]. eapply PC_rx; eauto.
  - eapply (PC_tx _ _ _ g _ true); [reflexivity| |reflexivity]. right; right; left; eauto.
  - eapply (PC_tx _ _ _ g _ false); [reflexivity| |reflexivity]. right; right; left; eauto.
Qed.

(* ---------------------------------------------------------------- dequeuer *)

Inductive deq_case (s : bc) (e : event) (s' : bc) : Prop :=
| DC_call g : e = EDeqCall g -> dp s = DToken -> 0 < tdeq s ->
    s' = set_dp (set_tok s (tdeq s - 1) (tpub s) (tsub s)) DWait -> deq_case s e s'
| DC_timeout g : e = EDie g KClient -> dp s = DToken -> tdeq s = 0 -> s' = set_dp s DDieClose -> deq_case s e s'
| DC_nomsg g r x : e = EDeqRet g r -> dp s = DWait -> (r = QErr /\ x = DDieLog KBackend) \/ (r = QNone /\ x = DDone) ->
    s' = set_dp s x -> deq_case s e s'
| DC_msg g m ba : e = EDeqRet g (QMsg m ba) -> dp s = DWait ->
    s' = set_dp s (if m_qos m =? 0 then (if ba then DBackAck (Publish false m 0) else DSend (Publish false m 0))
                   else DNextId m ba) -> deq_case s e s'
| DC_nextid g m ba id c : e = ENextId g id -> dp s = DNextId m ba -> next_id (s_counter (sess s)) = (id, c) ->
    s' = set_dp (set_sess s (Sess c (s_in (sess s)) (s_out (sess s)))) (DSave (Publish false m id) ba) -> deq_case s e s'
| DC_save g p ba ok : e = ESave g Outgoing p ok -> dp s = DSave p ba ->
    s' = (if ok then set_dp (sess_save s Outgoing p) (if ba then DBackAck p else DSend p) else set_dp s (DDieLog KSession)) ->
    deq_case s e s'
| DC_backack g p : e = EDeqAck g -> dp s = DBackAck p -> s' = set_dp s (DSend p) -> deq_case s e s'
| DC_send g p ok : e = ETx g p true ok -> dp s = DSend p ->
    s' = (if ok then set_dp (match p with Publish _ m _ => if m_qos m =? 0 then put_deq s else s | _ => s end) DToken
          else set_dp s (DDieLog KTransport)) -> deq_case s e s'
| DC_die g k : e = EDie g k -> dp s = DDieLog k -> s' = set_dp s DDieClose -> deq_case s e s'
| DC_close g : e = EConnClose g -> dp s = DDieClose -> s' = set_dp (set_dying s) DDone -> deq_case s e s'.

Lemma step_deq_cases s e s' : step_deq s e = Some s' -> deq_case s e s'.
Proof.
  intros H. unfold step_deq, guard in H.
  destruct (dp s) eqn:Edp; destruct e; try discriminate H; bm H; try inv_some H;
    repeat match goal with
    | Hx : (_ =? _) = true |- _ => apply N.eqb_eq in Hx
    | Hx : packet_eqb _ _ = true |- _ => apply packet_eqb_eq in Hx
    | Hx : take_deq _ = Some _ |- _ => apply take_deq_inv in Hx as [? ->]
    end; subst.
  all: try (econstructor; eauto; fail).
  all: first [eapply DC_msg; [reflexivity|assumption|]|eapply (DC_send _ _ _ _ _ true); [reflexivity|eassumption|]];
       cbv beta iota; match goal with Hx : _ = _ |- _ => rewrite Hx end; reflexivity.
Qed.

(* ----------------------------------------------------------------- cleanup *)

Inductive cleanup_case (s : bc) (e : event) (s' : bc) : Prop :=
| LC_will g m : e = EPub g m None -> lp s = LNone -> all_stopped s = true -> ph s = Connected -> will s = Some m ->
    s' = set_lp (freeze s) LWillR -> cleanup_case s e s'
| LC_term0 g ok : e = ETerm g ok -> lp s = LNone -> all_stopped s = true -> phase_geq_connected (ph s) = true ->
    (ph s = Connected -> will s = None) -> s' = set_lp (freeze s) (if ok then LClosed else LTermDie) -> cleanup_case s e s'
| LC_closed0 : e = EClosed -> lp s = LNone -> all_stopped s = true -> ph s = Connecting ->
    s' = set_lp (freeze s) LEnd -> cleanup_case s e s'
| LC_willret g ok : e = EPubRet g ok -> lp s = LWillR -> s' = set_lp s (if ok then LTerm else LWillDie) -> cleanup_case s e s'
| LC_willdie g : e = EDie g KBackend -> lp s = LWillDie -> s' = set_lp s LTerm -> cleanup_case s e s'
| LC_term g ok : e = ETerm g ok -> lp s = LTerm -> s' = set_lp s (if ok then LClosed else LTermDie) -> cleanup_case s e s'
| LC_termdie g : e = EDie g KBackend -> lp s = LTermDie -> s' = set_lp s LClosed -> cleanup_case s e s'
| LC_closed : e = EClosed -> lp s = LClosed -> s' = set_lp s LEnd -> cleanup_case s e s'.

Lemma step_cleanup_cases s e s' : step_cleanup s e = Some s' -> cleanup_case s e s'.
Proof.
  intros H. unfold step_cleanup, guard in H.
  destruct (lp s) eqn:Elp; destruct e; try discriminate H; bm H; try inv_some H;
    repeat match goal with
    | Hx : _ && _ = true |- _ => apply andb_true_iff in Hx as [? ?]
    | Hx : message_eqb _ _ = true |- _ => apply message_eqb_eq in Hx
    end; subst.
  all: try (econstructor; first [reflexivity|eassumption]; fail).
  all: try (eapply LC_term0; try first [reflexivity|eassumption]; intros Ec; first [assumption|rewrite Ec in *; discriminate]).
  - eapply LC_will; try first [reflexivity|eassumption]. destruct (ph s); try discriminate; reflexivity.
  - eapply LC_closed0; try first [reflexivity|eassumption]. destruct (ph s); try discriminate; reflexivity.
Qed.

(* reduce the projections of the new states *)
Ltac sfp :=
  cbn [conn_no sess clos gproc gdeq gack gcl ph pp dp ap lp dying will cw cpp cps tdeq tpub tsub ackq
       set_pp set_dp set_ap set_lp set_sess set_clos set_dying set_tok set_ackq set_ph set_roles
       put_deq sess_save sess_delete setup_st reg_st use_sub use_pub] in *.

(* split the goal along the alternatives left open in the new control point of a case
   (the outcome [ok], the result of Auth, the kind of packet, what a lookup found) *)
Ltac pp_cases :=
  unfold resend_next, dispatch_st, setup_st;
  repeat match goal with
  | |- context [if ?b then _ else _] => is_var b; destruct b
  | |- context [match ?x with _ => _ end] => is_var x; destruct x
  | |- context [match store_all ?a with _ => _ end] => destruct (store_all a) eqn:Eall
  | |- context [match store_lookup ?a ?b with _ => _ end] => destruct (store_lookup a b) as [[]|] eqn:Elk
  end.

(* the case analysis with fixed names: the event and the new state are substituted; [Hpp]
   says where the processor stood, [Htok] that a token was there, [Hk] that the closure key
   is fresh *)
Ltac inv_proc H :=
  destruct (step_proc_cases _ _ _ H) as
    [g0 p0 -> Hpp -> | g0 -> Hpp -> | g0 c0 r0 -> Hpp -> | g0 ok0 -> Hpp -> | g0 c0 -> Hpp ->
    | g0 c0 rs0 fr0 w0 p0 b0 -> Hpp Hcw Hcp Hcb -> | g0 c0 rs0 ok0 -> Hpp -> | g0 -> Hpp -> | g0 -> Hpp ->
    | g0 p0 rest0 ok0 -> Hpp -> | g0 ok0 -> Hpp ->
    | g0 p0 x0 -> Hpp Hd -> | g0 id0 subs0 k0 -> Hpp Htok Hk -> | g0 id0 ts0 k0 -> Hpp Htok Hk ->
    | g0 ok0 -> Hpp -> | g0 ok0 -> Hpp -> | g0 ok0 -> Hpp -> | g0 m0 -> Hpp ->
    | g0 id0 m0 k0 -> Hpp Htok Hk -> | g0 p0 id0 -> Hpp Htok Hid -> | g0 p0 -> Hpp Htok ->
    | g0 id0 ok0 -> Hpp -> | g0 id0 ok0 -> Hpp -> | g0 id0 -> Hpp -> | g0 id0 -> Hpp -> | g0 id0 m0 k0 -> Hpp Hk ->
    | g0 p0 ok0 -> Htx -> | g0 -> Hpp -> | g0 k0 -> Hpp -> | g0 -> Hpp ->].

(* the new control point of the main loop, by the packet received *)
Ltac dispatch_cases H :=
  match type of H with
  | dispatch_pp ?p = Some _ =>
      destruct p; first [apply dispatch_publish in H as [[-> ?]|[[-> ?]|[-> ?]]] | cbn [dispatch_pp] in H; injection H as <-]
  end.

(* the same for a step on a given event: the cases of other events are discarded, [Ee]
   equates the event with the one of the case *)
Ltac inv_proc_ev H :=
  match type of H with
  | step_proc _ ?ev = _ => let e := fresh "e" in remember ev as e eqn:Ee in H; inv_proc H; try discriminate Ee
  end.

(* after [inv_proc]: split the cases that leave alternatives for the control point the
   processor stood at, so that [Hpp] is an equation for [pp s] in every case *)
Ltac pp_split :=
  try match goal with
  | H : (wait_sub _ = true /\ _) \/ (wait_pub _ = true /\ _) |- _ => destruct H as [[Hpp Htok]|[Hpp Htok]]
  | H : pp _ = _ \/ pp _ = _ |- _ => destruct H as [Hpp|Hpp]
  | H : (exists id, _ = Pubrec id /\ _) \/ _ |- _ =>
      destruct H as [(? & -> & Hpp)|[(? & -> & Hpp)|[(? & -> & Hpp)|[-> Hpp]]]]
  end;
  try match goal with
  | H : wait_sub (pp ?s) = true |- _ =>
      let E := fresh "E" in destruct (pp s) eqn:E; try discriminate H; clear H; rename E into Hpp
  | H : wait_pub (pp ?s) = true |- _ =>
      let E := fresh "E" in destruct (pp s) eqn:E; try discriminate H; clear H; rename E into Hpp
  end.
