(* ConnProofsD4.v — C07 progress, as a statement about the model state at quiescence:
   for every PUBREL received on the live connection and not yet answered with PUBCOMP
   there is a registered, not yet invoked acknowledgement closure for PUBCOMP id of
   this connection: only the backend's acknowledgement is outstanding.  Derived from
   the invariants of ConnProofsB7.v (the counting relation pa_rel behind
   c07_pubrel_answered). *)
From Coq Require Import List NArith Bool Lia Arith.
From GM Require Import Base.Lts Codec.Packet Session.Ids Session.Store
  Broker.Conn Broker.ConnSpec Broker.ConnSpec2 Broker.ConnSpec5 Broker.ConnBase
  Broker.ConnProofsB1 Broker.ConnProofsB3 Broker.ConnProofsB4 Broker.ConnProofsB7.
From GM Require Broker.ConnProofsD2.
Import ListNotations.
Open Scope N_scope.

(* the pending list of the c07_pubrel_answered scanner is pending_pubrels *)
Lemma pa_pend_step w e w' : pa_step w e = Some w' -> pa_pend w' = pend_step (pa_pend w) e.
Proof.
  intros H. destruct e; cbn [pa_step] in H; try (injection H as <-; reflexivity).
  - cbn [pend_step]. destruct p; try (injection H as <-; reflexivity).
    destruct ok; injection H as <-; reflexivity.
  - destruct k; [|injection H as <-; reflexivity].
    destruct (aget (pa_last w) g) as [[]|]; injection H as <-; reflexivity.
  - destruct (forallb _ _); [injection H as <-; reflexivity|discriminate H].
Qed.

Lemma pa_pend_run es : forall w w', Lts.run pa_step w es = Some w' -> pa_pend w' = fold_left pend_step es (pa_pend w).
Proof.
  induction es as [|e es IH]; intros w w' H; cbn [Lts.run fold_left] in *.
  - injection H as <-. reflexivity.
  - destruct (pa_step w e) as [w1|] eqn:E; [|discriminate H].
    rewrite (IH _ _ H), (pa_pend_step _ _ _ E). reflexivity.
Qed.

(* in every reachable state the counting relation holds for the pending list of the trace *)
Lemma pa_rel_reachable es s : bc_run es = Some s ->
  exists w, pa_pend w = pending_pubrels es /\ inv_c07 s /\ pa_rel s w.
Proof.
  intros Hrun.
  assert (H0 : pa_rel bc_init (PaSt [] [] [])).
  { split; [exact I|]. split; [intros c id []|]. split; [discriminate|].
    intros _ Hnd. exfalso. apply Hnd. right. right. left. reflexivity. }
  destruct (run_rel_inv pa_step inv_c07 pa_rel inv_c07_step pa_hstep es bc_init _ s inv_c07_init H0 Hrun)
    as (w & Hw & Hi & Hr).
  exists w. split; [|split; assumption]. rewrite (pa_pend_run _ _ _ Hw). reflexivity.
Qed.

(* a closure of the current connection that stands for PUBCOMP id and has not been invoked *)
Definition awaits_ack (s : bc) (id : N) (c : closure) : Prop :=
  In c (clos s) /\ c_conn c = conn_no s /\ c_kind c = KPubcomp id /\ c_stat c = CReg.

Theorem pubrel_waits_for_ack_state : forall es s, bc_run es = Some s -> quiescent s = true ->
  forall id, In id (pending_pubrels es) -> exists c, awaits_ack s id c.
Proof.
  intros es s Hrun Hq id Hid.
  destruct (pa_rel_reachable es s Hrun) as (w & Hw & Hi & (_ & _ & (_ & HN))).
  destruct (quiescent_inv _ Hq) as (Epp & Eq & Hnd & Hidle).
  rewrite <- Hw in Hid. apply in_cnt_pos in Hid.
  assert (Hp : pre_loop (pp s) = false) by (rewrite Epp; reflexivity).
  specialize (HN Hp Hnd id). unfold bound in HN. rewrite Epp, Eq in HN. cbn [proc_n cntb filter length] in HN.
  destruct (cntb_pos (clo_pend (conn_no s) id) (clos s) ltac:(unfold cntb in *; lia)) as (c & Hc & Fc).
  unfold clo_pend in Fc. apply andb_true_iff in Fc. destruct Fc as [Fc F3]. apply andb_true_iff in Fc. destruct Fc as [F1 F2].
  destruct (c_kind c) eqn:Ek; try discriminate F2. apply N.eqb_eq in F2. subst id0. apply N.eqb_eq in F1.
  specialize (Hidle _ Hc). unfold clo_idle in Hidle.
  exists c. split; [exact Hc|split; [exact F1|split; [exact Ek|]]].
  destruct (c_stat c); try discriminate F3; try discriminate Hidle; reflexivity.
Qed.

(* the same over traces only: the harness' quiescence marker is accepted exactly in
   quiescent states *)
Theorem pubrel_waits_for_ack : forall es s, bc_run (es ++ [EQuiescent]) = Some s ->
  forall id, In id (pending_pubrels es) -> exists c, awaits_ack s id c.
Proof.
  intros es s Hrun id Hid. unfold bc_run in Hrun.
  destruct (Lts.run_prefix _ _ step _ _ _ _ Hrun) as (s1 & H1 & H2).
  cbn [Lts.run step] in H2. unfold guard in H2. destruct (quiescent s1) eqn:Hq; [|discriminate H2].
  injection H2 as <-. eapply pubrel_waits_for_ack_state; eassumption.
Qed.

(* ------------------------------------------------------------------------
   ... and once the backend does acknowledge, nothing else is needed: from the
   quiescent state the acknowledgement (on any goroutine g), the release of the stored
   PUBLISH, the closure's return and the acker's PUBCOMP are accepted in a row. *)

Lemma clo_find_set_same l k c st : clo_find l k = Some c ->
  clo_find (clo_set l k st) k = Some (Clo (c_k c) (c_conn c) (c_kind c) st).
Proof.
  induction l as [|x l IH]; cbn [clo_find clo_set]; [discriminate|].
  destruct (c_k x =? k) eqn:E.
  - intros H. injection H as <-. cbn [clo_find c_k]. rewrite E. reflexivity.
  - intros H. cbn [clo_find]. rewrite E. apply IH, H.
Qed.

Lemma clo_set_set l k a b : clo_set (clo_set l k a) k b = clo_set l k b.
Proof.
  induction l as [|x l IH]; cbn [clo_set]; [reflexivity|].
  destruct (c_k x =? k) eqn:E; cbn [clo_set c_k]; rewrite E; [reflexivity|]. f_equal. exact IH.
Qed.

Lemma clo_del_find_set l k c g id :
  (forall x, In x l -> clo_idle x = true) -> clo_find l k = Some c -> c_kind c = KPubcomp id ->
  clo_del_find (clo_set l k (CDel g)) g id = Some (Clo (c_k c) (c_conn c) (c_kind c) (CDel g)).
Proof.
  induction l as [|x l IH]; cbn [clo_find clo_set]; [discriminate|]. intros Hidle Hf Hk.
  destruct (c_k x =? k) eqn:E.
  - injection Hf as <-. cbn [clo_del_find c_stat c_kind]. rewrite Hk, !N.eqb_refl. reflexivity.
  - cbn [clo_del_find]. pose proof (Hidle x (or_introl eq_refl)) as Hx. unfold clo_idle in Hx.
    assert (Hr : clo_del_find (clo_set l k (CDel g)) g id = Some (Clo (c_k c) (c_conn c) (c_kind c) (CDel g))).
    { apply IH; [intros y Hy; apply Hidle; right; exact Hy|exact Hf|exact Hk]. }
    destruct (c_stat x); try discriminate Hx; exact Hr.
Qed.

Lemma idle_set_done l k : (forall x, In x l -> clo_idle x = true) -> forallb clo_idle (clo_set l k CDone) = true.
Proof.
  induction l as [|x l IH]; intros H; cbn [clo_set forallb]; [reflexivity|].
  destruct (c_k x =? k); cbn [forallb].
  - apply andb_true_iff. split; [reflexivity|]. apply forallb_forall. intros y Hy. apply H. right. exact Hy.
  - rewrite (H x (or_introl eq_refl)). apply IH. intros y Hy. apply H. right. exact Hy.
Qed.

(* the four events, with explicit successor states *)
Section AckRun.
  Variables (s : bc) (c : closure) (id g : N).
  Hypothesis Hq : quiescent s = true.
  Hypothesis Hnd : NoDup (ckeys (clos s)).
  Hypothesis Hc : awaits_ack s id c.

  Let k := c_k c.
  Let s1 := set_clos s (clo_set (clos s) k (CDel g)).
  Let c1 := Clo (c_k c) (c_conn c) (c_kind c) (CDel g).
  Let s2 := set_clos (clo_enqueue (sess_delete s1 Incoming id) c1) (clo_set (clos s1) k (CRun g)).
  Let s3 := set_clos s2 (clo_set (clos s2) k CDone).

  Lemma ack_facts : pp s = PLoop /\ ap s = AIdle /\ ackq s = [] /\ lp s = LNone /\
                    (forall x, In x (clos s) -> clo_idle x = true) /\ clo_find (clos s) k = Some c.
  Proof.
    destruct (quiescent_inv _ Hq) as (Epp & Eq & _ & Hidle).
    pose proof Hq as H. unfold quiescent in H.
    apply andb_true_iff in H. destruct H as [H Q8]. apply andb_true_iff in H. destruct H as [H Q7].
    apply andb_true_iff in H. destruct H as [H Q6]. apply andb_true_iff in H. destruct H as [H Q5].
    destruct Hc as (Hin & _).
    split; [exact Epp|]. split; [destruct (ap s); try discriminate Q5; reflexivity|]. split; [exact Eq|].
    split; [destruct (lp s); try discriminate Q7; reflexivity|]. split; [exact Hidle|].
    apply clo_find_nodup; assumption.
  Qed.

  Lemma in_closure_idle_all g' : in_closure s g' = false.
  Proof.
    destruct ack_facts as (_ & _ & _ & _ & Hidle & _). unfold in_closure.
    destruct (existsb (clo_on g') (clos s)) eqn:E; [|reflexivity].
    apply existsb_exists in E. destruct E as (x & Hx & Ex). specialize (Hidle x Hx).
    unfold clo_idle in Hidle. unfold clo_on in Ex. destruct (c_stat x); discriminate.
  Qed.

  Lemma ack_step1 : step s (EAckCall k g) = Some s1.
  Proof.
    destruct ack_facts as (_ & _ & _ & _ & _ & Hf). destruct Hc as (_ & _ & Hk & Hst).
    cbn [step step_clo]. rewrite Hf, Hst, in_closure_idle_all, Hk. reflexivity.
  Qed.

  Lemma ack_step2 : step s1 (EDelete g Incoming id true) = Some s2.
  Proof.
    destruct ack_facts as (_ & _ & _ & Hl & Hidle & Hf). destruct Hc as (_ & _ & Hk & _).
    assert (Hd : clo_del_find (clos s1) g id = Some c1) by (apply clo_del_find_set; assumption).
    unfold step. assert (Ho : conn_open s1 = true) by (unfold conn_open, s1; sf; rewrite Hl; reflexivity).
    rewrite Ho. cbn [negb ev_g]. cbn [step_clo]. rewrite Hd. reflexivity.
  Qed.

  Lemma ack_clos2 : clos s2 = clo_set (clos s) k (CRun g).
  Proof. unfold s2, s1, clo_enqueue. destruct (clo_live _ c1); sf; apply clo_set_set. Qed.

  Lemma ack_step3 : step s2 (EAckRet k g) = Some s3.
  Proof.
    destruct ack_facts as (_ & _ & _ & _ & _ & Hf).
    cbn [step step_clo]. rewrite ack_clos2, (clo_find_set_same _ _ _ (CRun g) Hf). cbn [c_stat].
    unfold guard. rewrite N.eqb_refl. rewrite <- ack_clos2. reflexivity.
  Qed.

  Lemma ack_state3 :
    clos s3 = clo_set (clos s) k CDone /\ ackq s3 = [Pubcomp id] /\ ap s3 = AIdle /\ lp s3 = LNone /\
    gproc s3 = gproc s /\ gdeq s3 = gdeq s /\ gack s3 = gack s /\ gcl s3 = gcl s.
  Proof.
    destruct ack_facts as (_ & Hap & Hqe & Hl & _ & _). destruct Hc as (_ & Hcn & Hk & _).
    assert (Hlive : clo_live (sess_delete s1 Incoming id) c1 = true).
    { unfold clo_live, c1, s1. sf. cbn [c_conn]. rewrite Hcn, N.eqb_refl, Hl. reflexivity. }
    unfold s3. rewrite ack_clos2. unfold s2, clo_enqueue. rewrite Hlive. unfold s1, c1. sf. cbn [c_kind]. rewrite Hk.
    cbn [ack_packet]. rewrite Hqe, clo_set_set. repeat split; assumption.
  Qed.

  (* the acker (ga: its goroutine, or one new to the connection) sends the PUBCOMP *)
  Lemma ack_step4 ga :
    ConnProofsD2.roles_ok s -> ConnProofsD2.cl_ok s ->
    (gack s = Some ga \/ (gack s = None /\ role_free s ga = true)) ->
    exists s4, step s3 (ETx ga (Pubcomp id) true true) = Some s4 /\ ackq s4 = [].
  Proof.
    intros Hro Hcl Hga.
    destruct ack_state3 as (Hcl3 & Hq3 & Hap3 & Hl3 & G1 & G2 & G3 & G4).
    destruct ack_facts as (_ & _ & _ & Hl & Hidle & _).
    assert (Hic : in_closure s3 ga = false).
    { unfold in_closure. rewrite Hcl3. pose proof (idle_set_done _ k Hidle) as Hall.
      destruct (existsb (clo_on ga) (clo_set (clos s) k CDone)) eqn:E; [|reflexivity].
      apply existsb_exists in E. destruct E as (x & Hx & Ex). rewrite forallb_forall in Hall. specialize (Hall x Hx).
      unfold clo_idle in Hall. unfold clo_on in Ex. destruct (c_stat x); discriminate. }
    assert (Ho : conn_open s3 = true) by (unfold conn_open; rewrite Hl3; reflexivity).
    assert (Htake : ackq_take (ackq s3) (Pubcomp id) = Some []).
    { rewrite Hq3. cbn [ackq_take packet_eqb]. rewrite N.eqb_refl. reflexivity. }
    unfold step. rewrite Ho. cbn [negb ev_g step_clo first_some]. rewrite Hic, G1, G2, G3, G4.
    destruct Hga as [Hga|(Hga & Hf)].
    - destruct (Hro ga) as (H1 & H2 & _).
      assert (R1 : is_role (gproc s) ga = false).
      { apply is_role_false_of. intros E. destruct (H1 E) as (_ & Hx & _). contradiction. }
      assert (R2 : is_role (gdeq s) ga = false).
      { apply is_role_false_of. intros E. destruct (H2 E) as (Hx & _). contradiction. }
      rewrite R1, R2, Hga. cbn [is_role]. rewrite N.eqb_refl.
      unfold step_ack. rewrite Hap3, Htake. eexists. split; [reflexivity|]. reflexivity.
    - destruct (role_free_inv _ _ Hf) as (R1 & R2 & R3 & R4).
      rewrite R1, R2, R3, R4. unfold bind, learn_ack, guard. rewrite G3, Hga.
      assert (Hf3 : role_free s3 ga = true) by (unfold role_free; rewrite G1, G2, G3, G4; exact Hf).
      rewrite Hf3. unfold step_ack.
      change (ap (set_roles s3 (gproc s3) (gdeq s3) (Some ga) (gcl s3))) with (ap s3).
      change (ackq (set_roles s3 (gproc s3) (gdeq s3) (Some ga) (gcl s3))) with (ackq s3).
      rewrite Hap3, Htake. eexists. split; [reflexivity|]. reflexivity.
  Qed.
End AckRun.

(* the acker's goroutine if it has one, else a number new to the connection *)
Definition ack_g (s : bc) : N := match gack s with Some g => g | None => ConnProofsD2.fresh_g s end.

Theorem ack_leads_to_pubcomp : forall es s, bc_run es = Some s -> quiescent s = true ->
  forall id c, awaits_ack s id c -> forall g,
  let tail := [EAckCall (c_k c) g; EDelete g Incoming id true; EAckRet (c_k c) g; ETx (ack_g s) (Pubcomp id) true true] in
  (exists s', Lts.run step s tail = Some s' /\ ackq s' = []) /\
  pending_pubrels (es ++ tail) = nremove1 id (pending_pubrels es).
Proof.
  intros es s Hrun Hq id c Hc g tail. split.
  - destruct (pa_rel_reachable es s Hrun) as (w & _ & (Hnd & _) & _).
    destruct (ConnProofsD2.inv_reachable es s Hrun) as (Hro & Hcl & _).
    assert (Hga : gack s = Some (ack_g s) \/ (gack s = None /\ role_free s (ack_g s) = true)).
    { unfold ack_g. destruct (gack s); [left; reflexivity|right; split; [reflexivity|apply ConnProofsD2.fresh_role_free]]. }
    destruct (ack_step4 s c id g Hq Hnd Hc (ack_g s) Hro Hcl Hga) as (s4 & H4 & Hq4).
    exists s4. split; [|exact Hq4]. unfold tail. cbn [Lts.run].
    rewrite (ack_step1 s c id g Hq Hnd Hc), (ack_step2 s c id g Hq Hnd Hc), (ack_step3 s c id g Hq Hnd Hc), H4.
    reflexivity.
  - unfold pending_pubrels, tail. rewrite fold_left_app. reflexivity.
Qed.
