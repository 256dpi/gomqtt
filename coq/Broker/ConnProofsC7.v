(* ConnProofsC7.v — C16, main theorem: if the window does not shrink between the
   connections of a session (c16_window_const), the inflight bound c16_bound holds of
   every accepted trace.  Ingredients: the hypothesis scanner tracks the ids of the
   outgoing store (RKA); unless the peer sent a spurious acknowledgement, the ids in
   flight are ids of stored packets (RF) and stored packets + free slots + the slot
   held by the dequeuer fit the window (RT), so every resume fits the window. *)
From Coq Require Import List NArith Bool Lia ZArith ZifyN ZifyNat ZifyBool.
From GM Require Import Base.Lts Codec.Packet Session.Ids Session.Store Session.StoreProofs
  Broker.Conn Broker.ConnSpec Broker.ConnBase Broker.ConnProofsCDefs Broker.ConnProofsC0 Broker.ConnProofsC1
  Broker.ConnProofsC4.
Import ListNotations.
Open Scope N_scope.

(* ------------------------------- the hypothesis scanner tracks the store's ids *)

Lemma delete_length_le st i : (length (store_delete st i) <= length st)%nat.
Proof.
  induction st as [|[k q] st IH]; cbn [store_delete]; [lia|]. destruct (i =? k); cbn [length]; lia.
Qed.

Definition okeys (s : bc) : list N := keys (s_out (sess s)).

Definition RKA (s : bc) (v : pk_st) : Prop :=
  pk_ids v = okeys s /\ (cw s <> 0 -> pk_last v = cw s).

Lemma keys_save_pk st p i ids :
  ids = keys st -> get_id p = Some i ->
  (if nmem i ids then ids else ids ++ [i]) = keys (store_save st p).
Proof.
  intros -> G. rewrite keys_save, G. reflexivity.
Qed.

Lemma resend_head s p rest : INV s -> pp s = PResend (p :: rest) ->
  dp s = DOff /\ has_key (s_out (sess s)) p /\ cokb p = true /\
  keys (store_save (s_out (sess s)) (set_dup p)) = keys (s_out (sess s)).
Proof.
  intros HI Hpp. pose proof (I_resend _ HI) as Hr. rewrite Hpp in Hr. destruct Hr as [Hk Hc].
  inversion Hk as [|? ? Hp _]; subst. inversion Hc as [|? ? Hcp _]; subst.
  split; [apply (I_pre _ HI); rewrite Hpp; reflexivity|]. split; [exact Hp|]. split; [exact Hcp|apply resend_save_keys, Hp].
Qed.

Lemma RKA_frame s s' v : okeys s' = okeys s -> cw s' = cw s -> RKA s v -> RKA s' v.
Proof. intros Ek Ec [H1 H2]. split; rewrite ?Ek, ?Ec; assumption. Qed.

Lemma pk_dull v e : dull e = true -> pk_step v e = Some v.
Proof. intros H. by_dull e H. Qed.

Lemma RKA_proc s v e s' v' : INV s -> RKA s v -> step_proc s e = Some s' -> pk_step v e = Some v' -> RKA s' v'.
Proof.
  intros HI HK H Hv. pose proof HK as [Hk Hw].
  destruct (step_proc_inv _ _ _ H); subst; cbn [pk_step] in Hv;
    try (injection Hv as <-; try destruct H0 as [->| ->]; try destruct ok; try destruct r; (apply (RKA_frame s); [reflexivity|reflexivity|exact HK])).
  - (* Setup *)
    destruct (fresh || (pk_last v <=? w)); [|discriminate Hv]. injection Hv as <-.
    unfold setup_st. destruct fresh; split; unfold okeys; bcs; cbn [pk_ids pk_last]; try reflexivity; exact Hk.
  - (* Resend: the packet is stored already *)
    injection Hv as <-. destruct (resend_head _ _ _ HI Hpp) as (_ & _ & _ & Es).
    apply (RKA_frame s); [|reflexivity|exact HK]. unfold okeys. bcs. exact Es.
  - (* AckDel *)
    destruct ok; injection Hv as <-; [|apply (RKA_frame s); [reflexivity|reflexivity|exact HK]].
    split; unfold okeys; bcs; cbn [pk_ids pk_last]; [|exact Hw]. rewrite Hk. symmetry. apply keys_delete, (I_nodup _ HI).
  - (* RecSave *)
    destruct ok; injection Hv as <-; [|apply (RKA_frame s); [reflexivity|reflexivity|exact HK]].
    split; unfold okeys; bcs; cbn [pk_ids pk_last]; [|exact Hw]. apply keys_save_pk; [exact Hk|reflexivity].
  - rewrite (pk_dull _ _ He) in Hv. injection Hv as <-. destruct Hc. apply (RKA_frame s); [unfold okeys; congruence|assumption|exact HK].
Qed.

Lemma RKA_deq s v e s' v' : INV s -> RKA s v -> step_deq s e = Some s' -> pk_step v e = Some v' -> RKA s' v'.
Proof.
  intros HI HK H Hv. pose proof HK as [Hk Hw].
  destruct (step_deq_inv _ _ _ (I_shape _ HI) H); subst; cbn [pk_step] in Hv;
    try (injection Hv as <-; try destruct ok; try destruct (m_qos m =? 0); (apply (RKA_frame s); [reflexivity|reflexivity|exact HK])).
  - destruct (nmem id (pk_ids v)); [discriminate Hv|]. injection Hv as <-. apply (RKA_frame s); [reflexivity|reflexivity|exact HK].
  - (* Save *)
    destruct ok; injection Hv as <-; [|apply (RKA_frame s); [reflexivity|reflexivity|exact HK]].
    split; unfold okeys; [|destruct ba; exact Hw]. cbn [pk_ids]. rewrite (keys_save_pk (s_out (sess s)) (Publish false m id) id _ Hk eq_refl). destruct ba; reflexivity.
Qed.
(* --------------------------------------- in flight ids are ids of stored packets *)

Lemma In_fl_add x id fl : In x (fl_add id fl) <-> x = id \/ In x fl.
Proof.
  unfold fl_add. destruct (nmem id fl) eqn:En.
  - apply nmem_true_iff in En. split; [intros H; right; exact H|intros [->|H]; assumption].
  - cbn [In]. split; [intros [E|H]; [left; symmetry; exact E|right; exact H]|intros [->|H]; [left; reflexivity|right; exact H]].
Qed.

Lemma NoDup_fl_add id fl : NoDup fl -> NoDup (fl_add id fl).
Proof.
  unfold fl_add. destruct (nmem id fl) eqn:En; intros H; [exact H|]. constructor; [|exact H].
  intros C. apply nmem_true_iff in C. congruence.
Qed.

Lemma fl_add_in id fl : In id fl -> fl_add id fl = fl.
Proof. intros H. unfold fl_add. apply nmem_true_iff in H. rewrite H. reflexivity. Qed.

Lemma counted_get_id p id : counted_id p = Some id -> get_id p = Some id.
Proof. destruct p; cbn [counted_id get_id]; try discriminate; [destruct (m_qos m =? 0); [discriminate|]|]; intros H; exact H. Qed.

(* the id of the QoS>0 PUBLISH the dequeuer has in hand; has it been saved? *)
Definition pend (d : dpc) : option N :=
  match d with DSave p _ | DBackAck p | DSend p => counted_id p | _ => None end.
Definition saved (d : dpc) : bool := match d with DBackAck _ | DSend _ => true | _ => false end.

Record RFr (s : bc) (t : wb_st) : Prop := MkRFr {
  F_nodup : NoDup (wb_fl t);
  F_sub : forall id, In id (wb_fl t) -> In id (okeys s);
  F_pend : forall id, pend (dp s) = Some id -> ~ In id (wb_fl t) /\ (saved (dp s) = true -> In id (okeys s));
  F_phase : match pp s with
            | PAckDel id => In id (okeys s) /\ ~ In id (wb_fl t) /\ pend (dp s) <> Some id
            | PRecSave id | PRelTx id => In id (okeys s) /\ In id (wb_fl t)
            | _ => True
            end }.
Lemma wb_spur_mono t e t' : wb_step t e = Some t' -> wb_spur t = true -> is_setup_ok e = false -> wb_spur t' = true.
Proof. intros H Hs He. destruct (wb_step_spur t e Hs He) as (t'' & E & Hs'). congruence. Qed.

(* a frame for RFr: same scanner state, same store ids, the dequeuer's pending id and the
   processor's obligation unchanged or gone *)
Lemma RFr_frame s s' t :
  okeys s' = okeys s ->
  (pend (dp s') = pend (dp s) /\ saved (dp s') = saved (dp s) \/ pend (dp s') = None) ->
  (pp s' = pp s \/ match pp s' with PAckDel _ | PRecSave _ | PRelTx _ => False | _ => True end) ->
  RFr s t -> RFr s' t.
Proof.
  intros Ek Ed Ep [H1 H2 H3 H4]. constructor; rewrite ?Ek; try assumption.
  - intros id Hp. destruct Ed as [[E1 E2]|E]; [rewrite E1 in Hp; rewrite E2; apply H3; exact Hp|rewrite E in Hp; discriminate Hp].
  - destruct Ep as [Ep|Ep].
    + rewrite Ep. destruct (pp s); try exact I; try exact H4.
      destruct H4 as (A & B & C). repeat split; try assumption.
      destruct Ed as [[E1 _]|E]; [rewrite E1; exact C|rewrite E; discriminate].
    + destruct (pp s'); try exact I; contradiction.
Qed.

Lemma RF_setup s t c resumed fresh w p b :
  INV s -> RW s t -> pp s = PSetup c ->
  RFr (setup_st s c resumed fresh w p b) (WbSt w (wb_fl t) (if fresh then false else wb_spur t)).
Proof.
  intros HI [_ Hfl] Hp.
  assert (Hn : wb_fl t = []) by (apply Hfl; rewrite Hp; reflexivity).
  pose proof (setup_dp_off _ _ HI Hp) as Hd.
  unfold setup_st. destruct fresh; constructor; bcsimpl; cbn [wb_fl]; rewrite ?Hn, ?Hd; cbn [pend].
  all: first [apply NoDup_nil|exact I|intros ? C; discriminate C|intros ? []].
Qed.

Definition plain_pp (p : ppc) : Prop := match p with PAckDel _ | PRecSave _ | PRelTx _ => False | _ => True end.

Lemma loop_plain_pp x : loop_pc x = true -> plain_pp x.
Proof. destruct x; try discriminate; intros _; exact I. Qed.

(* an acknowledgement arrives: in flight -> the processor's obligation is justified; else spurious *)
Lemma RF_ack s t g p id t' X :
  RFr s t -> p = Puback id \/ p = Pubcomp id -> wb_step t (ERx g p) = Some t' ->
  X = PAckDel id \/ plain_pp X -> wb_spur t' = true \/ RFr (set_pp s X) t'.
Proof.
  intros [F1 F2 F3 F4] Hp Hw HX.
  rewrite (wb_ack _ _ _ _ Hp) in Hw. injection Hw as <-. destruct (nmem id (wb_fl t)) eqn:En; [right|left; reflexivity].
  apply nmem_true_iff in En. destruct (nodup_nremove1 id _ F1) as [N1 N2].
  constructor; unfold okeys in *; bcs; cbn [wb_fl].
  - exact N1.
  - intros x Hx. apply F2. eapply in_nremove1. exact Hx.
  - intros x Hx. destruct (F3 x Hx) as [A B]. split; [intros C; apply A; eapply in_nremove1; exact C|exact B].
  - destruct HX as [->|HX]; [|destruct X; try exact I; contradiction].
    split; [apply F2; exact En|]. split; [exact N2|].
    intros C. destruct (F3 id C) as [A _]. contradiction.
Qed.

Lemma RF_rec s t g id t' X :
  RFr s t -> wb_step t (ERx g (Pubrec id)) = Some t' ->
  X = PRecSave id \/ plain_pp X -> wb_spur t' = true \/ RFr (set_pp s X) t'.
Proof.
  intros [F1 F2 F3 F4] Hw HX. cbn [wb_step] in Hw.
  destruct (nmem id (wb_fl t)) eqn:En; injection Hw as <-; [right|left; reflexivity].
  apply nmem_true_iff in En.
  constructor; unfold okeys in *; bcs; try assumption.
  destruct HX as [->|HX]; [|destruct X; try exact I; contradiction].
  split; [apply F2; exact En|exact En].
Qed.

Lemma RF_rx s t g p t' X :
  RFr s t -> wb_step t (ERx g p) = Some t' -> (rx_pc p X \/ plain_pp X) -> wb_spur t' = true \/ RFr (set_pp s X) t'.
Proof.
  intros HF Hw HX.
  assert (Hplain : plain_pp X -> wb_step t (ERx g p) = Some t -> wb_spur t' = true \/ RFr (set_pp s X) t').
  { intros Hp E. rewrite E in Hw. injection Hw as <-. right. (eapply RFr_frame; [| | |exact HF]); [reflexivity|left; split; reflexivity|right].
    bcs. destruct X; try exact I; contradiction. }
  destruct p; try (apply Hplain; [destruct HX as [HX|HX]; [apply loop_plain_pp, HX|exact HX]|reflexivity]).
  - eapply RF_ack; [exact HF|left; reflexivity|exact Hw|exact HX].
  - eapply RF_rec; [exact HF|exact Hw|exact HX].
  - eapply RF_ack; [exact HF|right; reflexivity|exact Hw|exact HX].
Qed.

(* a counted packet is sent successfully: its id joins the ids in flight *)
Lemma wb_tx_counted t g p a id t' :
  counted_id p = Some id -> wb_step t (ETx g p a true) = Some t' ->
  t' = WbSt (wb_w t) (fl_add id (wb_fl t)) (wb_spur t).
Proof.
  intros Hc Hw. rewrite wb_tx_ok, Hc in Hw.
  destruct (wb_spur t || (N.of_nat (length (fl_add id (wb_fl t))) <=? wb_w t)); [injection Hw as <-; reflexivity|discriminate].
Qed.

Lemma wb_tx_uncounted t g p a t' : counted_id p = None -> wb_step t (ETx g p a true) = Some t' -> t' = t.
Proof. intros Hc Hw. rewrite wb_tx_ok, Hc in Hw. injection Hw as <-. reflexivity. Qed.

Lemma RFr_proc s t v e s' t' v' :
  INV s -> RKA s v -> RW s t -> RFr s t -> is_setup_ok e = false ->
  step_proc s e = Some s' -> wb_step t e = Some t' -> pk_step v e = Some v' -> wb_spur t' = true \/ RFr s' t'.
Proof.
  intros HI [Hk _] HW HF Ese H Hw Hv.
  pose proof (I_nodup _ HI) as S1. pose proof HF as [F1 F2 F3 F4]. unfold out in *.
  (* the control point moves to one where the processor owes nothing; nothing else changes *)
  assert (Kpp : forall s0 x, okeys s0 = okeys s -> dp s0 = dp s -> plain_pp x -> wb_step t e = Some t -> wb_spur t' = true \/ RFr (set_pp s0 x) t').
  { intros s0 x Ek Ed Hx E. rewrite E in Hw. injection Hw as <-. right. (eapply RFr_frame; [| | |exact HF]); bcs;
      [exact Ek|left; rewrite Ed; split; reflexivity|right; destruct x; try exact I; contradiction]. }
  destruct (step_proc_inv _ _ _ H); subst; rewrite ?Hpp in *; try discriminate Ese.
  - eapply RF_rx; [exact HF|exact Hw|right; destruct p; exact I].
  - destruct r; apply Kpp; first [reflexivity|exact I].
  - apply Kpp; first [reflexivity|exact I].
  - apply Kpp; [reflexivity|reflexivity|destruct ok; exact I|reflexivity].
  - apply Kpp; [reflexivity|reflexivity|unfold resend_next; destruct (store_all (s_out (sess s))); exact I|reflexivity].
  - apply Kpp; first [reflexivity|exact I].
  - (* Resend: the packet is stored; its id joins the ids in flight *)
    destruct (resend_head _ _ _ HI Hpp) as (Hd & (i & Gi & Hin) & _ & Es).
    assert (Hx : plain_pp (if ok then resend_next rest else PDieLog KTransport)) by (destruct ok; [unfold resend_next; destruct rest|]; exact I).
    destruct ok; [|rewrite wb_tx_fail in Hw; injection Hw as <-; right;
                   (eapply RFr_frame; [exact Es| | |exact HF]); [right; bcs; rewrite Hd; reflexivity|right; exact I]].
    right. destruct (counted_id (set_dup p)) as [id|] eqn:Ec.
    + rewrite (wb_tx_counted _ _ _ _ _ _ Ec Hw). apply counted_get_id in Ec. rewrite get_id_set_dup, Gi in Ec. injection Ec as <-.
      constructor; cbn [wb_fl]; unfold okeys in *; bcs; rewrite ?Es, ?Hd; cbn [pend].
      * apply NoDup_fl_add. exact F1.
      * intros x Hx'. apply In_fl_add in Hx' as [->|Hx']; [exact Hin|apply F2; exact Hx'].
      * intros x C. discriminate C.
      * unfold resend_next. destruct rest; exact I.
    + rewrite (wb_tx_uncounted _ _ _ _ _ Ec Hw).
      (eapply RFr_frame; [exact Es| | |exact HF]); [right; bcs; rewrite Hd; reflexivity|right; exact Hx].
  - (* Restore *)
    cbn [wb_step] in Hw; injection Hw as <-; right. destruct ok;
      (eapply RFr_frame; [| | |exact HF]); unfold okeys; bcs; first [reflexivity|right; reflexivity|right; exact I|left; split; reflexivity].
  - (* a packet received in the main loop *)
    assert (HF0 : RFr s0 t) by (destruct H0 as [->| ->]; [exact HF|];
      (eapply RFr_frame; [| | |exact HF]); [reflexivity|left; split; reflexivity|left; reflexivity]).
    eapply RF_rx; [exact HF0|exact Hw|left; exact Hx].
  - (* AckDel *)
    cbn [wb_step] in Hw; injection Hw as <-. destruct ok; [|apply Kpp; first [reflexivity|exact I]]. right. destruct F4 as (A & B & C).
    assert (Ek : okeys (set_pp (put_deq (sess_delete s Outgoing id)) PLoop) = filter (fun j => negb (j =? id)) (okeys s)).
    { unfold okeys. bcs. apply keys_delete. exact S1. }
    constructor; rewrite ?Ek; bcs; try exact F1; try exact I.
    + intros x Hx. apply filter_In. split; [apply F2; exact Hx|].
      apply negb_true_iff, N.eqb_neq. intros ->. contradiction.
    + intros x Hx. destruct (F3 x Hx) as [P Q]. split; [exact P|]. intros Sv. apply filter_In. split; [apply Q; exact Sv|].
      apply negb_true_iff, N.eqb_neq. intros ->. contradiction.
  - (* RecSave *)
    cbn [wb_step] in Hw; injection Hw as <-. destruct ok; [|apply Kpp; first [reflexivity|exact I]]. right. destruct F4 as (A & B).
    assert (Ek : forall x, In x (okeys s) -> In x (okeys (set_pp (sess_save s Outgoing (Pubrel id)) (PRelTx id)))).
    { intros x Hx. unfold okeys. bcs. apply keys_save_mono. exact Hx. }
    constructor; bcs; try exact F1.
    + intros x Hx. apply Ek, F2, Hx.
    + intros x Hx. destruct (F3 x Hx) as [P Q]. split; [exact P|]. intros Sv. apply Ek, Q, Sv.
    + split; [apply Ek; exact A|exact B].
  - (* RelTx *)
    destruct F4 as (A & B). destruct ok; [|rewrite wb_tx_fail in Hw; apply Kpp; first [reflexivity|exact I]].
    rewrite (wb_tx_counted t g (Pubrel id) true id t' eq_refl Hw), (fl_add_in _ _ B). right.
    constructor; unfold okeys in *; bcs; cbn [wb_fl]; first [assumption|exact I].
  - apply Kpp; [reflexivity|reflexivity|destruct ok; exact I|eapply wb_tx_plain, own_reply_not_counted, Hp].
  - apply Kpp; first [reflexivity|exact I].
  - rewrite (wb_dull _ _ He) in Hw. injection Hw as <-. right. destruct Hc.
    (eapply RFr_frame; [| | |exact HF]); [unfold okeys; congruence|left; split; congruence|right; apply loop_plain_pp, Hx].
Qed.

Lemma RFr_deq s t v e s' t' v' :
  INV s -> RKA s v -> RFr s t ->
  step_deq s e = Some s' -> wb_step t e = Some t' -> pk_step v e = Some v' -> RFr s' t'.
Proof.
  intros HI [Hk _] HF H Hw Hv. pose proof HF as [F1 F2 F3 F4].
  (* the dequeuer's control point moves, its pending id stays or goes *)
  assert (Kdp : forall s0 x, okeys s0 = okeys s -> pp s0 = pp s ->
            (pend x = pend (dp s) /\ saved x = saved (dp s) \/ pend x = None) -> wb_step t e = Some t -> RFr (set_dp s0 x) t').
  { intros s0 x Ek Ep Hx E. rewrite E in Hw. injection Hw as <-. (eapply RFr_frame; [| | |exact HF]); bcs; [exact Ek|exact Hx|left; exact Ep]. }
  destruct (step_deq_inv _ _ _ (I_shape _ HI) H); subst; rewrite Hdp in F3, F4; cbn [pend saved counted_id] in F3, F4;
    try (apply Kdp; first [reflexivity|right; reflexivity]).
  - (* DeqRet: a QoS 0 message pends nothing *)
    apply Kdp; [reflexivity|reflexivity| |destruct r; reflexivity]. right.
    destruct r as [| |m ba]; cbn [deq_ret_pc]; try reflexivity. destruct (m_qos m =? 0) eqn:Eq; [destruct ba; cbn [pend counted_id]; rewrite Eq|]; reflexivity.
  - (* NextId: the new id is not stored, hence not in flight *)
    cbn [wb_step] in Hw; injection Hw as <-. cbn [pk_step] in Hv.
    destruct (nmem id (pk_ids v)) eqn:En; [discriminate Hv|].
    assert (Hnk : ~ In id (okeys s)). { rewrite <- Hk. intros C. apply nmem_true_iff in C. congruence. }
    constructor; unfold okeys in *; bcs; cbn [pend saved counted_id]; try assumption.
    + rewrite Hq. intros x E. injection E as <-. split; [intros C; apply Hnk, F2, C|discriminate].
    + destruct (pp s); try exact I; try exact F4. destruct F4 as (A & B & _). repeat split; try assumption.
      rewrite Hq. intros E. injection E as <-. contradiction.
  - (* Save *)
    cbn [wb_step] in Hw; injection Hw as <-. rewrite Hq in F3, F4. destruct ok; [|apply Kdp; first [reflexivity|right; reflexivity]].
    assert (Ek : forall x X, In x (okeys s) -> In x (okeys (set_dp (sess_save s Outgoing (Publish false m id)) X))).
    { intros x X Hx. unfold okeys. bcs. apply keys_save_mono. exact Hx. }
    assert (Eid : forall X, In id (okeys (set_dp (sess_save s Outgoing (Publish false m id)) X))).
    { intros X. unfold okeys. bcs. apply keys_save_new. reflexivity. }
    destruct (F3 id eq_refl) as [Hnf _].
    destruct ba; constructor; bcs; cbn [pend saved counted_id]; rewrite ?Hq; try exact F1.
    all: try (intros x Hx; apply Ek, F2, Hx).
    all: try (intros x E; injection E as <-; split; [exact Hnf|intros _; apply Eid]).
    all: destruct (pp s); try exact I; try (destruct F4 as (A & B); split; [apply Ek; exact A|exact B]);
         destruct F4 as (A & B & C); (split; [apply Ek; exact A|split; [exact B|exact C]]).
  - (* DeqAck *) apply Kdp; [reflexivity|reflexivity|left; rewrite Hdp; split; reflexivity|reflexivity].
  - (* Send *)
    destruct ok; [|rewrite wb_tx_fail in Hw; apply Kdp; first [reflexivity|right; reflexivity]].
    destruct (m_qos m =? 0) eqn:Eq.
    + assert (Et : t' = t) by (eapply wb_tx_uncounted; [|exact Hw]; cbn [counted_id]; rewrite Eq; reflexivity).
      subst t'. (eapply RFr_frame; [| | |exact HF]); [reflexivity|right; reflexivity|left; reflexivity].
    + assert (Et : t' = WbSt (wb_w t) (fl_add id (wb_fl t)) (wb_spur t))
        by (eapply wb_tx_counted; [|exact Hw]; cbn [counted_id]; rewrite Eq; reflexivity).
      subst t'. destruct (F3 id eq_refl) as [Hnf Hin]. specialize (Hin eq_refl).
      constructor; unfold okeys in *; bcs; cbn [wb_fl pend].
      * apply NoDup_fl_add. exact F1.
      * intros x Hx. apply In_fl_add in Hx as [->|Hx]; [exact Hin|apply F2; exact Hx].
      * intros x C. discriminate C.
      * destruct (pp s); try exact I.
        -- destruct F4 as (A & B & C). repeat split; try assumption; [|discriminate].
           intros Hx. apply In_fl_add in Hx as [->|Hx]; [apply C; reflexivity|contradiction].
        -- destruct F4 as (A & B). split; [exact A|apply In_fl_add; right; exact B].
        -- destruct F4 as (A & B). split; [exact A|apply In_fl_add; right; exact B].
Qed.

Lemma RFr_same s s' t : same_pd s s' -> RFr s t -> RFr s' t.
Proof.
  intros Hs. apply RFr_frame.
  - unfold okeys. rewrite (sp_out _ _ Hs). reflexivity.
  - left. rewrite (sp_dp _ _ Hs). split; reflexivity.
  - left. apply (sp_pp _ _ Hs).
Qed.

Lemma RFr_frozen s s' t : frozen s s' -> RFr s t -> RFr s' t.
Proof.
  intros Hf. apply RFr_frame.
  - unfold okeys. rewrite (fz_sess _ _ Hf). reflexivity.
  - right. rewrite (fz_dp _ _ Hf). destruct (dp s); reflexivity.
  - right. rewrite (fz_pp _ _ Hf). exact I.
Qed.

Lemma RFr_learned s s1 t : learned s s1 -> RFr s t -> RFr s1 t.
Proof.
  intros Hl. destruct Hl as (p & d & a & c & -> & _).
  apply RFr_frame; [reflexivity|left; split; reflexivity|left; reflexivity].
Qed.

(* ---------------------------------- stored packets + free slots fit the window *)

Definition held' (d : dpc) : N :=
  match d with
  | DWait | DNextId _ _ | DSave _ _ => 1
  | DBackAck p | DSend p => match counted_id p with None => 1 | Some _ => 0 end
  | _ => 0
  end.
Definition slen (s : bc) : N := N.of_nat (length (s_out (sess s))).

Record RTr (s : bc) (v : pk_st) : Prop := MkRTr {
  T_len : slen s <= pk_last v;
  T_phase : match pp s with
            | PConnack _ _ | PAll => tdeq s = cw s /\ 0 < cw s
            | PResend rest => N.of_nat (length rest) <= tdeq s /\ slen s + tdeq s <= cw s + N.of_nat (length rest) /\ 0 < cw s
            | PRestore => slen s + tdeq s <= cw s /\ 0 < cw s
            | _ => True
            end;
  T_J : dp s <> DOff -> slen s + tdeq s + held' (dp s) <= cw s /\ 0 < cw s }.

Definition plain_t (p : ppc) : Prop :=
  match p with PConnack _ _ | PAll | PResend _ | PRestore => False | _ => True end.

Lemma RTr_frame s s' v v' :
  slen s' = slen s -> pk_last v' = pk_last v -> tdeq s' = tdeq s -> cw s' = cw s ->
  (dp s' <> DOff -> dp s <> DOff /\ held' (dp s') <= held' (dp s)) ->
  (pp s' = pp s \/ plain_t (pp s')) -> RTr s v -> RTr s' v'.
Proof.
  intros El Ev Et Ec Ed Ep [H1 H2 H3]. constructor; rewrite ?El, ?Ev, ?Et, ?Ec.
  - exact H1.
  - destruct Ep as [Ep|Ep]; [rewrite Ep; exact H2|destruct (pp s'); try exact I; contradiction].
  - intros Hd. destruct (Ed Hd) as [Hd0 Hh]. destruct (H3 Hd0) as [A B]. split; [lia|exact B].
Qed.

Lemma RT_setup s v c g resumed fresh w p b v' :
  INV s -> pp s = PSetup c -> 0 < w ->
  pk_step v (ESetup g (SOk resumed fresh w p b)) = Some v' ->
  fresh = true \/ RTr s v ->
  RTr (setup_st s c resumed fresh w p b) v'.
Proof.
  intros HI Hp Hg Hv Hc.
  pose proof (setup_dp_off _ _ HI Hp) as Hd.
  cbn [pk_step] in Hv. destruct (fresh || (pk_last v <=? w)) eqn:Ef; [|discriminate Hv]. injection Hv as <-.
  unfold setup_st. constructor; unfold slen; cbn [pk_last].
  - destruct fresh; bcs; cbn [session_new s_out length]; [lia|].
    destruct Hc as [C|[H1 _ _]]; [discriminate C|]. cbn [orb] in Ef. apply N.leb_le in Ef. unfold slen in H1. lia.
  - destruct fresh; bcs; split; [reflexivity|exact Hg|reflexivity|exact Hg].
  - destruct fresh; bcs; rewrite Hd; intros C; contradiction.
Qed.

Lemma slen_keys s : slen s = N.of_nat (length (okeys s)).
Proof. unfold slen, okeys. rewrite keys_length. reflexivity. Qed.

Lemma pk_step_last v e v' : pk_step v e = Some v' -> is_setup_ok e = false -> pk_last v' = pk_last v.
Proof.
  intros H He. destruct e; cbn [pk_step] in H; try (injection H as <-; reflexivity).
  - destruct r; [injection H as <-; reflexivity|discriminate He].
  - destruct (nmem id (pk_ids v)); [discriminate H|injection H as <-; reflexivity].
  - destruct d; [injection H as <-; reflexivity|]. destruct ok; [|injection H as <-; reflexivity].
    destruct (get_id p); injection H as <-; reflexivity.
  - destruct d; [injection H as <-; reflexivity|]. destruct ok; injection H as <-; reflexivity.
Qed.

Lemma loop_plain_t x : loop_pc x = true -> plain_t x.
Proof. destruct x; try discriminate; intros _; exact I. Qed.

Lemma rx_plain_t p x : rx_pc p x -> plain_t x.
Proof. destruct p; cbn [rx_pc]; try apply loop_plain_t; intros ->; exact I. Qed.

Lemma RTr_proc s t v e s' v' :
  INV s -> RKA s v -> RFr s t -> RTr s v -> is_setup_ok e = false ->
  step_proc s e = Some s' -> pk_step v e = Some v' -> RTr s' v'.
Proof.
  intros HI [Hk Hlast] HF HT Ese H Hv. pose proof (pk_step_last _ _ _ Hv Ese) as Kl.
  pose proof (I_pre _ HI) as Hpre. pose proof (I_nodup _ HI) as S1.
  pose proof HF as [F1 F2 F3 F4]. pose proof HT as [T1 T2 T3]. unfold out in *.
  (* the control point leaves the phases the relation speaks of; nothing else changes *)
  assert (Kpp : forall s0 x, slen s0 = slen s -> tdeq s0 = tdeq s -> cw s0 = cw s -> dp s0 = dp s -> plain_t x -> RTr (set_pp s0 x) v').
  { intros s0 x E1 E2 E3 E4 Hx. (eapply RTr_frame; [| | | | | |exact HT]); bcs;
      first [assumption|right; assumption|intros Hd; rewrite E4 in *; split; [exact Hd|lia]]. }
  destruct (step_proc_inv _ _ _ H); subst; rewrite ?Hpp in *; cbn [pre_loop] in Hpre; try discriminate Ese.
  - apply Kpp; try reflexivity. destruct p; exact I.
  - destruct r; apply Kpp; first [reflexivity|exact I].
  - apply Kpp; first [reflexivity|exact I].
  - (* Connack *)
    destruct ok; [|apply Kpp; first [reflexivity|exact I]].
    constructor; unfold slen in *; bcs; rewrite ?Kl; [exact T1|exact T2|exact T3].
  - (* All: the store fits the window of the connection before, which is this one's *)
    destruct T2 as [Ht Hc]. assert (Hlw : pk_last v = cw s) by (apply Hlast; lia). destruct (Hpre eq_refl) as [Hd _].
    assert (Hlen : N.of_nat (length (store_all (s_out (sess s)))) = slen s) by (unfold slen, store_all; rewrite map_length; reflexivity).
    constructor; unfold slen in *; bcs; rewrite ?Kl; [exact T1| |rewrite Hd; intros C; contradiction].
    revert Hlen. unfold resend_next. destruct (store_all (s_out (sess s))); cbn [length]; intros Hlen; [split; [lia|exact Hc]|]. repeat split; [lia|lia|exact Hc].
  - apply Kpp; first [reflexivity|exact I].
  - (* Resend: a slot goes to the packet, which stays in the store *)
    destruct (resend_head _ _ _ HI Hpp) as (Hd & _ & _ & Ek).
    assert (Es : forall x, slen (set_pp (sess_save (set_tok s (tdeq s - 1) (tpub s) (tsub s)) Outgoing (set_dup p)) x) = slen s).
    { intros x. rewrite !slen_keys. unfold okeys. bcs. rewrite Ek. reflexivity. }
    constructor; rewrite ?Es, ?Kl; bcs; [exact T1| |rewrite Hd; intros C; contradiction].
    destruct ok; [|exact I]. destruct T2 as (Ta & Tb & Tc). cbn [length] in Ta, Tb.
    unfold resend_next. destruct rest; rewrite ?Es; cbn [length] in *; [split; [lia|exact Tc]|repeat split; [lia|lia|exact Tc]].
  - (* Restore *)
    destruct ok; [|apply Kpp; first [reflexivity|exact I]]. destruct T2 as [Ta Tb].
    constructor; unfold slen in *; bcs; rewrite ?Kl; cbn [held']; [exact T1|exact I|]. intros _. split; [lia|exact Tb].
  - destruct H0 as [->| ->]; apply Kpp; first [reflexivity|apply (rx_plain_t _ _ Hx)].
  - (* AckDel: the store shrinks, a slot is free again *)
    destruct ok; [|apply Kpp; first [reflexivity|exact I]]. destruct F4 as (A & _ & _).
    pose proof (delete_length (s_out (sess s)) id S1 A) as Hdl.
    constructor; unfold slen in *; bcs; rewrite ?Kl; [lia|exact I|].
    intros Hd. destruct (T3 Hd) as [Ta Tb]. split; [lia|exact Tb].
  - (* RecSave: the PUBREL replaces the PUBLISH *)
    destruct ok; [|apply Kpp; first [reflexivity|exact I]]. destruct F4 as (A & _).
    assert (Es : length (store_save (s_out (sess s)) (Pubrel id)) = length (s_out (sess s))).
    { rewrite <- !keys_length, keys_save_present; [reflexivity|]. intros j Hj. injection Hj as <-. exact A. }
    constructor; unfold slen in *; bcs; rewrite ?Es, ?Kl; [exact T1|exact I|exact T3].
  - apply Kpp; try reflexivity. destruct ok; exact I.
  - apply Kpp; try reflexivity. destruct ok; exact I.
  - apply Kpp; first [reflexivity|exact I].
  - destruct Hc. (eapply RTr_frame; [| | | | | |exact HT]); unfold slen;
      first [congruence|right; apply loop_plain_t, Hx|intros Hd; rewrite sc_dp in *; split; [exact Hd|lia]].
Qed.

Lemma RTr_deq s v e s' v' :
  INV s -> RKA s v -> RTr s v -> step_deq s e = Some s' -> pk_step v e = Some v' -> RTr s' v'.
Proof.
  intros HI [Hk Hlast] HT H Hv. pose proof HT as [T1 T2 T3].
  pose proof (pk_step_last _ _ _ Hv (step_deq_not_setup _ _ _ H)) as Kl. pose proof (deq_not_pre _ _ _ HI H) as Hnp.
  assert (Hdo : dp s <> DOff) by (intros C; unfold step_deq in H; rewrite C in H; discriminate H).
  destruct (T3 Hdo) as [TJ Tc].
  (* the dequeuer's control point moves; the processor is in the main loop *)
  assert (Kdp : forall s0 x, pp s0 = pp s -> cw s0 = cw s -> slen s0 + tdeq s0 + held' x <= slen s + tdeq s + held' (dp s) ->
            RTr (set_dp s0 x) v').
  { intros s0 x Ep Ec Hle. assert (Hlw : pk_last v = cw s) by (apply Hlast; lia).
    constructor; unfold slen in *; bcs; rewrite ?Kl, ?Ep, ?Ec; [lia|destruct (pp s); first [exact I|discriminate Hnp]|intros _; split; [lia|exact Tc]]. }
  destruct (step_deq_inv _ _ _ (I_shape _ HI) H); subst; rewrite Hdp in TJ; cbn [held' counted_id] in TJ;
    try (apply Kdp; unfold slen; bcs; rewrite ?Hdp; cbn [held' counted_id]; first [reflexivity|lia]).
  - apply Kdp; try reflexivity. rewrite Hdp. destruct r as [| |m ba]; cbn [deq_ret_pc held']; try lia.
    destruct (m_qos m =? 0) eqn:Eq; [destruct ba; cbn [held' counted_id]; rewrite Eq|cbn [held']]; lia.
  - (* Save: the slot the dequeuer holds covers the new entry *)
    pose proof (save_length_le (s_out (sess s)) (Publish false m id)) as Hpl.
    destruct ok; [|apply Kdp; unfold slen; bcs; rewrite ?Hdp; cbn [held' counted_id]; first [reflexivity|lia]].
    apply Kdp; unfold slen; bcs; try reflexivity. rewrite Hdp; destruct ba; cbn [held' counted_id]; rewrite Hq; cbv iota; lia.
  - (* Send *)
    destruct ok; [|apply Kdp; unfold slen; bcs; rewrite ?Hdp; cbn [held' counted_id]; first [reflexivity|lia]].
    destruct (m_qos m =? 0) eqn:Eq; apply Kdp; unfold slen; bcs; rewrite ?Hdp; cbn [held' counted_id]; rewrite ?Eq; first [reflexivity|lia].
Qed.

Lemma RTr_same s s' v : same_pd s s' -> RTr s v -> RTr s' v.
Proof.
  intros Hs. apply RTr_frame; try reflexivity.
  - unfold slen. rewrite (sp_out _ _ Hs). reflexivity.
  - apply (sp_tdeq _ _ Hs).
  - apply (sp_cw _ _ Hs).
  - rewrite (sp_dp _ _ Hs). intros Hd. split; [exact Hd|lia].
  - left. apply (sp_pp _ _ Hs).
Qed.

Lemma RTr_frozen s s' v : frozen s s' -> RTr s v -> RTr s' v.
Proof.
  intros Hf. apply RTr_frame; try reflexivity.
  - unfold slen. rewrite (fz_sess _ _ Hf). reflexivity.
  - apply (fz_tdeq _ _ Hf).
  - apply (fz_cw _ _ Hf).
  - rewrite (fz_dp _ _ Hf). destruct (dp s); intros Hd; try contradiction; (split; [discriminate|cbn [held']; try lia]).
    all: destruct (counted_id p); lia.
  - right. rewrite (fz_pp _ _ Hf). exact I.
Qed.

Lemma RTr_learned s s1 v : learned s s1 -> RTr s v -> RTr s1 v.
Proof.
  intros Hl. destruct Hl as (p & d & a & c & -> & _).
  apply RTr_frame; try reflexivity; bcs; [intros Hd; split; [exact Hd|lia]|left; reflexivity].
Qed.

(* ---------------------------------------------------------------- assembly *)

(* a fresh Setup re-establishes the tracking of the store's ids *)
Lemma RKA_setup_fresh s c resumed w p b : RKA (setup_st s c resumed true w p b) (PkSt w []).
Proof. split; [reflexivity|intros _; reflexivity]. Qed.

(* while the peer has behaved: the ids the hypothesis scanner tracks are the store's, the ids in
   flight are among them, and store + free slots + the dequeuer's slot fit the window *)
Definition RK (s : bc) (t : wb_st) (v : pk_st) : Prop := RKA s v /\ RFr s t /\ RTr s v.

(* the relation: the hypothesis scanner carries a copy of the c16_bound scanner's state *)
Definition R_cw (s : bc) (t : wb_st) (x : wb_st * pk_st) : Prop :=
  fst x = t /\ RW s t /\ RB s t /\ (wb_spur t = true \/ RK s t (snd x)).

Lemma fits_proc s t v e s' : RK s t v -> step_proc s e = Some s' -> fits s e.
Proof.
  intros ([_ Hlast] & _ & [T1 T2 _]) H g ps ->. destruct (step_proc_inv _ _ _ H); try discriminate He.
  injection He as _ ->. rewrite Hpp in T2. destruct T2 as [_ Hc]. unfold store_all. rewrite map_length.
  unfold slen in T1. rewrite <- Hlast by lia. exact T1.
Qed.

Lemma pkw_inv t v e x' : pkw_step (t, v) e = Some x' -> forall t', wb_step t e = Some t' ->
  fst x' = t' /\ ((exists v', pk_step v e = Some v' /\ snd x' = v') \/ (pk_step v e = None /\ wb_spur t = true /\ snd x' = v)).
Proof.
  intros H t' Ht. unfold pkw_step in H. rewrite Ht in H. destruct (pk_step v e) as [v'|].
  - injection H as <-. split; [reflexivity|left; exists v'; split; reflexivity].
  - destruct (wb_spur t) eqn:Es; [|discriminate H]. injection H as <-. split; [reflexivity|right; repeat split; reflexivity].
Qed.

Lemma cw_proc s t x e s' x' : INV s -> R_cw s t x -> step_proc s e = Some s' -> pkw_step x e = Some x' ->
  exists t', wb_step t e = Some t' /\ R_cw s' t' x'.
Proof.
  intros HI (Hx & HW & HB & HC) H Hh. destruct x as [th v]. cbn [fst snd] in *. subst th.
  assert (Hfit : wb_spur t = true \/ fits s e) by (destruct HC as [Hsp|HK]; [left; exact Hsp|right; eapply fits_proc; eassumption]).
  destruct (RB_proc s t e s' HI HW HB H Hfit) as (t' & Hw & HB').
  exists t'. split; [exact Hw|]. pose proof (RW_proc _ _ _ _ _ HW H Hw) as HW'.
  destruct (pkw_inv _ _ _ _ Hh t' Hw) as [Ex Hv]. split; [exact Ex|]. split; [exact HW'|]. split; [exact HB'|].
  destruct (is_setup_ok e) eqn:Ese.
  - (* a Setup: if fresh, the accounting starts again *)
    destruct (step_proc_setup _ _ _ H Ese) as (g & c & r & fresh & w & p & b & Hpp & -> & Hw0 & ->).
    cbn [wb_step] in Hw. injection Hw as <-. cbn [wb_spur].
    destruct fresh.
    + right. destruct Hv as [(v' & Ev & ->)|(En & _)].
      * cbn [pk_step orb] in Ev. injection Ev as <-.
        split; [apply RKA_setup_fresh|]. split; [exact (RF_setup s t c r true w p b HI HW Hpp)|].
        eapply (RT_setup s v c g r true w p b _ HI Hpp Hw0); [reflexivity|left; reflexivity].
      * discriminate En.
    + destruct HC as [Hsp|(HK & HF & HT)]; [left; exact Hsp|].
      destruct Hv as [(v' & Ev & ->)|(_ & Hsp & _)]; [right|left; exact Hsp].
      split; [exact (RKA_proc _ _ _ _ _ HI HK H Ev)|]. split; [exact (RF_setup s t c r false w p b HI HW Hpp)|].
      exact (RT_setup s v c g r false w p b v' HI Hpp Hw0 Ev (or_intror HT)).
  - destruct HC as [Hsp|(HK & HF & HT)]; [left; eapply wb_spur_mono; eassumption|].
    destruct Hv as [(v' & Ev & ->)|(_ & Hsp & _)]; [|left; eapply wb_spur_mono; eassumption].
    destruct (RFr_proc _ _ _ _ _ _ _ HI HK HW HF Ese H Hw Ev) as [Hsp|HF']; [left; exact Hsp|right].
    split; [exact (RKA_proc _ _ _ _ _ HI HK H Ev)|]. split; [exact HF'|exact (RTr_proc _ _ _ _ _ _ HI HK HF HT Ese H Ev)].
Qed.

Lemma cw_deq s t x e s' x' : INV s -> R_cw s t x -> step_deq s e = Some s' -> pkw_step x e = Some x' ->
  exists t', wb_step t e = Some t' /\ R_cw s' t' x'.
Proof.
  intros HI (Hx & HW & HB & HC) H Hh. destruct x as [th v]. cbn [fst snd] in *. subst th.
  destruct (RB_deq s t e s' HI HW HB H) as (t' & Hw & HB').
  exists t'. split; [exact Hw|]. pose proof (RW_deq _ _ _ _ _ HI HW H Hw) as HW'.
  destruct (pkw_inv _ _ _ _ Hh t' Hw) as [Ex Hv]. split; [exact Ex|]. split; [exact HW'|]. split; [exact HB'|].
  pose proof (step_deq_not_setup _ _ _ H) as Ese.
  destruct HC as [Hsp|(HK & HF & HT)]; [left; eapply wb_spur_mono; eassumption|].
  destruct Hv as [(v' & Ev & ->)|(_ & Hsp & _)]; [right|left; eapply wb_spur_mono; eassumption].
  split; [exact (RKA_deq _ _ _ _ _ HI HK H Ev)|]. split; [exact (RFr_deq _ _ _ _ _ _ _ HI HK HF H Hw Ev)|exact (RTr_deq _ _ _ _ _ HI HK HT H Ev)].
Qed.

Lemma cw_new s t x x' : R_cw s t x -> pkw_step x ENewConn = Some x' ->
  exists t', wb_step t ENewConn = Some t' /\ R_cw (new_conn s) t' x'.
Proof.
  destruct x as [th v]. intros (Hx & HW & HB & HC) E. cbn [fst snd] in *. subst th. cbn [pkw_step wb_step pk_step] in E. injection E as <-.
  eexists. split; [reflexivity|]. cbn [fst snd]. split; [reflexivity|]. split; [split; reflexivity|].
  split; [destruct HB as [Hs|_]; [left; exact Hs|right]; bcs; cbn [wb_fl length held deq_busy credit rb_phase]; split; [lia|exact I]|].
  destruct HC as [Hsp|([Hk _] & _ & [T1 _ _])]; [left; exact Hsp|right].
  split; [split; [exact Hk|bcs; intros C; contradiction]|]. split; constructor; unfold okeys, slen in *; bcs; cbn [wb_fl pend];
    first [apply NoDup_nil|exact I|exact T1|intros ? C; discriminate C|intros ? []|intros C; contradiction].
Qed.

Lemma pkw_dull x e x' : dull e = true -> pkw_step x e = Some x' -> x' = x.
Proof. intros He H. destruct x as [t v]. unfold pkw_step in H. rewrite (wb_dull _ _ He), (pk_dull _ _ He) in H. injection H as <-. reflexivity. Qed.

Lemma pkw_ack x g p ok x' : is_ack_packet p = true -> pkw_step x (ETx g p true ok) = Some x' -> x' = x.
Proof.
  destruct x as [t v]. intros Hk E. unfold pkw_step in E. rewrite (wb_tx_plain _ _ _ _ _ (ack_not_counted _ Hk)) in E.
  cbn [pk_step] in E. injection E as <-. reflexivity.
Qed.

Lemma R_cw_same s s' t x : same_pd s s' -> R_cw s t x -> R_cw s' t x.
Proof.
  intros Hs (Hx & HW & HB & HC). split; [exact Hx|]. split; [eapply RW_same; eassumption|]. split; [eapply RB_same; eassumption|]. destruct HC as [Hsp|(HK & HF & HT)]; [left; exact Hsp|right].
  split; [|split; [eapply RFr_same|eapply RTr_same]; eassumption].
  eapply RKA_frame; [unfold okeys; rewrite (sp_out _ _ Hs); reflexivity|apply (sp_cw _ _ Hs)|exact HK].
Qed.

Lemma R_cw_learned s s1 t x : learned s s1 -> R_cw s t x -> R_cw s1 t x.
Proof.
  intros Hl (Hx & HW & HB & HC). pose proof Hl as Hl'. destruct Hl as (p & d & a & c & -> & _).
  split; [exact Hx|]. split; [exact HW|]. split; [exact HB|]. destruct HC as [Hsp|(HK & HF & HT)]; [left; exact Hsp|right].
  split; [exact HK|]. split; [eapply RFr_learned|eapply RTr_learned]; eassumption.
Qed.

Lemma R_cw_frozen s s' t x : frozen s s' -> R_cw s t x -> R_cw s' t x.
Proof.
  intros Hf (Hx & HW & HB & HC). split; [exact Hx|]. split; [eapply RW_frozen; eassumption|]. split; [eapply RB_frozen; eassumption|]. destruct HC as [Hsp|(HK & HF & HT)]; [left; exact Hsp|right].
  split; [|split; [eapply RFr_frozen|eapply RTr_frozen]; eassumption].
  eapply RKA_frame; [unfold okeys; rewrite (fz_sess _ _ Hf); reflexivity|apply (fz_cw _ _ Hf)|exact HK].
Qed.

Lemma cw_step_ok s t x e s' x' : INV s -> R_cw s t x -> step s e = Some s' -> pkw_step x e = Some x' ->
  exists t', wb_step t e = Some t' /\ R_cw s' t' x'.
Proof.
  apply (sweep_pd wb_step pkw_step INV R_cw (fun _ H => H) INV_learned).
  - intros s0 s1 t0 x0. apply R_cw_same.
  - intros s0 s1 t0 x0 _. apply R_cw_learned.
  - intros s0 s1 t0 x0 _. apply R_cw_frozen.
  - intros s0 t0 x0 e0 _ _ _ _. apply wb_dull.
  - apply pkw_dull.
  - intros s0 t0 x0 g p ok _ _ _ Hk. apply wb_tx_plain, ack_not_counted, Hk.
  - apply pkw_ack.
  - intros s0 t0 x0 x1 _. apply cw_new.
  - intros s0 t0 x0 e0 s1 x1 g HI HR _ _. apply cw_proc; assumption.
  - intros s0 t0 x0 e0 s1 x1 g HI HR _ _ _. apply cw_deq; assumption.
Qed.

Lemma R_cw_init : R_cw bc_init (WbSt 0 [] false) (WbSt 0 [] false, PkSt 0 []).
Proof.
  split; [reflexivity|]. split; [split; reflexivity|]. split; [right; cbn; split; [lia|exact I]|]. right.
  split; [split; [reflexivity|intros C; exfalso; apply C; reflexivity]|].
  split; constructor; cbn; first [apply NoDup_nil|exact I|lia|intros ? C; discriminate C|intros ? []|intros C; exfalso; apply C; reflexivity].
Qed.

(* the bound, for every accepted trace on which — as long as the peer has not acknowledged an
   id not in flight — the window does not shrink between the connections of a session (and
   ids are not re-allocated while still stored) *)
Theorem c16_bound_const_window_holds :
  forall es s, bc_run es = Some s -> c16_window_const es = true -> c16_bound es = true.
Proof.
  intros es s Hrun Hh.
  destruct (run_rel_inv2 wb_step pkw_step INV R_cw INV_step cw_step_ok es _ _ s INV_init R_cw_init Hrun Hh) as (t & _ & E & _).
  unfold c16_bound. apply scan_run. exists t. rewrite <- srun_run. exact E.
Qed.

(* token conservation under the same hypothesis: in the state reached,
   in flight + free slots + slot held by the dequeuer + slot being returned <= W
   and   stored packets <= W,   unless the peer acknowledged an id not in flight *)
Theorem c16_conservation_const_window_holds : forall es s,
  bc_run es = Some s -> c16_window_const es = true ->
  exists t, srun wb_step (WbSt 0 [] false) es = Some t /\
    (wb_spur t = true \/
     (N.of_nat (length (wb_fl t)) + tdeq s + held (dp s) + credit (pp s) <= cw s /\
      (cw s <> 0 -> N.of_nat (length (s_out (sess s))) <= cw s))).
Proof.
  intros es s Hrun Hh.
  destruct (run_rel_inv2 wb_step pkw_step INV R_cw INV_step cw_step_ok es _ _ s INV_init R_cw_init Hrun Hh)
    as (t & x & E & _ & _ & HB & HC).
  exists t. split; [exact E|].
  destruct HB as [Hs|(Hi & _)]; [left; exact Hs|]. destruct HC as [Hs|([_ Hlast] & _ & [T1 _ _])]; [left; exact Hs|right].
  split; [exact Hi|]. intros Hc. rewrite <- (Hlast Hc). exact T1.
Qed.
