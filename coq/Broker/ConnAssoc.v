(* ConnAssoc.v — lookup laws of the association lists (aget / aput / adel) and of the id
   multisets (nmem / nremove1) that the trace scanners of ConnSpec.v keep as their state. *)
From Coq Require Import List NArith Bool.
From GM Require Import Broker.Conn Broker.ConnSpec.
Import ListNotations.
Open Scope N_scope.

Lemma aget_filter_ne {A} (l : list (N * A)) k j :
  j <> k -> aget (filter (fun e => negb (fst e =? k)) l) j = aget l j.
Proof.
  intros Hne. induction l as [|[i v] l IH]; cbn [filter aget fst]; [reflexivity|].
  destruct (N.eqb_spec i k) as [->|Hik]; cbn [negb].
  - destruct (N.eqb_spec j k); [contradiction|exact IH].
  - cbn [aget]. rewrite IH. reflexivity.
Qed.

Lemma aget_filter_eq {A} (l : list (N * A)) k :
  aget (filter (fun e => negb (fst e =? k)) l) k = None.
Proof.
  induction l as [|[i v] l IH]; cbn [filter aget fst]; [reflexivity|].
  destruct (N.eqb_spec i k) as [->|Hik]; cbn [negb]; [exact IH|].
  cbn [aget]. destruct (N.eqb_spec k i); [congruence|exact IH].
Qed.

Lemma aget_aput {A} (l : list (N * A)) k v j :
  aget (aput l k v) j = if j =? k then Some v else aget l j.
Proof.
  unfold aput. cbn [aget]. destruct (N.eqb_spec j k) as [->|Hne]; [reflexivity|].
  apply aget_filter_ne. exact Hne.
Qed.

Lemma aget_adel {A} (l : list (N * A)) k j :
  aget (adel l k) j = if j =? k then None else aget l j.
Proof.
  unfold adel. destruct (N.eqb_spec j k) as [->|Hne]; [apply aget_filter_eq|apply aget_filter_ne; exact Hne].
Qed.

Lemma aget_aput_eq {A} (l : list (N * A)) k v : aget (aput l k v) k = Some v.
Proof. rewrite aget_aput, N.eqb_refl. reflexivity. Qed.

Lemma aget_aput_ne {A} (l : list (N * A)) k k' v : k' <> k -> aget (aput l k v) k' = aget l k'.
Proof. intros H. rewrite aget_aput. destruct (N.eqb_spec k' k); [contradiction|reflexivity]. Qed.

Lemma aget_adel_eq {A} (l : list (N * A)) k : aget (adel l k) k = None.
Proof. rewrite aget_adel, N.eqb_refl. reflexivity. Qed.

Lemma aget_adel_ne {A} (l : list (N * A)) k k' : k' <> k -> aget (adel l k) k' = aget l k'.
Proof. intros H. rewrite aget_adel. destruct (N.eqb_spec k' k); [contradiction|reflexivity]. Qed.

Lemma aget_cons {A} (l : list (N * A)) k v j : aget ((k, v) :: l) j = if j =? k then Some v else aget l j.
Proof. reflexivity. Qed.

Lemma aget_single {A} k (v : A) j : aget [(k, v)] j = if j =? k then Some v else None.
Proof. reflexivity. Qed.

Lemma aget_cons_eq {A} (l : list (N * A)) k v : aget ((k, v) :: l) k = Some v.
Proof. cbn [aget]. rewrite N.eqb_refl. reflexivity. Qed.

Lemma aget_cons_ne {A} (l : list (N * A)) k k' v : k' <> k -> aget ((k, v) :: l) k' = aget l k'.
Proof. intros Hne. cbn [aget]. destruct (k' =? k) eqn:E; [apply N.eqb_eq in E; contradiction|reflexivity]. Qed.

Lemma aget_adel_some {A} (l : list (N * A)) k k' v : aget (adel l k) k' = Some v -> aget l k' = Some v /\ k' <> k.
Proof.
  intros H. destruct (N.eq_dec k' k) as [->|Hne].
  - rewrite aget_adel_eq in H. discriminate H.
  - rewrite aget_adel_ne in H by exact Hne. split; assumption.
Qed.

Lemma aget_in {A} (l : list (N * A)) k v : aget l k = Some v -> In (k, v) l.
Proof.
  induction l as [|[j w] l IH]; cbn [aget]; [discriminate|].
  destruct (k =? j) eqn:E.
  - intros H. injection H as ->. apply N.eqb_eq in E. subst. left; reflexivity.
  - intros H. right. apply IH, H.
Qed.

Lemma aput_single {A} k (v v' : A) : aput [(k, v)] k v' = [(k, v')].
Proof. unfold aput. cbn [filter fst]. rewrite N.eqb_refl. reflexivity. Qed.

Lemma adel_single {A} k (v : A) : adel [(k, v)] k = [].
Proof. unfold adel. cbn [filter fst]. rewrite N.eqb_refl. reflexivity. Qed.

(* tables with entries for the goroutine of one role only *)
Lemma entries_aput {A} (t : list (N * A)) g x (r : option N) :
  (forall g' v, aget t g' = Some v -> r = Some g') -> r = Some g ->
  forall g' v, aget (aput t g x) g' = Some v -> r = Some g'.
Proof.
  intros H Hr g' v. rewrite aget_aput. destruct (N.eqb_spec g' g) as [->|]; [intros _; exact Hr|apply H].
Qed.

Lemma no_entry {A} (t : list (N * A)) (r : option N) g :
  (forall g' v, aget t g' = Some v -> r = Some g') -> is_role r g = false -> aget t g = None.
Proof.
  intros H Hr. destruct (aget t g) eqn:E; [|reflexivity]. rewrite (H _ _ E) in Hr. cbn [is_role] in Hr.
  rewrite N.eqb_refl in Hr. discriminate Hr.
Qed.

Lemma nmem_cons k x l : nmem k (x :: l) = (k =? x) || nmem k l.
Proof. reflexivity. Qed.

Lemma nmem_true_iff k l : nmem k l = true <-> In k l.
Proof.
  unfold nmem. rewrite existsb_exists. split.
  - intros (x & Hx & E). apply N.eqb_eq in E. subst. exact Hx.
  - intros H. exists k. split; [exact H|apply N.eqb_refl].
Qed.

Lemma nmem_false_iff k l : nmem k l = false <-> ~ In k l.
Proof.
  rewrite <- nmem_true_iff. destruct (nmem k l); split; intros H; try reflexivity; try discriminate.
  exfalso. apply H. reflexivity.
Qed.

Lemma in_nremove1 k x l : In x (nremove1 k l) -> In x l.
Proof.
  induction l as [|y l IH]; cbn [nremove1]; [tauto|].
  destruct (y =? k); cbn [In]; tauto.
Qed.


Lemma nodup_nremove1 k l : NoDup l -> NoDup (nremove1 k l) /\ ~ In k (nremove1 k l).
Proof.
  induction 1 as [|y l Hy Hnd IH]; cbn [nremove1]; [split; [constructor|tauto]|].
  destruct (y =? k) eqn:E.
  - apply N.eqb_eq in E. subst y. split; assumption.
  - apply N.eqb_neq in E. destruct IH as [IH1 IH2]. split.
    + constructor; [|exact IH1]. intros H. apply Hy. eapply in_nremove1, H.
    + cbn [In]. intros [H|H]; [congruence|tauto].
Qed.

Lemma nremove1_length k l : nmem k l = true -> S (length (nremove1 k l)) = length l.
Proof.
  induction l as [|x l IH]; cbn [nmem existsb nremove1 length]; [discriminate|].
  rewrite N.eqb_sym. destruct (N.eqb_spec x k) as [->|Hne]; cbn [orb length]; [reflexivity|].
  intros H. f_equal. apply IH. exact H.
Qed.
