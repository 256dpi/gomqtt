(* ConnProofsE4.v — c08_store_replica (ConnSpec6.v) holds of every trace the
   broker-connection model accepts: the outgoing store read off the trace (successful
   Save/Delete Outgoing, fresh Setup, dup-flagging by a resend) IS the model's outgoing
   store, so every listing at a resume equals it. *)
From Coq Require Import List NArith Bool Lia.
From GM Require Import Base.Lts Codec.Packet Session.Ids Session.Store Session.StoreProofs
  Broker.Conn Broker.ConnSpec Broker.ConnSpec6 Broker.ConnBase
  Broker.ConnProofsB1 Broker.ConnProofsB3 Broker.ConnProofsB4.
Import ListNotations.
Open Scope N_scope.

Definition sr_todo_rel (s : bc) (td : option (N * list packet)) : Prop :=
  match pp s with
  | PResend ps => exists g, gproc s = Some g /\ td = Some (g, ps)
  | _ => td = None
  end.

Definition sr_rel (s : bc) (t : sr_st) : Prop :=
  sr_store t = s_out (sess s) /\ sr_todo_rel s (sr_todo t).

Lemma sr_step_no_todo t e : sr_todo t = None ->
  match e with
  | ENewConn | ESetup _ _ | ESave _ Outgoing _ true | EDelete _ Outgoing _ true | EAll _ Outgoing (Some _) => True
  | _ => sr_step t e = Some t
  end.
Proof.
  intros Hn. destruct e; try exact I; try reflexivity.
  - cbn [sr_step]. rewrite Hn. destruct async; reflexivity.
  - destruct d; [reflexivity|]. destruct ok; [exact I|reflexivity].
  - destruct d; [reflexivity|]. destruct ok; [exact I|reflexivity].
  - destruct d; [reflexivity|]. destruct r; [exact I|reflexivity].
Qed.

(* a send by a goroutine that is not the one re-sending *)
Lemma sr_step_tx_other t g p a ok :
  (forall g' ps, sr_todo t = Some (g', ps) -> g <> g') -> sr_step t (ETx g p a ok) = Some t.
Proof.
  intros H. cbn [sr_step]. destruct a; [|reflexivity].
  destruct (sr_todo t) as [[g' [|q rest]]|] eqn:E; try reflexivity.
  destruct (N.eqb_spec g g') as [->|Hne]; [exfalso; eapply H; reflexivity|reflexivity].
Qed.

Lemma sr_proc s t e s' g : gproc s = Some g -> ev_g e = Some g -> sr_rel s t -> step_proc s e = Some s' ->
  exists t', sr_step t e = Some t' /\ sr_store t' = s_out (sess s') /\ sr_todo_rel s' (sr_todo t').
Proof.
  intros Hg Heg [Hst Htd] H. unfold sr_todo_rel in Htd.
  inv_proc H; cbn [ev_g] in Heg; injection Heg as ->; pp_split; try rewrite Hpp in Htd; try dispatch_cases Hd; pp_cases;
    unfold sr_todo_rel; sfp;
    try (match goal with |- exists t', sr_step ?t0 ?e0 = Some t' /\ _ =>
           exists t0; split; [exact (sr_step_no_todo t0 e0 Htd)|split; [exact Hst|exact Htd]] end).
  (* a stored packet is re-sent *)
  all: try (destruct Htd as (g' & G & Htd); rewrite Hg in G; injection G as <-;
            cbn [sr_step]; rewrite Htd, N.eqb_refl, packet_eqb_refl; cbn [andb];
            eexists; split; [reflexivity|]; cbn [sr_store sr_todo]; split; [rewrite Hst; reflexivity|];
            first [reflexivity|exists g; split; [exact Hg|reflexivity]]).
  1-3: (* Setup *) (eexists; split; [reflexivity|]; cbn [sr_store sr_todo]; split; [first [reflexivity|exact Hst]|exact Htd]).
  - (* All: the listing is the store *)
    cbn [sr_step]. rewrite Hst, Eall. cbn [list_eqb].
    eexists; split; [reflexivity|]. cbn [sr_store sr_todo]. split; reflexivity.
  - cbn [sr_step]. rewrite Hst, Eall, (list_eqb_refl _ packet_eqb_refl).
    eexists; split; [reflexivity|]. cbn [sr_store sr_todo]. split; [reflexivity|]. exists g. split; [exact Hg|reflexivity].
  - (* PUBACK / PUBCOMP: the stored packet is deleted *)
    eexists; split; [reflexivity|]. cbn [sr_store sr_todo]. split; [rewrite Hst; reflexivity|exact Htd].
  - (* PUBREC: PUBREL replaces the PUBLISH *)
    eexists; split; [reflexivity|]. cbn [sr_store sr_todo]. split; [rewrite Hst; reflexivity|exact Htd].
Qed.

Lemma sr_deq s t e s' g : gdeq s = Some g -> ev_g e = Some g ->
  (forall g' ps, sr_todo t = Some (g', ps) -> g <> g') ->
  sr_store t = s_out (sess s) -> step_deq s e = Some s' ->
  exists t', sr_step t e = Some t' /\ sr_store t' = s_out (sess s') /\ sr_todo t' = sr_todo t.
Proof.
  intros Hg Heg Hoth Hst H. destruct (step_deq_cases _ _ _ H); subst e s'; cbn [ev_g] in Heg; injection Heg as ->;
    repeat match goal with |- context [match ?b with _ => _ end] => destruct b end; sf;
    try (exists t; split; [reflexivity|]; split; [exact Hst|reflexivity]);
    try (exists t; split; [apply sr_step_tx_other; exact Hoth|]; split; [exact Hst|reflexivity]);
    (* Save ok *)
    eexists; (split; [reflexivity|]); cbn [sr_store sr_todo]; rewrite Hst; split; reflexivity.
Qed.

(* a goroutine that is not the processor is not the one re-sending *)
Lemma sr_other s t g : is_role (gproc s) g = false -> sr_todo_rel s (sr_todo t) ->
  forall g' ps, sr_todo t = Some (g', ps) -> g <> g'.
Proof.
  intros Hr Htd g' ps E Heq. subst g'. unfold sr_todo_rel in Htd. destruct (pp s); try (rewrite E in Htd; discriminate Htd).
  destruct Htd as (g0 & G & Htd). rewrite E in Htd. injection Htd as <- _. rewrite G in Hr. cbn [is_role] in Hr.
  rewrite N.eqb_refl in Hr. discriminate Hr.
Qed.

(* cleanup freezes a processor that could stop: it was not re-sending *)
Lemma sr_todo_frozen s td : proc_can_stop s = true -> sr_todo_rel s td -> td = None.
Proof. unfold proc_can_stop, sr_todo_rel. destruct (pp s); intros H; try discriminate H; exact (fun x => x). Qed.

Lemma sr_hstep s t e s' : sr_rel s t -> step s e = Some s' -> exists t', sr_step t e = Some t' /\ sr_rel s' t'.
Proof.
  refine (step_sweep sr_rel (fun t e s' => exists t', sr_step t e = Some t' /\ sr_rel s' t') _ _ _ _ _ _ _ _ _ _ s t e s'); clear s t e s'.
  - (* roles *) intros s t g d a c HR _ _. exact HR.
  - (* new *) intros s t [Hst _] _. eexists; split; [reflexivity|]. split; [exact Hst|reflexivity].
  - (* close-req *) intros s t HR. exists t. split; [reflexivity|exact HR].
  - (* quiescent *) intros s t HR _. exists t. split; [reflexivity|exact HR].
  - (* kill *) intros s t g HR _. exists t. split; [reflexivity|exact HR].
  - (* closure *) intros s t e s' [Hst Htd] H. exists t. split.
    + apply step_clo_event in H. destruct e; try discriminate H; try reflexivity.
      destruct d; [reflexivity|discriminate H].
    + split; [rewrite (proj2 (step_clo_sess _ _ _ H)); exact Hst|].
      apply step_clo_shape in H. destruct H as (se & cl & dy & q & ->). exact Htd.
  - (* processor: nothing is being re-sent before its first packet *)
    intros s s1 t e s' g [Hst Htd] _ Hv Hev H.
    assert (Hg1 : gproc s1 = Some g) by (destruct Hv as [[-> Hg]|(_ & _ & -> & _)]; [exact Hg|reflexivity]).
    assert (HR1 : sr_rel s1 t).
    { destruct Hv as [[-> _]|(Hn & _ & -> & _)]; [split; assumption|]. split; [exact Hst|].
      unfold sr_todo_rel in *; sf. destruct (pp s); try exact Htd.
      destruct Htd as (g0 & G & _). rewrite Hn in G. discriminate G. }
    destruct (sr_proc _ _ _ _ _ Hg1 Hev HR1 H) as (t' & Ht & Hs' & Htd'). exists t'. split; [exact Ht|split; assumption].
  - (* dequeuer *) intros s t e s' g [Hst Htd] _ Hev Hg Rp H.
    destruct (sr_deq s t e s' g Hg Hev (sr_other _ _ _ Rp Htd) Hst H) as (t' & Ht & Hs' & Htd').
    exists t'. split; [exact Ht|]. split; [exact Hs'|]. rewrite Htd'.
    destruct (step_deq_frame _ _ _ H) as (_ & _ & Hp & Hg' & _). unfold sr_todo_rel in *. rewrite Hp, Hg'. exact Htd.
  - (* acker *) intros s t e s' g [Hst Htd] _ Hev _ Rp _ H. exists t. split.
    + apply step_ack_event in H. destruct e; try discriminate H; try reflexivity.
      cbn [ev_g] in Hev. injection Hev as ->. apply sr_step_tx_other. exact (sr_other _ _ _ Rp Htd).
    + apply step_ack_shape in H. destruct H as (a & dy & t1 & t2 & t3 & q & ->). split; [exact Hst|exact Htd].
  - (* cleanup *) intros s t e s' [Hst Htd] _ H. exists t. split.
    + apply step_cleanup_event in H. destruct e; try discriminate H; reflexivity.
    + destruct (step_cleanup_shape _ _ _ H) as (p & d & a & l & -> & Hsh). split; [exact Hst|].
      destruct Hsh as [(-> & _)|(_ & Hstop & -> & _)]; [exact Htd|].
      unfold all_stopped in Hstop. apply andb_true_iff in Hstop as [Hstop _]. apply andb_true_iff in Hstop as [Hstop _].
      unfold sr_todo_rel; sf. exact (sr_todo_frozen _ _ Hstop Htd).
Qed.

Theorem c08_store_replica_holds : forall es s, bc_run es = Some s -> c08_store_replica es = true.
Proof.
  unfold c08_store_replica. apply (scan_sound sr_step sr_rel sr_hstep).
  split; reflexivity.
Qed.
