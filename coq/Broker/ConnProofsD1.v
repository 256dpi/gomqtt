(* ConnProofsD1.v — every trace accepted by the broker-connection model BC satisfies
   the trace clauses of ConnSpec2.v: c14_lifecycle, c15_resend_order,
   c15_dequeue_order, c15_in_order, c15_release_intact; c15_dequeue_order as a
   consequence of c06_forward_intact (ConnSpec5.v), whose simulation is here too. *)
From Coq Require Import List NArith Bool Lia.
From GM Require Import Base.Lts Codec.Packet Session.Ids Session.Store Session.StoreProofs
  Broker.Conn Broker.ConnSpec Broker.ConnSpec2 Broker.ConnSpec5 Broker.ConnBase
  Broker.ConnProofsC0 Broker.ConnProofsC1 Broker.ConnProofsA_lib Broker.ConnProofsA_inv Broker.ConnProofsD0.
Import ListNotations.
Open Scope N_scope.

(* ========================================================= c14_lifecycle == *)

(* what the scanner has counted, against the phase and the cleanup's control point; that before
   authentication the processor is at one of a few control points, and that it is done once
   the cleanup has begun, are the invariants inv_phase and inv_frozen of ConnProofsA_inv.v *)
Definition lc_R (s : bc) (t : lc_st) : Prop :=
  lc_open t = conn_open s /\
  lc_auth t = phase_geq_connected (ph s) /\
  (lc_setup t = true -> phase_geq_connected (ph s) = true) /\
  match lp s with
  | LNone => lc_terms t = 0
  | LWillR | LWillDie | LTerm => lc_terms t = 0 /\ phase_geq_connected (ph s) = true
  | LTermDie | LClosed => lc_terms t = 1
  | LEnd => True
  end.

Definition lc_I (s : bc) : Prop := inv_phase s /\ inv_frozen s.

(* A slightly stricter life-cycle scanner: in lc_step the patterns for a successful
   EAuth / ESetup come before the "nothing after Closed" line and therefore are not
   subject to it.  The variant below also refuses them once the connection is closed;
   every accepted trace satisfies it as well. *)
Definition lc_step_strict (t : lc_st) (e : event) : option lc_st :=
  match e with
  | EAuth _ AOk | ESetup _ (SOk _ _ _ _ _) => if lc_open t then lc_step t e else None
  | _ => lc_step t e
  end.
Definition c14_lifecycle_strict (es : list event) : bool := scan lc_step_strict (LcSt false false false 0) es.

(* events the life-cycle scanner lets pass unchanged while the connection is open *)
Definition lc_neutral (e : event) : bool :=
  match e with
  | ENewConn | ETerm _ _ | EClosed | EAuth _ AOk | ESetup _ (SOk _ _ _ _ _) => false
  | _ => true
  end.

Lemma lc_neutral_step t e : lc_open t = true -> lc_neutral e = true -> lc_step_strict t e = Some t.
Proof.
  intros Ho Hn. destruct e; cbn [lc_neutral] in Hn; try discriminate Hn; cbn [lc_step_strict lc_step]; rewrite ?Ho; try reflexivity.
  - destruct r; try discriminate Hn; cbn [lc_step]; rewrite ?Ho; reflexivity.
  - destruct r; try discriminate Hn; cbn [lc_step]; rewrite ?Ho; reflexivity.
Qed.

Lemma lc_open_true s t : lc_R s t -> lp s <> LEnd -> lc_open t = true.
Proof.
  intros (R1 & _). rewrite R1. unfold conn_open. destruct (lp s); try reflexivity. intros Hl. exfalso. apply Hl. reflexivity.
Qed.

Lemma lc_keep s s' t e :
  lc_R s t -> lp s <> LEnd -> lc_neutral e = true -> lc_R s' t -> exists t', lc_step_strict t e = Some t' /\ lc_R s' t'.
Proof.
  intros HR Hl Hn HR'. exists t. split; [apply lc_neutral_step; [exact (lc_open_true _ _ HR Hl)|exact Hn]|exact HR'].
Qed.

Lemma lc_proc s t e s' :
  lc_I s -> lc_R s t -> step_proc s e = Some s' -> exists t', lc_step_strict t e = Some t' /\ lc_R s' t'.
Proof.
  intros ((Hph & _) & Hfr) (R1 & R2 & R3 & R6) Hp.
  assert (Hl : lp s = LNone).
  { destruct (lp s) eqn:E; try reflexivity; exfalso; apply (step_proc_not_done _ _ _ Hp), Hfr; rewrite E; discriminate. }
  assert (Hopen : lc_open t = true) by (rewrite R1; unfold conn_open; rewrite Hl; reflexivity).
  assert (Hgeq : pre_pp (pp s) = false -> phase_geq_connected (ph s) = true).
  { intros Hx. destruct (ph s); try reflexivity. destruct (Hph eq_refl) as (Hy & _). rewrite Hy in Hx. discriminate Hx. }
  rewrite Hl in R6.
  inv_proc Hp; pc_split.
  (* past authentication the phase is at least Connected, and stays so *)
  all: try match goal with H : pp _ = _ |- _ => rewrite H in Hgeq; cbn [pre_pp] in Hgeq end.
  all: try specialize (Hgeq eq_refl).
  all: pp_cases; (eexists; split; [cbn [lc_step_strict lc_step]; rewrite ?Hopen; reflexivity|]).
  all: unfold lc_R, conn_open in *; sfp; rewrite ?Hl; cbn [lc_open lc_auth lc_setup lc_terms phase_geq_connected].
  all: repeat split; auto; congruence.
Qed.

Lemma lc_cleanup s t e s' : lc_R s t -> step_cleanup s e = Some s' -> exists t', lc_step_strict t e = Some t' /\ lc_R s' t'.
Proof.
  intros (R1 & R2 & R3 & R6) Hp. unfold conn_open in R1.
  destruct (step_cleanup_cases _ _ _ Hp) as
    [g m -> Hl Hst Hph Hw ->|g ok -> Hl Hst Hph Hw ->| -> Hl Hst Hph ->|g ok -> Hl ->|g -> Hl ->|g ok -> Hl ->|g -> Hl ->| -> Hl ->];
    rewrite Hl in R1, R6; cbn [lc_step_strict lc_step]; rewrite ?R1; unfold lc_R, conn_open; sf.
  - (* the will is published: authentication had succeeded *)
    exists t. repeat split; auto. rewrite Hph. reflexivity.
  - (* Terminate as the first step: once, after authentication *)
    rewrite R2, Hph, R6. eexists. split; [reflexivity|]. destruct ok; repeat split; auto.
  - (* Closed as the first step: the client was never authenticated, so Setup was not called *)
    rewrite Hph in R3. destruct (lc_setup t); [discriminate (R3 eq_refl)|]. eexists. split; [reflexivity|]. repeat split; auto.
    intros Hx; discriminate Hx.
  - exists t. destruct ok; repeat split; auto; apply R6.
  - exists t. repeat split; auto; apply R6.
  - (* Terminate after the will *)
    destruct R6 as (R6 & Hgeq). rewrite R2, Hgeq, R6. eexists. split; [reflexivity|]. destruct ok; repeat split; auto.
  - exists t. repeat split; auto.
  - (* Closed: Terminate was called *)
    rewrite R6. destruct (lc_setup t); eexists; (split; [reflexivity|]); repeat split; auto.
Qed.

Lemma lc_step_ok s t e s' :
  lc_I s -> lc_R s t -> step s e = Some s' -> exists t', lc_step_strict t e = Some t' /\ lc_R s' t'.
Proof.
  intros HI HR. generalize (conj HI HR). clear HI HR. revert s t e s'.
  apply (step_sweep (fun s t => lc_I s /\ lc_R s t) (fun t e s' => exists t', lc_step_strict t e = Some t' /\ lc_R s' t')).
  - (* roles *) intros s t g d a c HR _ _. exact HR.
  - (* ENewConn *)
    intros s t (_ & R1 & _) Hlp. unfold conn_open in R1. rewrite Hlp in R1.
    cbn [lc_step_strict lc_step]. rewrite R1. eexists; split; [reflexivity|]. repeat split; discriminate.
  - (* close-req *) intros s t (_ & HR). exists t. split; [reflexivity|exact HR].
  - (* quiescent *) intros s t (_ & HR) _. exists t. split; [reflexivity|exact HR].
  - (* kill *) intros s t g (_ & HR) _. exists t. split; [reflexivity|exact HR].
  - (* closure *) intros s t e s' (_ & HR) Hc. exists t. split; [|destruct (step_clo_shape _ _ _ Hc) as (se & cl & dy & q & ->); exact HR].
    pose proof (step_clo_event _ _ _ Hc) as He. destruct e; try discriminate He; reflexivity.
  - (* processor *) intros s s1 t e s' g HR _ Hv _ Hp. apply (lc_proc s1); [| |exact Hp]; destruct Hv as [[-> _]|(_ & _ & -> & _)]; apply HR.
  - (* dequeuer *) intros s t e s' g (_ & HR) Ho _ _ _ Hp. destruct (step_deq_shape _ _ _ Hp) as (se & d & dy & t1 & t2 & t3 & ->).
    apply (lc_keep s); [exact HR|apply conn_open_true, Ho| |exact HR].
    pose proof (step_deq_event _ _ _ Hp) as He. destruct e; try discriminate He; reflexivity.
  - (* acker *) intros s t e s' g (_ & HR) Ho _ _ _ _ Hp. destruct (step_ack_shape _ _ _ Hp) as (a & dy & t1 & t2 & t3 & q & ->).
    apply (lc_keep s); [exact HR|apply conn_open_true, Ho| |exact HR].
    pose proof (step_ack_event _ _ _ Hp) as He. destruct e; try discriminate He; reflexivity.
  - (* cleanup *) intros s t e s' (_ & HR) _. apply lc_cleanup, HR.
Qed.

Theorem c14_lifecycle_strict_holds : forall es s, bc_run es = Some s -> c14_lifecycle_strict es = true.
Proof.
  apply (scan_sound_inv lc_step_strict lc_I lc_R (conj inv_phase_init inv_frozen_init)).
  - intros s e s' (H1 & H2) H. split; [exact (inv_phase_step _ _ _ H1 H)|exact (inv_frozen_step _ _ _ H2 H)].
  - exact lc_step_ok.
  - repeat split; discriminate.
Qed.

Lemma lc_strict_weaker es : forall t, scan lc_step_strict t es = true -> scan lc_step t es = true.
Proof.
  induction es as [|e es IH]; intros t H; [reflexivity|]. cbn [scan] in *.
  assert (E : forall t', lc_step_strict t e = Some t' -> lc_step t e = Some t').
  { intros t'. unfold lc_step_strict. destruct e; try exact (fun x => x); destruct r; try exact (fun x => x);
    destruct (lc_open t); intros X; first [exact X|discriminate X]. }
  destruct (lc_step_strict t e) as [t'|]; [|discriminate H]. rewrite (E t' eq_refl). apply IH, H.
Qed.

Theorem c14_lifecycle_holds : forall es s, bc_run es = Some s -> c14_lifecycle es = true.
Proof. intros es s H. apply lc_strict_weaker, (c14_lifecycle_strict_holds es s H). Qed.

Lemma entries_adel {A} (t : list (N * A)) g (r : option N) :
  (forall g' v, aget t g' = Some v -> r = Some g') ->
  forall g' v, aget (adel t g) g' = Some v -> r = Some g'.
Proof.
  intros H g' v. rewrite aget_adel. destruct (g' =? g); [discriminate|apply H].
Qed.

Lemma INV_learns s g d a c : INV s -> role_free s g = true -> learns s g d a c -> INV (set_roles s (gproc s) d a c).
Proof.
  intros HI Hf Hl. apply (INV_learned s); [|exact HI]. exists (gproc s), d, a, c. split; [reflexivity|].
  destruct (role_free_inv _ _ Hf) as (F1 & _).
  assert (Hd : forall g', gdeq s = Some g' -> d = Some g')
    by (intros g' E; destruct Hl as [(Hn & _)|[(-> & _)|(-> & _)]]; [rewrite Hn in E; discriminate E|exact E|exact E]).
  split; [auto|split; [exact Hd|]]. intros g' Hp Hg. split; [exact Hp|].
  destruct Hl as [(_ & -> & _)|[(-> & _)|(-> & _)]]; try exact Hg.
  injection Hg as <-. rewrite Hp, is_role_some in F1. discriminate F1.
Qed.

Lemma INV_proc_view s s1 g e : INV s -> proc_view s s1 g e -> INV s1.
Proof.
  intros HI [[-> _]|(Hn & Hf & -> & _)]; [exact HI|]. apply (INV_learned s); [|exact HI].
  exists (Some g), (gdeq s), (gack s), (gcl s). split; [reflexivity|].
  split; [intros g' E; rewrite Hn in E; discriminate E|split; [auto|]]. intros g' E Hd. injection E as <-.
  destruct (role_free_inv _ _ Hf) as (_ & F2 & _). rewrite Hd, is_role_some in F2. discriminate F2.
Qed.

(* ====================================================== c15_resend_order == *)

Definition pid (p : packet) : list N := match get_id p with Some i => [i] | None => [] end.

Lemma ids_of_all st : ids_ok st -> flat_map pid (store_all st) = keys st.
Proof.
  induction st as [|[k q] st IH]; intros Hok; [reflexivity|].
  cbn [store_all map snd flat_map keys fst]. unfold pid at 1. rewrite (Hok k q (or_introl eq_refl)). cbn [app].
  f_equal. apply IH. intros i p Hin. apply Hok. right. exact Hin.
Qed.

(* the scanner's list is the key list of the outgoing store; that the keys are distinct, are
   the ids of the stored packets and comprise those still to be re-sent is part of INV *)
Definition ro_R (s : bc) (t : list N) : Prop := t = keys (out s).

Lemma clo_quiet_ro e : clo_event e = true -> quiet ro_step e. Proof. quiet_by e. Qed.
Lemma ack_quiet_ro e : ack_event e = true -> quiet ro_step e. Proof. quiet_by e. Qed.
Lemma cleanup_quiet_ro e : cleanup_event e = true -> quiet ro_step e. Proof. quiet_by e. Qed.

Lemma ro_proc s t e s' : INV s -> ro_R s t -> step_proc s e = Some s' -> exists t', ro_step t e = Some t' /\ ro_R s' t'.
Proof.
  intros HI -> Hp. unfold ro_R. inv_proc Hp; try dispatch_cases Hd.
  (* the scanner ignores the event and the store stays; or Setup hands out a fresh session object, with an empty store *)
  all: try (pp_cases; (eexists; split; reflexivity); fail).
  - (* All: what is listed is the store, in first-save order *)
    exists (keys (out s)). split; [|reflexivity]. cbn [ro_step]. change (flat_map _ ?l) with (flat_map pid l).
    fold (out s). rewrite (ids_of_all _ (I_ids _ HI)), (list_eqb_refl _ N.eqb_refl). reflexivity.
  - (* re-send: the stored packet is replaced in place *)
    exists (keys (out s)). split; [reflexivity|]. pose proof (I_resend _ HI) as Hr. rewrite Hpp in Hr.
    symmetry. apply (resend_save_keys (out s) p0). exact (Forall_inv (proj1 Hr)).
  - (* delete on PUBACK / PUBCOMP *)
    destruct ok0; eexists; (split; [reflexivity|]); [|reflexivity]. symmetry. apply (keys_delete (out s)), (I_nodup _ HI).
  - (* PUBREL replaces PUBLISH on PUBREC *)
    destruct ok0; eexists; (split; [reflexivity|]); [|reflexivity]. symmetry. apply (keys_save (out s) (Pubrel id0)).
Qed.

Lemma ro_deq s t e s' : ro_R s t -> step_deq s e = Some s' -> exists t', ro_step t e = Some t' /\ ro_R s' t'.
Proof.
  intros -> Hp. unfold ro_R. destruct (step_deq_cases _ _ _ Hp); pc_split.
  all: try (pp_cases; try destruct (m_qos _ =? 0); (eexists; split; reflexivity); fail).
  destruct ok; [|eexists; split; reflexivity].
  exists (keys (store_save (out s) p)). split; [rewrite keys_save; cbn [ro_step]; destruct (get_id p); reflexivity|reflexivity].
Qed.

Lemma ro_step_ok s t e s' : INV s -> ro_R s t -> step s e = Some s' -> exists t', ro_step t e = Some t' /\ ro_R s' t'.
Proof.
  intros HI HR. generalize (conj HI HR). clear HI HR. revert s t e s'.
  apply (step_sweep (fun s t => INV s /\ ro_R s t) (fun t e s' => exists t', ro_step t e = Some t' /\ ro_R s' t')).
  - (* roles *) intros s t g d a c (HI & HR) Hf Hl. split; [exact (INV_learns _ g _ _ _ HI Hf Hl)|exact HR].
  - (* new *) intros s t (_ & HR) _. exists t. split; [reflexivity|exact HR].
  - (* close-req *) intros s t (_ & HR). exists t. split; [reflexivity|exact HR].
  - (* quiescent *) intros s t (_ & HR) _. exists t. split; [reflexivity|exact HR].
  - (* kill *) intros s t g (_ & HR) _. exists t. split; [reflexivity|exact HR].
  - (* closure *) intros s t e s' (_ & HR) Hc. apply sim_keep; [exact (clo_quiet_ro _ (step_clo_event _ _ _ Hc))|].
    unfold ro_R, out. rewrite (proj2 (step_clo_sess _ _ _ Hc)). exact HR.
  - (* processor *) intros s s1 t e s' g (HI & HR) _ Hv _ Hp. apply (ro_proc s1); [exact (INV_proc_view _ _ _ _ HI Hv)| |exact Hp].
    destruct Hv as [[-> _]|(_ & _ & -> & _)]; exact HR.
  - (* dequeuer *) intros s t e s' g (_ & HR) _ _ _ _ Hp. exact (ro_deq _ _ _ _ HR Hp).
  - (* acker *) intros s t e s' g (_ & HR) _ _ _ _ _ Hp. apply sim_keep; [exact (ack_quiet_ro _ (step_ack_event _ _ _ Hp))|].
    destruct (step_ack_shape _ _ _ Hp) as (a & dy & t1 & t2 & t3 & q & ->). exact HR.
  - (* cleanup *) intros s t e s' (_ & HR) _ Hp. apply sim_keep; [exact (cleanup_quiet_ro _ (step_cleanup_event _ _ _ Hp))|].
    destruct (step_cleanup_shape _ _ _ Hp) as (p & d & a & l & -> & _). exact HR.
Qed.

Theorem c15_resend_order_holds : forall es s, bc_run es = Some s -> c15_resend_order es = true.
Proof. apply (scan_sound_inv ro_step INV ro_R INV_init INV_step ro_step_ok). reflexivity. Qed.

(* events that neither take a message from the backend nor send a fresh PUBLISH *)
Definition dq_neutral (e : event) : bool :=
  match e with
  | ENewConn | EDeqRet _ (QMsg _ _) | ETx _ (Publish false _ _) _ _ => false
  | _ => true
  end.

Lemma clo_event_dq e : clo_event e = true -> dq_neutral e = true.
Proof. destruct e; cbn [clo_event dq_neutral]; intros H; try discriminate H; reflexivity. Qed.
Lemma cleanup_event_dq e : cleanup_event e = true -> dq_neutral e = true.
Proof. destruct e; cbn [cleanup_event dq_neutral]; intros H; try discriminate H; reflexivity. Qed.

Lemma set_dup_neutral g p a ok : dq_neutral (ETx g (set_dup p) a ok) = true.
Proof. destruct p; reflexivity. Qed.

Lemma step_proc_neutral s e s' : step_proc s e = Some s' -> dq_neutral e = true.
Proof. intros H. inv_proc H; try dispatch_cases Hd; pc_split; first [reflexivity|apply set_dup_neutral]. Qed.

Definition fw_v (s : bc) (t : list (N * fw_st)) : option fw_st :=
  match gdeq s with Some g => aget t g | None => None end.

(* the packet the dequeuer holds is the dequeued message under the allocated id *)
Definition fw_holds (p : packet) (v : option fw_st) : Prop :=
  exists m id oid, p = Publish false m id /\ v = Some (FwGot m oid) /\
    ((m_qos m =? 0) = true /\ id = 0 \/ (m_qos m =? 0) = false /\ oid = Some id).

Definition fw_R (s : bc) (t : list (N * fw_st)) : Prop :=
  (forall g v, aget t g = Some v -> gdeq s = Some g) /\
  match dp s with
  | DOff => fw_v s t = None
  | DNextId m _ => fw_v s t = Some (FwGot m None) /\ (m_qos m =? 0) = false
  | DSave p _ | DBackAck p | DSend p => fw_holds p (fw_v s t)
  | DToken | DWait => fw_v s t = None \/ fw_v s t = Some FwSent
  | _ => True
  end.

Lemma clo_quiet_fw e : clo_event e = true -> quiet fw_step e. Proof. quiet_by e. Qed.
Lemma cleanup_quiet_fw e : cleanup_event e = true -> quiet fw_step e. Proof. quiet_by e. Qed.

(* an event of a goroutine that is not a dequeuer (and is not a Dequeue returning a
   message) leaves the scanner state alone *)
Lemma fw_noentry_step t e g :
  ev_g e = Some g -> aget t g = None -> dq_neutral e = true \/ ack_event e = true -> fw_step t e = Some t.
Proof.
  intros Hg Ha Hn. destruct e; cbn [ev_g] in Hg; try discriminate Hg; injection Hg as ->; cbn [fw_step]; try reflexivity.
  - destruct p; try reflexivity. rewrite Ha. reflexivity.
  - destruct r; try reflexivity. destruct Hn as [Hn|Hn]; discriminate Hn.
  - rewrite Ha. reflexivity.
Qed.

Lemma fw_R_roles s t p d a c :
  gdeq s = None \/ d = gdeq s -> fw_R s t -> fw_R (set_roles s p d a c) t.
Proof.
  intros Hd (R1 & R3). unfold fw_R, fw_v in *. sf. destruct Hd as [Hd| ->]; [|split; assumption].
  assert (Hn : forall g, aget t g = None).
  { intros g. destruct (aget t g) eqn:E; [|reflexivity]. specialize (R1 _ _ E). congruence. }
  rewrite Hd in R3. split; [intros g v E; rewrite Hn in E; discriminate E|].
  destruct d as [g|]; [rewrite Hn|]; exact R3.
Qed.

(* the cleanup freezes the coroutines *)
Lemma fw_R_cleanup s t e s' : fw_R s t -> step_cleanup s e = Some s' -> fw_R s' t.
Proof.
  intros (R1 & R3) Hp. destruct (step_cleanup_shape _ _ _ Hp) as (p & d & a & l & -> & Hx).
  unfold fw_R, fw_v in *; sf.
  destruct Hx as [(_ & -> & _)|(_ & _ & _ & -> & _)]; [split; assumption|].
  split; [exact R1|]. destruct (dp s); auto.
Qed.

Lemma fw_deq s t e s' g :
  fw_R s t -> gdeq s = Some g -> ev_g e = Some g -> step_deq s e = Some s' -> exists t', fw_step t e = Some t' /\ fw_R s' t'.
Proof.
  intros (R1 & R3) Hgd Hg Hp. unfold fw_v in R3. rewrite Hgd in R3.
  (* the table afterwards: unchanged, or with a new entry for g *)
  assert (Hfin : forall t', (t' = t \/ exists v, t' = aput t g v) -> gdeq s' = Some g ->
            match dp s' with
            | DOff => False
            | DNextId m _ => aget t' g = Some (FwGot m None) /\ (m_qos m =? 0) = false
            | DSave p _ | DBackAck p | DSend p => fw_holds p (aget t' g)
            | DToken | DWait => aget t' g = None \/ aget t' g = Some FwSent
            | _ => True
            end -> fw_R s' t').
  { intros t' Ht Hgd' Hx. split.
    - destruct Ht as [->|(v & ->)]; [rewrite Hgd', <- Hgd; exact R1|apply entries_aput; [rewrite Hgd', <- Hgd; exact R1|exact Hgd']].
    - unfold fw_v. rewrite Hgd'. destruct (dp s'); try exact Hx; contradiction. }
  destruct (step_deq_cases _ _ _ Hp); pc_split; cbn [ev_g] in Hg; injection Hg as ->.
  all: match goal with H : dp _ = _ |- _ => rewrite H in R3 end.
  (* the scanner ignores the event, the new control point asks for what is known or for nothing *)
  all: try (exists t; split; [reflexivity|]; pp_cases;
            (apply Hfin; [left; reflexivity|exact Hgd|]; sf; first [exact I|exact R3]); fail).
  - (* a message is dequeued *)
    exists (aput t g (FwGot m None)). split; [cbn [fw_step]; destruct R3 as [R3|R3]; rewrite R3; reflexivity|].
    apply Hfin; [right; eexists; reflexivity|exact Hgd|]. sf. rewrite aget_aput_eq.
    destruct (m_qos m =? 0) eqn:Eq; [|split; [reflexivity|exact Eq]].
    destruct ba; exists m, 0, None; (split; [reflexivity|split; [reflexivity|left; split; [exact Eq|reflexivity]]]).
  - (* its id is allocated *)
    destruct R3 as (R3 & Rq). exists (aput t g (FwGot m (Some id))). split; [cbn [fw_step]; rewrite R3; reflexivity|].
    apply Hfin; [right; eexists; reflexivity|exact Hgd|]. sf. rewrite aget_aput_eq.
    exists m, id, (Some id). split; [reflexivity|split; [reflexivity|right; split; [exact Rq|reflexivity]]].
  - (* the PUBLISH is sent *)
    destruct R3 as (m & id & oid & -> & R3 & Rw). exists (aput t g FwSent). split.
    + cbn [fw_step]. rewrite R3. cbn [negb andb]. rewrite message_eqb_refl.
      destruct Rw as [(Rq & ->)|(Rq & ->)]; rewrite Rq; cbn [option_eqb andb]; rewrite ?N.eqb_refl; reflexivity.
    + destruct ok; [destruct (m_qos m =? 0)|]; (apply Hfin; [right; eexists; reflexivity|exact Hgd|]); sf;
        rewrite ?aget_aput_eq; auto.
Qed.

Lemma fw_step_ok s t e s' :
  INV s -> fw_R s t -> step s e = Some s' -> exists t', fw_step t e = Some t' /\ fw_R s' t'.
Proof.
  intros HI HR. generalize (conj HI HR). clear HI HR. revert s t e s'.
  apply (step_sweep (fun s t => INV s /\ fw_R s t) (fun t e s' => exists t', fw_step t e = Some t' /\ fw_R s' t')).
  - (* roles *) intros s t g d a c (HI & HR) Hf Hl. split; [exact (INV_learns _ g _ _ _ HI Hf Hl)|].
    apply fw_R_roles; [|exact HR]. destruct Hl as [(Hn & _)|[(-> & _)|(-> & _)]]; [left; exact Hn|right; reflexivity|right; reflexivity].
  - (* new *) intros s t _ _. exists []. split; [reflexivity|]. split; [intros g v E; discriminate E|reflexivity].
  - (* close-req *) intros s t (_ & HR). exists t. split; [reflexivity|exact HR].
  - (* quiescent *) intros s t (_ & HR) _. exists t. split; [reflexivity|exact HR].
  - (* kill *) intros s t g (_ & HR) _. exists t. split; [reflexivity|exact HR].
  - (* closure *) intros s t e s' (_ & HR) Hc. apply sim_keep; [exact (clo_quiet_fw _ (step_clo_event _ _ _ Hc))|].
    destruct (step_clo_shape _ _ _ Hc) as (se & cl & dy & q & ->). exact HR.
  - (* processor: it is not the dequeuer, so it has no entry; Restore starts the dequeuer *)
    intros s s1 t e s' g (HI & HR) _ Hv Hg Hp.
    assert (Hn : is_role (gdeq s) g = false).
    { destruct Hv as [[_ Hgp]|(_ & Hf & _)]; [|apply (role_free_inv _ _ Hf)].
      apply is_role_false_of. intros Hgd. exact (I_roles _ HI g Hgp Hgd). }
    assert (HR1 : fw_R s1 t) by (destruct Hv as [[-> _]|(_ & _ & -> & _)]; [exact HR|apply fw_R_roles; [right; reflexivity|exact HR]]).
    pose proof (step_proc_neutral _ _ _ Hp) as Hne. destruct (step_proc_dp _ _ _ Hp) as (Hgd & Hd).
    exists t. split; [apply (fw_noentry_step t e g Hg); [apply (no_entry _ _ _ (proj1 HR) Hn)|left; exact Hne]|].
    destruct HR1 as (R1 & R3). unfold fw_R, fw_v in *. rewrite Hgd. destruct Hd as [->|(Hpr & ->)]; [split; assumption|].
    destruct (I_pre _ (INV_proc_view _ _ _ _ HI Hv)) as (Hoff & _); [rewrite Hpr; reflexivity|].
    rewrite Hoff in R3. split; [exact R1|left; exact R3].
  - (* dequeuer *) intros s t e s' g (_ & HR) _ Hg Hgd _ Hp. exact (fw_deq _ _ _ _ g HR Hgd Hg Hp).
  - (* acker: it is not the dequeuer either *)
    intros s t e s' g (_ & HR) _ Hg _ _ Hn Hp.
    exists t. split; [apply (fw_noentry_step t e g Hg); [apply (no_entry _ _ _ (proj1 HR) Hn)|right; exact (step_ack_event _ _ _ Hp)]|].
    destruct (step_ack_shape _ _ _ Hp) as (a & dy & t1 & t2 & t3 & q & ->). exact HR.
  - (* cleanup *) intros s t e s' (_ & HR) _ Hp. apply sim_keep; [exact (cleanup_quiet_fw _ (step_cleanup_event _ _ _ Hp))|].
    exact (fw_R_cleanup _ _ _ _ HR Hp).
Qed.

Theorem forward_intact_holds : forall es s, bc_run es = Some s -> c06_forward_intact es = true.
Proof.
  apply (scan_sound_inv fw_step INV fw_R INV_init INV_step fw_step_ok).
  split; [intros g v E; discriminate E|reflexivity].
Qed.

(* c15_dequeue_order looks at less than c06_forward_intact: it forgets the allocated id *)
Definition fw_msg (v : fw_st) : option message := match v with FwGot m _ => Some m | FwSent => None end.

Lemma fw_dq_step t u e t' :
  (forall g, aget u g = option_map fw_msg (aget t g)) -> fw_step t e = Some t' ->
  exists u', dq_step u e = Some u' /\ forall g, aget u' g = option_map fw_msg (aget t' g).
Proof.
  intros H E.
  assert (Hsame : t' = t -> dq_step u e = Some u -> exists u', dq_step u e = Some u' /\ forall g, aget u' g = option_map fw_msg (aget t' g)).
  { intros -> Eu. exists u. split; [exact Eu|exact H]. }
  assert (Hput : forall g v, t' = aput t g v -> dq_step u e = Some (aput u g (fw_msg v)) ->
            exists u', dq_step u e = Some u' /\ forall g, aget u' g = option_map fw_msg (aget t' g)).
  { intros g v -> Eu. eexists. split; [exact Eu|]. intros g'. rewrite !aget_aput. destruct (g' =? g); [reflexivity|apply H]. }
  destruct e; cbn [fw_step] in E; try (injection E as <-; apply Hsame; reflexivity).
  - injection E as <-. exists []. split; [reflexivity|reflexivity].
  - destruct p; try (injection E as <-; apply Hsame; reflexivity).
    destruct (aget t g) as [[m' oid|]|] eqn:Et.
    + destruct dup; [discriminate E|]. cbn [negb andb] in E. destruct (message_eqb m m') eqn:Em; [|discriminate E].
      destruct (option_eqb _ _ _); [|discriminate E]. injection E as <-. apply (Hput g FwSent); [reflexivity|].
      cbn [dq_step]. rewrite (H g), Et. cbn [option_map fw_msg]. rewrite Em. reflexivity.
    + destruct dup; [|discriminate E]. injection E as <-. apply Hsame; reflexivity.
    + injection E as <-. apply Hsame; [reflexivity|]. destruct dup; [reflexivity|]. cbn [dq_step]. rewrite (H g), Et. reflexivity.
  - destruct r; try (injection E as <-; apply Hsame; reflexivity).
    destruct (aget t g) as [[m' oid|]|] eqn:Et; [discriminate E| |]; injection E as <-;
      (apply (Hput g (FwGot m None)); [reflexivity|]; cbn [dq_step]; rewrite (H g), Et; reflexivity).
  - destruct (aget t g) as [[m oid|]|] eqn:Et; try (injection E as <-; apply Hsame; reflexivity).
    injection E as <-. exists u. split; [reflexivity|]. intros g'. rewrite aget_aput.
    destruct (N.eqb_spec g' g) as [->|_]; [rewrite H, Et; reflexivity|apply H].
Qed.

Lemma forward_intact_dequeue_order es : c06_forward_intact es = true -> c15_dequeue_order es = true.
Proof.
  unfold c06_forward_intact, c15_dequeue_order.
  assert (H : forall t u, (forall g, aget u g = option_map fw_msg (aget t g)) -> scan fw_step t es = true -> scan dq_step u es = true).
  { induction es as [|e es IH]; intros t u Hr Hs; [reflexivity|]. cbn [scan] in *.
    destruct (fw_step t e) as [t'|] eqn:E; [|discriminate Hs].
    destruct (fw_dq_step t u e t' Hr E) as (u' & -> & Hr'). exact (IH t' u' Hr' Hs). }
  apply H. intros g. reflexivity.
Qed.

Theorem c15_dequeue_order_holds : forall es s, bc_run es = Some s -> c15_dequeue_order es = true.
Proof. intros es s H. exact (forward_intact_dequeue_order es (forward_intact_holds es s H)). Qed.


(* ========================================================== c15_in_order == *)

Definition io_ok (x : ppc) (v : option (packet * bool)) : Prop :=
  match x with
  | PPub0 m => exists d id, v = Some (Publish d m id, false) /\ m_qos m = 0
  | PPub1W _ m => exists d id, v = Some (Publish d m id, false) /\ m_qos m = 1
  | PRelLookup id | PRelPub id _ => v = Some (Pubrel id, false)
  | _ => True
  end.

Definition io_v (s : bc) (t : list (N * (packet * bool))) : option (packet * bool) :=
  match gproc s with Some g => aget t g | None => None end.

Definition io_R (s : bc) (t : list (N * (packet * bool))) : Prop :=
  (forall g v, aget t g = Some v -> gproc s = Some g) /\ io_ok (pp s) (io_v s t).

Lemma clo_quiet_io e : clo_event e = true -> quiet io_step e. Proof. quiet_by e. Qed.
Lemma deq_quiet_io e : deq_event e = true -> quiet io_step e. Proof. quiet_by e. Qed.
Lemma ack_quiet_io e : ack_event e = true -> quiet io_step e. Proof. quiet_by e. Qed.

Lemma io_ok_done v : io_ok PDone v.
Proof. exact I. Qed.

(* the processor's goroutine becomes known: the table was empty *)
Lemma io_R_learn s t g : gproc s = None -> io_R s t -> io_R (set_roles s (Some g) (gdeq s) (gack s) (gcl s)) t.
Proof.
  intros Hn (R1 & R2). unfold io_R, io_v in *. sf. rewrite Hn in R2.
  assert (Hg : aget t g = None) by (destruct (aget t g) eqn:E; [specialize (R1 _ _ E); congruence|reflexivity]).
  split; [intros g' v E; specialize (R1 _ _ E); congruence|rewrite Hg; exact R2].
Qed.

Lemma io_proc s t e s' g :
  io_R s t -> gproc s = Some g -> ev_g e = Some g -> step_proc s e = Some s' -> exists t', io_step t e = Some t' /\ io_R s' t'.
Proof.
  intros (R1 & R2) Hgp Hg Hp. unfold io_v in R2. rewrite Hgp in R2.
  assert (Hput : forall x v, io_ok x (Some v) -> gproc s' = Some g -> pp s' = x -> io_R s' (aput t g v)).
  { intros x v Hx Hgp' <-. split; [apply entries_aput; [rewrite Hgp', <- Hgp; exact R1|exact Hgp']|].
    unfold io_v. rewrite Hgp', aget_aput_eq. exact Hx. }
  assert (Hsame : io_ok (pp s') (aget t g) -> gproc s' = Some g -> io_R s' t).
  { intros Hx Hgp'. split; [rewrite Hgp', <- Hgp; exact R1|unfold io_v; rewrite Hgp'; exact Hx]. }
  inv_proc Hp; cbn [ev_g] in Hg; injection Hg as ->.
  (* the scanner ignores the event and the new control point is not about a received packet *)
  all: try (exists t; split; [reflexivity|]; apply Hsame; [pp_cases; sfp; exact I|pp_cases; exact Hgp]; fail).
  - (* the first packet *)
    eexists. split; [reflexivity|]. apply (Hput (pp (set_pp s (match p0 with Connect c => PAuth c | _ => PDieLog KClient end)))); [destruct p0; exact I|exact Hgp|reflexivity].
  - (* a packet received in the main loop *)
    eexists. split; [reflexivity|]. apply (Hput x0); [|destruct p0; exact Hgp|reflexivity].
    dispatch_cases Hd; cbn [io_ok]; eauto.
  - (* the backend Publish for a QoS 0 PUBLISH *)
    rewrite Hpp in R2. destruct R2 as (d & id & R2 & Rq).
    eexists. split; [cbn [io_step]; rewrite R2, Rq, message_eqb_refl; reflexivity|]. apply (Hput PPubR); [exact I|exact Hgp|reflexivity].
  - (* ... for a QoS 1 PUBLISH *)
    rewrite Hpp in R2. destruct R2 as (d & id & R2 & Rq).
    eexists. split; [cbn [io_step]; rewrite R2, Rq, message_eqb_refl; reflexivity|]. apply (Hput PPubR); [exact I|exact Hgp|reflexivity].
  - (* the stored PUBLISH is found: the PUBREL is still the packet received last *)
    exists t. split; [reflexivity|]. apply Hsame; [|exact Hgp]. rewrite Hpp in R2. sfp. destruct (store_lookup _ _) as [[]|]; try exact I; exact R2.
  - (* the backend Publish for the PUBREL *)
    rewrite Hpp in R2. eexists. split; [cbn [io_step]; rewrite R2; reflexivity|]. apply (Hput PPubR); [exact I|exact Hgp|reflexivity].
Qed.

Lemma io_step_ok s t e s' : io_R s t -> step s e = Some s' -> exists t', io_step t e = Some t' /\ io_R s' t'.
Proof.
  revert s t e s'. apply (step_sweep io_R (fun t e s' => exists t', io_step t e = Some t' /\ io_R s' t')).
  - (* roles *) intros s t g d a c HR _ _. exact HR.
  - (* new *) intros s t _ _. exists []. split; [reflexivity|]. split; [intros g v E; discriminate E|exact I].
  - (* close-req *) intros s t HR. exists t. split; [reflexivity|exact HR].
  - (* quiescent *) intros s t HR _. exists t. split; [reflexivity|exact HR].
  - (* kill *) intros s t g HR _. exists t. split; [reflexivity|exact HR].
  - (* closure *) intros s t e s' HR Hc. apply sim_keep; [exact (clo_quiet_io _ (step_clo_event _ _ _ Hc))|].
    destruct (step_clo_shape _ _ _ Hc) as (se & cl & dy & q & ->). exact HR.
  - (* processor *) intros s s1 t e s' g HR _ Hv Hg Hp.
    destruct Hv as [[-> Hgp]|(Hgp & _ & -> & _)]; [exact (io_proc _ _ _ _ g HR Hgp Hg Hp)|].
    exact (io_proc _ _ _ _ g (io_R_learn _ _ g Hgp HR) eq_refl Hg Hp).
  - (* dequeuer *) intros s t e s' g HR _ _ _ _ Hp. apply sim_keep; [exact (deq_quiet_io _ (step_deq_event _ _ _ Hp))|].
    destruct (step_deq_shape _ _ _ Hp) as (se & d & dy & t1 & t2 & t3 & ->). exact HR.
  - (* acker *) intros s t e s' g HR _ _ _ _ _ Hp. apply sim_keep; [exact (ack_quiet_io _ (step_ack_event _ _ _ Hp))|].
    destruct (step_ack_shape _ _ _ Hp) as (a & dy & t1 & t2 & t3 & q & ->). exact HR.
  - (* cleanup: it never received anything, so its Publish of the will finds no entry *)
    intros s t e s' (R1 & R2) Ho Hp. exists t. split.
    + pose proof (step_cleanup_event _ _ _ Hp) as He. destruct e; try discriminate He; try reflexivity.
      destruct (Ho g eq_refl) as (_ & Hr & _). cbn [io_step].
      rewrite (no_entry _ _ _ R1 Hr). reflexivity.
    + destruct (step_cleanup_shape _ _ _ Hp) as (p & d & a & l & -> & Hx).
      destruct Hx as [(-> & _)|(_ & _ & -> & _)]; split; try exact R1; try exact R2; exact I.
Qed.

Theorem c15_in_order_holds : forall es s, bc_run es = Some s -> c15_in_order es = true.
Proof.
  apply (scan_sound io_step io_R io_step_ok).
  unfold io_R, io_v, bc_init. sf. split; [intros g v E; discriminate E|exact I].
Qed.

(* ==================================================== c15_release_intact == *)

Definition ri_exp (s : bc) (g : N) : option message :=
  match pp s with
  | PRelPub _ m => if is_role (gproc s) g then Some m else None
  | _ => None
  end.

Definition ri_R (s : bc) (t : list (N * message)) : Prop :=
  (lp s <> LNone -> pp s = PDone) /\
  (gproc s = None -> pp s = PFirst \/ pp s = PDone) /\
  forall g, aget t g = ri_exp s g.

Lemma clo_quiet_ri e : clo_event e = true -> quiet ri_step e. Proof. quiet_by e. Qed.
Lemma deq_quiet_ri e : deq_event e = true -> quiet ri_step e. Proof. quiet_by e. Qed.
Lemma ack_quiet_ri e : ack_event e = true -> quiet ri_step e. Proof. quiet_by e. Qed.
Lemma cleanup_quiet_ri e : cleanup_event e = true -> quiet ri_step e. Proof. quiet_by e. Qed.

Lemma ri_R_learn_proc s t g : gproc s = None -> ri_R s t -> ri_R (set_roles s (Some g) (gdeq s) (gack s) (gcl s)) t.
Proof.
  intros Hn (R1 & R2 & R3). unfold ri_R, ri_exp in *; sf. split; [exact R1|split; [discriminate|]].
  intros g'. rewrite R3. destruct (R2 Hn) as [E|E]; rewrite E; reflexivity.
Qed.

(* the cleanup cannot begin while a release is pending *)
Lemma ri_R_cleanup s t s' e : ri_R s t -> step_cleanup s e = Some s' -> ri_R s' t.
Proof.
  intros (R1 & R2 & R3) Hp.
  destruct (step_cleanup_shape _ _ _ Hp) as (p & d & a & l & -> & Hx).
  unfold ri_R, ri_exp in *; sf.
  destruct Hx as [(-> & _ & _ & Hlp)|(Hlp & Hst & -> & _)].
  - split; [intros _; apply R1, Hlp|split; [exact R2|exact R3]].
  - split; [reflexivity|split; [right; reflexivity|]]. intros g. rewrite R3.
    unfold all_stopped, proc_can_stop in Hst. destruct (pp s); try reflexivity. discriminate Hst.
Qed.

Lemma ri_proc s t e s' g :
  ri_R s t -> gproc s = Some g -> ev_g e = Some g -> step_proc s e = Some s' -> exists t', ri_step t e = Some t' /\ ri_R s' t'.
Proof.
  intros (R1 & R2 & R3) Hgp Hg Hp.
  assert (Hl : lp s = LNone).
  { destruct (lp s); try reflexivity; exfalso; apply (step_proc_not_done _ _ _ Hp), R1; discriminate. }
  assert (Hfin : forall t', lp s' = LNone -> gproc s' = Some g -> (forall g', aget t' g' = ri_exp s' g') -> ri_R s' t').
  { intros t' E1 E2 E3. split; [intros Hx; exfalso; apply Hx, E1|split; [intros Hx; rewrite Hx in E2; discriminate E2|exact E3]]. }
  assert (Hempty : match pp s with PRelPub _ _ => False | _ => True end -> forall g', aget t g' = None).
  { intros Hx g'. rewrite R3. unfold ri_exp. destruct (pp s); try reflexivity. contradiction. }
  assert (Hdrop : match pp s with PRelPub _ _ => False | _ => True end -> forall g', aget (adel t g) g' = None).
  { intros Hx g'. rewrite aget_adel, (Hempty Hx). destruct (g' =? g); reflexivity. }
  inv_proc Hp; pc_split; cbn [ev_g] in Hg; injection Hg as ->.
  (* the scanner ignores the event; no release is pending, before or after: the table is and stays empty *)
  all: try (exists t; split; [reflexivity|]; apply Hfin; [pp_cases; exact Hl|pp_cases; exact Hgp|];
            intros g'; rewrite R3; unfold ri_exp;
            first [match goal with H : pp _ = _ |- _ => rewrite H end|destruct (pp s); try discriminate]; pp_cases; reflexivity).
  all: rewrite Hpp in Hempty, Hdrop.
  - (* the first packet *)
    exists (adel t g). split; [reflexivity|]. apply Hfin; [exact Hl|exact Hgp|].
    intros g'. rewrite (Hdrop I). unfold ri_exp. destruct p0; reflexivity.
  - (* a packet received in the main loop: an entry left by an unanswered lookup is dropped *)
    exists (adel t g). split; [reflexivity|]. dispatch_cases Hd; (apply Hfin; [exact Hl|exact Hgp|]); intros g'; rewrite (Hdrop I); reflexivity.
  - (* QoS 1 publish: no release pending *)
    exists t. split; [cbn [ri_step]; rewrite (Hempty I); reflexivity|]. apply Hfin; [exact Hl|exact Hgp|].
    intros g'. rewrite (Hempty I). reflexivity.
  - exists (adel t g). split; [reflexivity|]. apply Hfin; [exact Hl|exact Hgp|]. intros g'. rewrite (Hdrop I). reflexivity.
  - (* the lookup: if the stored PUBLISH is found, its message is entered *)
    destruct (store_lookup _ _) as [[]|];
      try (exists (adel t g); split; [reflexivity|]; apply Hfin; [exact Hl|exact Hgp|]; intros g'; rewrite (Hdrop I); reflexivity).
    exists (aput t g m). split; [reflexivity|]. apply Hfin; [exact Hl|exact Hgp|].
    intros g'. rewrite aget_aput, (Hempty I). unfold ri_exp. sfp. rewrite Hgp. reflexivity.
  - (* the release: exactly the stored message is handed on *)
    assert (Eg : aget t g = Some m0) by (rewrite R3; unfold ri_exp; rewrite Hpp, Hgp, is_role_some; reflexivity).
    exists (adel t g). split; [cbn [ri_step]; rewrite Eg, message_eqb_refl; reflexivity|]. apply Hfin; [exact Hl|exact Hgp|].
    intros g'. rewrite aget_adel. destruct (N.eqb_spec g' g) as [->|Hne]; [reflexivity|].
    rewrite R3. unfold ri_exp. sfp. rewrite Hpp, Hgp. cbn [is_role]. destruct (N.eqb_spec g' g); [contradiction|reflexivity].
Qed.

Lemma ri_step_ok s t e s' : ri_R s t -> step s e = Some s' -> exists t', ri_step t e = Some t' /\ ri_R s' t'.
Proof.
  revert s t e s'. apply (step_sweep ri_R (fun t e s' => exists t', ri_step t e = Some t' /\ ri_R s' t')).
  - (* roles *) intros s t g d a c HR _ _. exact HR.
  - (* new *) intros s t (R1 & R2 & R3) Hlp. exists t. split; [reflexivity|].
    assert (Hd : pp s = PDone) by (apply R1; rewrite Hlp; discriminate).
    split; [intros Hx; exfalso; apply Hx; reflexivity|split; [left; reflexivity|]].
    intros g. rewrite R3. unfold ri_exp. rewrite Hd. reflexivity.
  - (* close-req *) intros s t HR. exists t. split; [reflexivity|exact HR].
  - (* quiescent *) intros s t HR _. exists t. split; [reflexivity|exact HR].
  - (* kill *) intros s t g HR _. exists t. split; [reflexivity|exact HR].
  - (* closure *) intros s t e s' HR Hc. apply sim_keep; [exact (clo_quiet_ri _ (step_clo_event _ _ _ Hc))|].
    destruct (step_clo_shape _ _ _ Hc) as (se & cl & dy & q & ->). exact HR.
  - (* processor *) intros s s1 t e s' g HR _ Hv Hg Hp.
    destruct Hv as [[-> Hgp]|(Hgp & _ & -> & _)]; [exact (ri_proc _ _ _ _ g HR Hgp Hg Hp)|].
    exact (ri_proc _ _ _ _ g (ri_R_learn_proc _ _ g Hgp HR) eq_refl Hg Hp).
  - (* dequeuer *) intros s t e s' g HR _ _ _ _ Hp. apply sim_keep; [exact (deq_quiet_ri _ (step_deq_event _ _ _ Hp))|].
    destruct (step_deq_shape _ _ _ Hp) as (se & d & dy & t1 & t2 & t3 & ->). exact HR.
  - (* acker *) intros s t e s' g HR _ _ _ _ _ Hp. apply sim_keep; [exact (ack_quiet_ri _ (step_ack_event _ _ _ Hp))|].
    destruct (step_ack_shape _ _ _ Hp) as (a & dy & t1 & t2 & t3 & q & ->). exact HR.
  - (* cleanup *) intros s t e s' HR _ Hp. apply sim_keep; [exact (cleanup_quiet_ri _ (step_cleanup_event _ _ _ Hp))|].
    exact (ri_R_cleanup _ _ _ _ HR Hp).
Qed.

Theorem c15_release_intact_holds : forall es s, bc_run es = Some s -> c15_release_intact es = true.
Proof.
  apply (scan_sound ri_step ri_R ri_step_ok).
  unfold ri_R, ri_exp, bc_init. sf. split; [reflexivity|split; [right; reflexivity|reflexivity]].
Qed.
