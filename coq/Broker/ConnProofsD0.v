(* ConnProofsD0.v — what the C14 / C15 proofs about the broker-connection model BC (Conn.v)
   use beyond ConnProofsA_lib.v and ConnProc.v: the lemma that closes a simulation step the
   scanner ignores, and the tactic that shows a scanner ignores a class of events. *)
From Coq Require Import List NArith Bool Lia.
From GM Require Import Base.Lts Codec.Packet Session.Ids Session.Store
  Broker.Conn Broker.ConnSpec Broker.ConnBase Broker.ConnProofsA_lib.
Import ListNotations.
Open Scope N_scope.

Lemma subs_eqb_refl a : subs_eqb a a = true.
Proof. exact (ConnProc.subs_eqb_refl a). Qed.

(* split the side conditions of a case of [proc_case] *)
Ltac pc_split :=
  repeat match goal with
         | H : _ \/ _ |- _ => destruct H
         | H : _ /\ _ |- _ => destruct H
         | H : exists _, _ |- _ => destruct H
         end; subst.

Lemma sim_keep {T} (f : T -> event -> option T) (R : bc -> T -> Prop) e s' t :
  quiet f e -> R s' t -> exists t', f t e = Some t' /\ R s' t'.
Proof. intros Hq HR. exists t. split; [apply Hq|exact HR]. Qed.

(* [class e = true -> quiet f e], by cases on the event and on the arguments the scanner looks at *)
Ltac quiet_by e :=
  let H := fresh in let t := fresh in
  intros H t; destruct e; try discriminate H; cbn;
  repeat match goal with |- context [match ?x with _ => _ end] => is_var x; destruct x; try discriminate H end;
  reflexivity.

Lemma step_proc_not_done s e s' : step_proc s e = Some s' -> pp s <> PDone.
Proof. intros H E. unfold step_proc in H. rewrite E in H. destruct e; discriminate H. Qed.

Lemma conn_open_true s : conn_open s = true -> lp s <> LEnd.
Proof. exact (ConnProofsA_lib.conn_open_true s). Qed.

Lemma sess_eta x : x = Sess (s_counter x) (s_in x) (s_out x).
Proof. destruct x; reflexivity. Qed.

Definition cleanup_event (e : event) : bool :=
  match e with EPub _ _ None | ETerm _ _ | EClosed | EPubRet _ _ | EDie _ KBackend => true | _ => false end.
