(* ConnProofsA_resp1.v — counting lemmas for the closure table and the ack queue, and
   the invariant inv_clos of the model's closure table; used by ConnProofsA_resp2.v
   (C20_responses). *)
From Coq Require Import List NArith Bool Lia.
From GM Require Import Base.Lts Codec.Packet Session.Ids Session.Store Session.StoreProofs
  Broker.Conn Broker.ConnSpec Broker.ConnBase Broker.ConnProofsA_lib Broker.ConnProofsA_inv
  Broker.ConnProofsA_sc.
Import ListNotations.
Open Scope N_scope.

Lemma packet_eqb_sym_true p q : packet_eqb p q = true -> packet_eqb q p = true.
Proof. intros H. apply packet_eqb_eq in H. subst. apply packet_eqb_refl. Qed.

(* ------------------------------------------------------- counting by filter *)

Definition b2n (b : bool) : nat := if b then 1%nat else 0%nat.
Definition flen {A} (f : A -> bool) (l : list A) : nat := length (filter f l).

Lemma flen_nil {A} (f : A -> bool) : flen f [] = 0%nat.
Proof. reflexivity. Qed.

Lemma flen_cons {A} (f : A -> bool) x l : flen f (x :: l) = (b2n (f x) + flen f l)%nat.
Proof. unfold flen. cbn [filter]. destruct (f x); reflexivity. Qed.

Lemma flen_app {A} (f : A -> bool) a b : flen f (a ++ b) = (flen f a + flen f b)%nat.
Proof. unfold flen. rewrite filter_app, app_length. reflexivity. Qed.

Lemma flen_ext {A} (f g : A -> bool) l : (forall x, In x l -> f x = g x) -> flen f l = flen g l.
Proof.
  induction l as [|x l IH]; intros H; [reflexivity|]. rewrite !flen_cons, (H x (or_introl eq_refl)), IH; [reflexivity|].
  intros y Hy. apply H. right; exact Hy.
Qed.

Lemma flen_pos_ex {A} (f : A -> bool) l : (0 < flen f l)%nat -> exists x, In x l /\ f x = true.
Proof.
  induction l as [|x l IH]; [cbn; lia|]. rewrite flen_cons. destruct (f x) eqn:E; intros H.
  - exists x. split; [left; reflexivity|exact E].
  - destruct (IH H) as (y & Hy & Hf). exists y. split; [right; exact Hy|exact Hf].
Qed.

Lemma flen_zero_all {A} (f : A -> bool) l : flen f l = 0%nat -> forall x, In x l -> f x = false.
Proof.
  induction l as [|y l IH]; intros H x Hx; [destruct Hx|]. rewrite flen_cons in H.
  destruct (f y) eqn:E; [cbn in H; lia|]. destruct Hx as [<-|Hx]; [exact E|apply IH; [exact H|exact Hx]].
Qed.

Lemma flen_all_false {A} (f : A -> bool) l : (forall x, In x l -> f x = false) -> flen f l = 0%nat.
Proof.
  induction l as [|y l IH]; intros H; [reflexivity|]. rewrite flen_cons, (H y (or_introl eq_refl)), IH; [reflexivity|].
  intros x Hx. apply H. right; exact Hx.
Qed.

Lemma flen_nremove1 (f : N -> bool) k l : In k l -> (flen f (nremove1 k l) + b2n (f k) = flen f l)%nat.
Proof.
  induction l as [|x l IH]; intros H; [destruct H|]. cbn [nremove1]. destruct (x =? k) eqn:E.
  - apply N.eqb_eq in E. subst x. rewrite flen_cons. lia.
  - destruct H as [->|H]; [rewrite N.eqb_refl in E; discriminate E|]. rewrite !flen_cons. specialize (IH H). lia.
Qed.

(* ------------------------------------------------------------ closure lists *)

Lemma flen_clo_set (f : closure -> bool) l k c st : clo_find l k = Some c ->
  (flen f (clo_set l k st) + b2n (f c) = flen f l + b2n (f (with_stat c st)))%nat.
Proof.
  induction l as [|x l IH]; cbn [clo_find clo_set]; [discriminate|]. destruct (c_k x =? k) eqn:E; intros H.
  - injection H as <-. rewrite !flen_cons. unfold with_stat. lia.
  - rewrite !flen_cons. specialize (IH H). lia.
Qed.

(* ------------------------------------------------------------- the ack queue *)

Lemma ackq_take_flen q p q' p' : ackq_take q p = Some q' ->
  (flen (packet_eqb p') q' + b2n (packet_eqb p' p) = flen (packet_eqb p') q)%nat.
Proof.
  revert q'; induction q as [|x q IH]; cbn [ackq_take]; intros q' H; [discriminate H|].
  destruct (packet_eqb x p) eqn:E.
  - injection H as <-. apply packet_eqb_eq in E. subst x. rewrite flen_cons. lia.
  - destruct (ackq_take q p) as [r|] eqn:Er; [|discriminate H]. injection H as <-.
    rewrite !flen_cons. specialize (IH r eq_refl). lia.
Qed.

Lemma ackq_take_pos q p q' : ackq_take q p = Some q' -> (0 < flen (packet_eqb p) q)%nat.
Proof.
  intros H. pose proof (ackq_take_flen _ _ _ p H) as Hx. rewrite packet_eqb_refl in Hx. cbn [b2n] in Hx. lia.
Qed.

(* ================================================================ inv_clos *)

(* The keys of the closure table are distinct; no closure belongs to a later
   connection than the current one; before the CONNACK the current connection has
   no closures and its ack queue is empty. *)
Definition inv_clos (s : bc) : Prop :=
  NoDup (map c_k (clos s)) /\
  (forall n, In n (map c_conn (clos s)) -> n <= conn_no s) /\
  (pre_connack (pp s) = true -> (forall n, In n (map c_conn (clos s)) -> n <> conn_no s) /\ ackq s = []).

Lemma inv_clos_init : inv_clos bc_init.
Proof.
  unfold inv_clos; cbn. split; [constructor|]. split; [intros n []|discriminate].
Qed.

Lemma inv_clos_reg s k a s' :
  inv_clos s -> pre_connack (pp s) = false -> clo_reg s k a = Some s' ->
  inv_clos s' /\ pp s' = pp s.
Proof.
  intros (H1 & H2 & H3) Hpc H. unfold clo_reg in H. destruct (clo_find (clos s) k) eqn:E; [discriminate H|].
  inv_some H. split; [|reflexivity]. unfold inv_clos; sf. rewrite !map_app. cbn [map c_k c_conn].
  split; [apply NoDup_app_intro_single; [exact H1|apply clo_find_none_keys, E]|].
  split; [intros n Hn; apply in_app_iff in Hn as [Hn|[<-|[]]]; [apply H2, Hn|lia]|].
  rewrite Hpc. discriminate.
Qed.

Lemma inv_clos_step s e s' : inv_clos s -> step s e = Some s' -> inv_clos s'.
Proof.
  apply sweep; clear s e s'.
  - intros s p d a c H. exact H.
  - intros s (H1 & H2 & H3) _. unfold inv_clos; sf. split; [exact H1|]. split.
    + intros n Hn. specialize (H2 n Hn). lia.
    + intros _. split; [|reflexivity]. intros n Hn. specialize (H2 n Hn). lia.
  - intros s H. exact H.
  - (* closures *)
    intros s e s' (H1 & H2 & H3) Hc. unfold inv_clos. unfold step_clo, guard in Hc.
    destruct e; try discriminate Hc; bm Hc; inv_some Hc; unfold clo_enqueue, clo_live;
      repeat match goal with |- context [if ?b then _ else _] => destruct b eqn:? end; sf;
      rewrite ?clo_set_keys, ?clo_set_conns; (split; [exact H1|]); (split; [exact H2|]); try exact H3;
      intros Hpc; destruct (H3 Hpc) as [H4 H5]; (split; [exact H4|]); try exact H5;
      exfalso;
      match goal with Hx : _ && _ = true |- _ => apply andb_true_iff in Hx as [Hx _]; apply N.eqb_eq in Hx end;
      match goal with
      | Hf : clo_find _ _ = Some ?c |- _ => apply clo_find_in in Hf as [Hf _]; apply (H4 (c_conn c)); [apply in_map, Hf|assumption]
      | Hf : clo_del_find _ _ _ = Some ?c |- _ => apply clo_del_find_in in Hf as [Hf _]; apply (H4 (c_conn c)); [apply in_map, Hf|assumption]
      end.
  - (* processor: it registers closures only after the CONNACK; Setup empties the ack queue *)
    intros s e s' (H1 & H2 & H3) Hp.
    destruct (step_proc_mono _ _ _ Hp) as (_ & _ & M3).
    assert (H3' : pre_connack (pp s') = true -> (forall n, In n (map c_conn (clos s)) -> n <> conn_no s) /\ ackq s = []).
    { intros Hpc. apply H3. destruct (pre_connack (pp s)); [reflexivity|rewrite M3 in Hpc by reflexivity; discriminate Hpc]. }
    clear M3 H3. inv_proc Hp; unfold inv_clos in *; pp_cases; sfp;
      try (split; [exact H1|split; [exact H2|first [exact H3'|intros Hpc; split; [apply H3', Hpc|reflexivity]]]]).
    all: rewrite !map_app; cbn [map c_k c_conn];
      (split; [apply NoDup_app_intro_single; [exact H1|apply clo_find_none_keys, Hk]|]);
      (split; [intros nn Hnn; apply in_app_iff in Hnn as [Hnn|[<-|[]]]; [apply H2, Hnn|lia]|discriminate]).
  - intros s e s' H Hd. destruct (step_deq_shape _ _ _ Hd) as (se & d & dy & t1 & t2 & t3 & ->). exact H.
  - (* acker *)
    intros s e s' (H1 & H2 & H3) Ha. unfold inv_clos. unfold step_ack, guard in Ha.
    destruct (ap s) eqn:Eap; destruct e; try discriminate Ha; bm Ha; inv_some Ha;
      unfold ack_token_back; repeat match goal with |- context [match ?b with _ => _ end] => destruct b end; sf;
      (split; [exact H1|]); (split; [exact H2|]); try exact H3;
      intros Hpc; destruct (H3 Hpc) as [H4 H5]; (split; [exact H4|]);
      match goal with Hx : ackq_take _ _ = Some _ |- _ => rewrite H5 in Hx; discriminate Hx end.
  - intros s e s' (H1 & H2 & H3) Hl. destruct (step_cleanup_shape _ _ _ Hl) as (p & d & a & l & -> & Hsh).
    unfold inv_clos; sf. destruct Hsh as [(-> & -> & -> & Hn)|(Hn & Hst & -> & -> & ->)].
    + split; [exact H1|]. split; [exact H2|exact H3].
    + split; [exact H1|]. split; [exact H2|discriminate].
Qed.

Theorem inv_clos_all es s : bc_run es = Some s -> inv_clos s.
Proof. apply bc_invariant; [exact inv_clos_init|exact inv_clos_step]. Qed.
