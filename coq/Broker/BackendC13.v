(* BackendC13.v — the STATE part of C13 on the MemoryBackend model: the active-connection
   map is a partial function consistent with the sessions (unique_ok, a state invariant;
   proved for every history in BackendC13Proofs.v), a non-clean Setup over an existing
   stored session hands that session over (handover_ok, a step clause), and the session
   handed over starts with an empty temporary queue (resume_clean_ok). *)
From Coq Require Import List NArith Bool Lia.
From Coq.Strings Require Import Byte.
From GM Require Import Codec.Packet Topic.MatchSpec Broker.Backend Broker.BackendSpec
  Broker.BackendProofs Broker.BackendProofsPublish Broker.BackendEffect Broker.BackendProofsSteps Broker.BackendProofsHist.
Import ListNotations.
Open Scope N_scope.

Definition unique_ok (st : state) : bool :=
  (* client id -> active connection is a partial function *)
  nodup_keys (st_active st) &&
  (* every entry names the connection that holds the session of that id *)
  forallb (fun e =>
     match alookup N.eqb (snd e) (st_sess st) with
     | Some k => match get_session st k with
                 | Some s => option_eqb N.eqb (s_act s) (Some (snd e))
                 | None => false end && bytes_eqb (cid_of st (snd e)) (fst e)
     | None => false
     end) (st_active st) &&
  (* a session's active connection is not a terminated one, holds that session, and is the
     registered connection of its client id *)
  forallb (fun e =>
     match s_act (snd e) with
     | None => true
     | Some c => negb (mem_n c (st_term st)) &&
                 option_eqb skey_eqb (alookup N.eqb c (st_sess st)) (Some (fst e)) &&
                 (is_nil (cid_of st c) ||
                  option_eqb N.eqb (alookup bytes_eqb (cid_of st c) (st_active st)) (Some c))
     end) (sessions st).

(* handover *)
Definition handed_over (st st' : state) (id : bytes) (c : conn) : bool :=
  match alookup bytes_eqb id (st_stored st), alookup bytes_eqb id (st_stored st') with
  | Some s, Some s' =>
      subs_eqb (s_subs s) (s_subs s') && msgs_eqb (s_sq s) (s_sq s') && is_nil (s_tq s') &&
      option_eqb N.eqb (s_act s') (Some c)
  | _, _ => false
  end.

Definition handover_ok (st : state) (o : op) (r : result) (st' : state) : bool :=
  match r with
  | RSetup true =>
      match o with
      | OSetup c id false => handed_over st st' id c
      | OSetupEnd false =>
          match st_pending st with
          | Some p => negb (p_clean p) && handed_over st st' (p_id p) (p_conn p)
          | None => false
          end
      | _ => false
      end
  | _ => true
  end.

(* the temporary queue of a stored session that is resumed starts empty: whatever was replayed to (or queued at QoS 0
   for) an earlier connection is not handed to the new one *)
Definition resume_clean_ok (st : state) (o : op) (r : result) (st' : state) : bool :=
  match r with
  | RSetup true =>
      let empty id := match alookup bytes_eqb id (st_stored st') with Some s' => is_nil (s_tq s') | None => false end in
      match o with
      | OSetup _ id _ => empty id
      | OSetupEnd _ => match st_pending st with Some p => empty (p_id p) | None => false end
      | _ => false
      end
  | _ => true
  end.

Lemma setup_finish_handover st c id clean :
  fst (setup_finish st c id clean) = RSetup true ->
  clean = false /\ handed_over st (snd (setup_finish st c id clean)) id c = true.
Proof.
  rewrite setup_finish_result. intros H. injection H as H. apply andb_true_iff in H as [Hc Hs].
  destruct clean; [discriminate|]. split; [reflexivity|]. unfold handed_over.
  change (alookup bytes_eqb id (st_stored (snd ?x))) with (get_session (snd x) (KStored id)).
  rewrite (g_get _ _ _ _ _ _ (setup_finish_granted st c id false)), skey_eqb_refl. unfold finish_session.
  destruct (alookup bytes_eqb id (st_stored st)) as [s|]; [|discriminate]. cbn [s_subs s_sq s_tq s_act is_nil].
  rewrite subs_eqb_refl, msgs_eqb_refl, n_opt_eqb_refl. reflexivity.
Qed.

Theorem step_handover_ok st o : let (r, st') := step st o in handover_ok st o r st' = true.
Proof.
  rewrite (surjective_pairing (step st o)). unfold handover_ok.
  destruct (step_effect st o) as [o r I|o r st' B|c clean _ _|c id clean _ _ _ _|p P _|c k s0 o r s2 _ Pu|c m got _|c id _ _ _];
    try reflexivity.
  - destruct r; try reflexivity. discriminate I.
  - destruct B; reflexivity.
  - destruct (fst (setup_finish _ c id clean)) as [[|]| | | | | | | | | | | |] eqn:E; try reflexivity.
    destruct (setup_finish_handover _ c id clean E) as [-> H]. exact H.
  - destruct (fst (setup_finish st _ _ _)) as [[|]| | | | | | | | | | | |] eqn:E; try reflexivity.
    rewrite P. destruct (setup_finish_handover _ _ _ _ E) as [-> H]. exact H.
  - destruct Pu as [subs b _ room| | |]; [destruct (Nat.leb _ room)| | |]; reflexivity.
  - destruct (pub_err st c m); reflexivity.
Qed.

Theorem handover_along cap ops : holds_along handover_ok cap ops.
Proof. apply holds_along_always. intros st o _ _. apply step_handover_ok. Qed.

Theorem step_resume_clean_ok st o : let (r, st') := step st o in resume_clean_ok st o r st' = true.
Proof.
  pose proof (step_handover_ok st o) as H. destruct (step st o) as [r st']. unfold handover_ok, resume_clean_ok in *.
  destruct r as [[|]| | | | | | | | | | | |]; try reflexivity.
  assert (X : forall id c, handed_over st st' id c = true ->
              match alookup bytes_eqb id (st_stored st') with Some s' => is_nil (s_tq s') | None => false end = true).
  { intros id c. unfold handed_over. destruct (alookup bytes_eqb id (st_stored st)); [|discriminate].
    destruct (alookup bytes_eqb id (st_stored st')); [|discriminate]. rewrite !andb_true_iff. intros [[[_ _] E] _]. exact E. }
  destruct o as [c id clean|t|c|c subs b|c fs|c m got|c t|c|]; try discriminate.
  - destruct clean; [discriminate|]. exact (X id c H).
  - destruct t; [discriminate|]. destruct (st_pending st) as [p|]; [|discriminate].
    apply andb_true_iff in H as [_ H]. exact (X _ _ H).
Qed.

Theorem resume_clean_along cap ops : holds_along resume_clean_ok cap ops.
Proof. apply holds_along_always. intros st o _ _. apply step_resume_clean_ok. Qed.
