(* WillE2EProofs.v — the will, end to end: proofs (definitions: Broker/WillE2E.v).

   Part 1 (model BC)  will_link_holds: every trace the connection model accepts satisfies will_link, by
                      the induction of ConnBase.v from the relations of c12_will (ConnProofsA_will.v:
                      will_R, will_step_lemma) and c20_closes (ConnProofsE3.v: cl_rel, cl_hstep); three
                      facts of the model are added: a Publish is accepted only while the cleanup has
                      not begun; the cleanup begins only when the transport is closed; after EClosed
                      only closures run.
   Part 2 (lists)     what will_link means for a trace: the books wl_obs keeps are the books of
                      c12_will; when the connection has ended the will has been published iff due; where
                      the will's Publish sits in the trace (will_handed_once).
   Part 3 (model MB)  the will's Publish as a step of a backend history: will_step_spec, from
                      publish_queue (delivery log), publish_refused / own_refused_own_full (D22),
                      classify_cases.
   Part 4             the composition: will_e2e_once, will_e2e_never (and their corollaries). *)
From Coq Require Import List NArith Bool Lia PeanoNat.
From Coq.Strings Require Import Byte.
From GM Require Import Base.Lts Codec.Packet Session.Ids Session.Store
  Broker.Conn Broker.ConnSpec Broker.ConnSpec6 Broker.ConnBase
  Broker.ConnProofsA_lib Broker.ConnProofsA_inv Broker.ConnProofsA_will
  Broker.EndToEnd Broker.EndToEndProofsLists Broker.EndToEndProofsConn Broker.EndToEndProofs Broker.WillE2E.
From GM Require Broker.ConnProofsE3.
From GM Require Broker.Backend Broker.BackendSpec Broker.BackendProofs Broker.BackendProofsPublish Broker.BackendProofsSteps
  Broker.BackendOwn Broker.BackendProofsHist Broker.BackendLog Broker.EndToEndProofsBackend.
Import ListNotations.
Open Scope N_scope.

(* ================================================================ Part 1: will_link holds of BC == *)

Definition we_R (s : bc) (x : we_st) : Prop :=
  will_R s (we_wl x) /\ ConnProofsE3.cl_rel s (we_cl x) /\ (we_end x = true -> lp s = LEnd).

(* after the connection has ended only closures run, and a new connection may begin *)
Lemma step_after_end s e s' : lp s = LEnd -> step s e = Some s' ->
  e = ENewConn \/ (clo_event e = true /\ lp s' = LEnd).
Proof.
  intros Hl H.
  assert (Ho : conn_open s = false) by (unfold conn_open; rewrite Hl; reflexivity).
  assert (Hclo : step_clo s e = Some s' -> e = ENewConn \/ (clo_event e = true /\ lp s' = LEnd)).
  { intros Hc. right. split; [eapply step_clo_event; exact Hc|].
    destruct (step_clo_shape _ _ _ Hc) as (se & cl & dy & q & ->). sf. exact Hl. }
  unfold step in H. rewrite Ho in H. cbn [negb] in H.
  destruct e; try (apply Hclo; exact H); try (left; reflexivity); try discriminate H.
  - (* EClosed *) unfold step_cleanup in H. rewrite Hl in H. discriminate H.
  - (* EQuiescent *) unfold guard, quiescent in H. rewrite Ho in H. discriminate H.
Qed.

(* EClosed ends the connection *)
Lemma step_closed_end s s' : step s EClosed = Some s' -> lp s' = LEnd.
Proof.
  cbn [step]. unfold step_cleanup, guard. destruct (lp s); try discriminate.
  - destruct (all_stopped s && negb (phase_geq_connected (ph s))); [|discriminate]. intros H. inv_some H. reflexivity.
  - intros H. inv_some H. reflexivity.
Qed.

(* a Publish is accepted only while the cleanup has not begun; one without closure by a goroutine that is not
   the processor is the cleanup's first step: the three coroutines have stopped *)
Lemma step_pub_facts s g m k s' :
  inv_frozen s -> step s (EPub g m k) = Some s' ->
  lp s = LNone /\ (k = None -> is_role (gproc s) g = false -> all_stopped s = true).
Proof.
  intros Hf H. (* one given event, not a relation kept by every step: no sweep *)
  destruct (step_cases _ _ _ H) as
      [He Hl Hs | He Ho Hs | He Hq Hs | Hc | He Hc | g0 s1 Ho Hg Hc Hin Hv Hp | g0 s1 Ho Hg Hc Hin R1 Hv Hp
      | g0 s1 Ho Hg Hc Hin R1 R2 Hv Hp | g0 s1 Ho Hg Hc Hin R1 R2 R3 Hv Hp | g0 He Ho Hc Hin Hfr Hs];
    try discriminate He.
  - apply step_clo_event in Hc. discriminate Hc.
  - (* processor *)
    cbn [ev_g] in Hg. injection Hg as <-.
    assert (Hpp : pp s1 = pp s) by (destruct Hv as [[-> _]|(_ & _ & -> & _)]; reflexivity).
    assert (Hl : lp s = LNone).
    { destruct (lp s) eqn:El; try reflexivity;
        (assert (Hn : lp s <> LNone) by (rewrite El; discriminate)); destruct (Hf Hn) as (Hx & _);
        unfold step_proc in Hp; rewrite Hpp, Hx in Hp; discriminate Hp. }
    split; [exact Hl|]. intros _ Hr. exfalso.
    destruct Hv as [[_ Hx]|(_ & _ & _ & Hrx)]; [|discriminate Hrx].
    rewrite Hx in Hr. cbn [is_role] in Hr. rewrite N.eqb_refl in Hr. discriminate Hr.
  - unfold step_deq in Hp. destruct (dp s1); discriminate Hp.
  - unfold step_ack in Hp. destruct (ap s1); discriminate Hp.
  - (* cleanup *)
    assert (Hl1 : lp s1 = lp s) by (destruct Hv as [[-> _]|(_ & _ & ->)]; reflexivity).
    assert (Ha1 : all_stopped s1 = all_stopped s) by (destruct Hv as [[-> _]|(_ & _ & ->)]; reflexivity).
    unfold step_cleanup in Hp. rewrite Hl1 in Hp. destruct (lp s) eqn:El; try discriminate Hp.
    split; [reflexivity|]. intros -> _.
    rewrite Ha1 in Hp. destruct (all_stopped s); [reflexivity|discriminate Hp].
Qed.

Lemma nmem_procs_of gp g : nmem g (procs_of gp) = is_role gp g.
Proof. destruct gp as [g'|]; cbn [procs_of nmem existsb is_role]; [rewrite orb_false_r|]; reflexivity. Qed.

Lemma clo_event_after_end e : clo_event e = true -> after_end_ok e = true.
Proof. destruct e; cbn; intros H; try discriminate H; reflexivity. Qed.

Lemma we_step_ok s x e s' :
  will_I s -> we_R s x -> step s e = Some s' -> exists x', we_step x e = Some x' /\ we_R s' x'.
Proof.
  intros HI (RW & RC & RE) H.
  destruct (will_step_lemma s (we_wl x) e s' HI RW H) as (t' & Et & RW').
  destruct (ConnProofsE3.cl_hstep s (we_cl x) e s' RC H) as (c' & Ec & RC').
  unfold we_step. rewrite Et, Ec.
  (* what the end flag demands of the event *)
  assert (Hend : we_end x = true -> e = ENewConn \/ (after_end_ok e = true /\ lp s' = LEnd)).
  { intros Hx. destruct (step_after_end s e s' (RE Hx) H) as [->|[Hc Hl]]; [left; reflexivity|right].
    split; [apply clo_event_after_end, Hc|exact Hl]. }
  assert (Hother : (e = ENewConn -> False) -> (negb (we_end x) || after_end_ok e = true) /\ (we_end x = true -> lp s' = LEnd)).
  { intros Hne. destruct (we_end x) eqn:Ex; cbn [negb orb]; [|split; [reflexivity|discriminate]].
    destruct (Hend eq_refl) as [->|[Ha Hl]]; [contradiction Hne; reflexivity|]. split; [exact Ha|intros _; exact Hl]. }
  destruct e;
    try (destruct Hother as [Hb Hl]; [discriminate|]; rewrite Hb; eexists; split; [reflexivity|];
         split; [exact RW'|split; [exact RC'|exact Hl]]; fail).
  - (* ENewConn *)
    eexists; split; [reflexivity|]. split; [exact RW'|split; [exact RC'|]]. cbn [we_end]. discriminate.
  - (* EPub *)
    destruct HI as [_ Hfr]. destruct (step_pub_facts s g m k s' Hfr H) as [Hl Hcl].
    assert (Hne : we_end x = false).
    { destruct (we_end x) eqn:Ex; [|reflexivity]. rewrite (RE eq_refl) in Hl. discriminate Hl. }
    assert (Hp0 : wl_pubs (we_wl x) = 0).
    { destruct RW as [_ WL]. rewrite Hl in WL. apply WL. }
    assert (Hk : match k with Some _ => true | None => nmem g (wl_procs (we_wl x)) || cl_closed (we_cl x) end = true).
    { destruct k as [k|]; [reflexivity|].
      assert (Hpr : wl_procs (we_wl x) = procs_of (gproc s)) by (apply RW).
      rewrite Hpr, nmem_procs_of. destruct (is_role (gproc s) g) eqn:Er; [reflexivity|]. cbn [orb].
      specialize (Hcl eq_refl eq_refl). apply ConnProofsE3.all_stopped_proc in Hcl.
      destruct (cl_closed (we_cl x)) eqn:Ec0; [reflexivity|]. exfalso.
      destruct RC as (R1 & _). destruct (R1 Ec0) as (Hd & Hpd & _).
      unfold proc_can_stop in Hcl. rewrite Hd in Hcl. destruct (pp s); try discriminate Hcl. apply Hpd; reflexivity. }
    rewrite Hne, Hp0, Hk. cbn [negb andb N.eqb]. eexists; split; [reflexivity|].
    split; [exact RW'|split; [exact RC'|]]. cbn [we_end]. intros Hx; discriminate Hx.
  - (* EClosed *)
    destruct (we_end x) eqn:Ex.
    + exfalso. destruct (Hend eq_refl) as [Hx|[Hx _]]; discriminate Hx.
    + eexists; split; [reflexivity|]. split; [exact RW'|split; [exact RC'|]]. intros _. eapply step_closed_end; exact H.
Qed.

Theorem will_link_holds : forall es s, bc_run es = Some s -> will_link es = true.
Proof.
  unfold will_link.
  apply (scan_sound_inv we_step will_I we_R will_I_init will_I_step we_step_ok).
  split; [|split].
  - exact will_R_init.
  - unfold ConnProofsE3.cl_rel; cbn. split; [intros H; discriminate H|]. split; [intros H; discriminate H|intros _ H; contradiction H; reflexivity].
  - intros _. reflexivity.
Qed.

(* ================================================================ Part 2: what will_link says about a trace == *)

Notation we_run := (Lts.run we_step).

Definition ended_f (b : bool) (e : event) : bool := match e with ENewConn => false | EClosed => true | _ => b end.
Definition closing_f (b : bool) (e : event) : bool := match e with ENewConn => false | EConnClose _ => true | _ => b end.

(* the books wl_obs keeps are those of c12_will wherever the clause holds *)
Lemma wl_step_obs t e t' : wl_step t e = Some t' -> wl_obs t e = t'.
Proof.
  intros H. destruct e; cbn [wl_obs]; try (rewrite H; reflexivity).
  - (* EPub *) destruct k; [rewrite H; reflexivity|]. cbn [wl_step] in H.
    destruct (nmem g (wl_procs t)); [inv_some H; reflexivity|].
    destruct (wl_will t) as [w|]; [|discriminate H].
    destruct (message_eqb w m && wl_setup t && negb (wl_disc t) && (wl_pubs t =? 0) && (wl_terms t =? 0)) eqn:C; [|discriminate H].
    inv_some H. apply andb_true_iff in C as [C _]. apply andb_true_iff in C as [_ C]. apply N.eqb_eq in C. rewrite C. reflexivity.
  - (* ETerm *) cbn [wl_step] in H. destruct (wl_auth t && (wl_terms t =? 0)) eqn:C; [|discriminate H].
    inv_some H. apply andb_true_iff in C as [_ C]. apply N.eqb_eq in C. rewrite C. reflexivity.
  - (* EClosed *) cbn [wl_step] in H. cbv zeta in H.
    match type of H with (if ?c then _ else _) = _ => destruct c end; [inv_some H; reflexivity|discriminate H].
Qed.

Lemma cl_step_closing c e c' : cl_step c e = Some c' -> cl_closed c' = closing_f (cl_closed c) e.
Proof.
  intros H. destruct e; cbn [cl_step closing_f] in *; try (inv_some H; reflexivity).
  - repeat match type of H with context [match ?v with _ => _ end] => destruct v end; inv_some H; reflexivity.
  - destruct r; inv_some H; reflexivity.
  - match type of H with (if ?c then _ else _) = _ => destruct c end; [inv_some H; reflexivity|discriminate H].
Qed.

(* one step of will_link, taken apart *)
Lemma we_step_inv x e x' : we_step x e = Some x' ->
  wl_step (we_wl x) e = Some (we_wl x') /\ cl_step (we_cl x) e = Some (we_cl x') /\
  we_end x' = ended_f (we_end x) e /\
  (forall g m k, e = EPub g m k ->
     we_end x = false /\ wl_pubs (we_wl x) = 0 /\
     (k = None -> nmem g (wl_procs (we_wl x)) = false -> cl_closed (we_cl x) = true)) /\
  (we_end x = true -> e = ENewConn \/ after_end_ok e = true).
Proof.
  unfold we_step. intros H.
  destruct (wl_step (we_wl x) e) as [t|] eqn:Et; [|discriminate H].
  destruct (cl_step (we_cl x) e) as [c|] eqn:Ec; [|discriminate H].
  assert (Hgen : forall b, (if negb (we_end x) || after_end_ok e then Some (WeSt t c b) else None) = Some x' ->
            x' = WeSt t c b /\ (we_end x = true -> after_end_ok e = true)).
  { intros b Hb. destruct (negb (we_end x) || after_end_ok e) eqn:C; [|discriminate Hb]. inv_some Hb.
    split; [reflexivity|]. intros Hx. rewrite Hx in C. exact C. }
  destruct e;
    try (destruct (Hgen _ H) as [-> Ha]; cbn [we_wl we_cl we_end ended_f];
         repeat split; try reflexivity; try (intros; discriminate); intros Hx; right; apply Ha, Hx; fail).
  - inv_some H. cbn [we_wl we_cl we_end ended_f]. repeat split; try reflexivity; try (intros; discriminate). intros _; left; reflexivity.
  - (* EPub *)
    destruct (negb (we_end x) && (wl_pubs (we_wl x) =? 0) &&
              match k with Some _ => true | None => nmem g (wl_procs (we_wl x)) || cl_closed (we_cl x) end) eqn:C; [|discriminate H].
    inv_some H. cbn [we_wl we_cl we_end ended_f].
    apply andb_true_iff in C as [C C3]. apply andb_true_iff in C as [C1 C2].
    apply negb_true_iff in C1. apply N.eqb_eq in C2.
    split; [reflexivity|split; [reflexivity|split; [reflexivity|split]]].
    + intros ga ma ka E. injection E as <- <- <-. split; [exact C1|split; [exact C2|]].
      intros -> Hn. rewrite Hn in C3. exact C3.
    + intros Hx. rewrite Hx in C1. discriminate C1.
  - (* EClosed *)
    destruct (we_end x) eqn:Ex; [discriminate H|]. inv_some H. cbn [we_wl we_cl we_end ended_f].
    repeat split; try reflexivity; try (intros; discriminate).
Qed.

Lemma we_run_obs : forall es x x', we_run x es = Some x' ->
  we_wl x' = fold_left wl_obs es (we_wl x) /\
  we_end x' = fold_left ended_f es (we_end x) /\
  cl_closed (we_cl x') = fold_left closing_f es (cl_closed (we_cl x)).
Proof.
  induction es as [|e es IH]; intros x x' H; cbn [Lts.run fold_left] in *; [inv_some H; auto|].
  destruct (we_step x e) as [x1|] eqn:E; [|discriminate H].
  destruct (we_step_inv _ _ _ E) as (E1 & E2 & E3 & _).
  rewrite (wl_step_obs _ _ _ E1), <- E3, <- (cl_step_closing _ _ _ E2). apply IH, H.
Qed.

(* ---- the books of c12_will, event by event *)

Definition wl_same (t t' : wl_st) : Prop :=
  wl_will t' = wl_will t /\ wl_setup t' = wl_setup t /\ wl_auth t' = wl_auth t /\ wl_pubs t' = wl_pubs t.

Lemma wl_step_cases t e t' : wl_step t e = Some t' ->
  (e = ENewConn /\ t' = wl_new) \/
  (e <> ENewConn /\ wl_pubs t' = wl_pubs t /\ (forall g m, e = EPub g m None -> nmem g (wl_procs t) = true) /\
   (wl_procs t <> [] -> wl_procs t' <> []) /\ (wl_will t' = wl_will t \/ wl_procs t = [] /\ wl_procs t' <> [])) \/
  (exists g m w, e = EPub g m None /\ nmem g (wl_procs t) = false /\ wl_will t = Some w /\ message_eqb w m = true /\
     wl_pubs t = 0 /\ wl_pubs t' = 1 /\ wl_will t' = wl_will t /\ wl_procs t' = wl_procs t).
Proof.
  intros H.
  assert (Hsame : t' = t -> e <> ENewConn -> (forall g m, e = EPub g m None -> nmem g (wl_procs t) = true) ->
            e <> ENewConn /\ wl_pubs t' = wl_pubs t /\ (forall g m, e = EPub g m None -> nmem g (wl_procs t) = true) /\
            (wl_procs t <> [] -> wl_procs t' <> []) /\ (wl_will t' = wl_will t \/ wl_procs t = [] /\ wl_procs t' <> [])).
  { intros -> Hne Hp. repeat split; auto. }
  destruct e; cbn [wl_step] in H;
    try (inv_some H; right; left; apply Hsame; [reflexivity|discriminate|intros; discriminate]; fail).
  - left. inv_some H. auto.
  - (* ERx: the goroutine is entered; the first CONNECT announces the will *)
    right; left. split; [discriminate|].
    assert (Hne : (if nmem g (wl_procs t) then wl_procs t else g :: wl_procs t) <> []).
    { destruct (wl_procs t) eqn:E; [cbn; discriminate|]. destruct (nmem g (n :: l)); discriminate. }
    destruct p; try (inv_some H; cbn [wl_pubs wl_will wl_procs]; repeat split; auto; intros; discriminate).
    destruct (wl_procs t) eqn:E; inv_some H; cbn [wl_pubs wl_will wl_procs]; repeat split; auto; try (intros; discriminate).
  - (* ERxErr *)
    right; left. inv_some H. cbn [wl_pubs wl_will wl_procs]. split; [discriminate|]. repeat split; auto; try (intros; discriminate).
    intros Hp. destruct (nmem g (wl_procs t)); [exact Hp|discriminate].
  - right; left. destruct r; inv_some H; (split; [discriminate|]); repeat split; auto; intros; discriminate.
  - right; left. destruct r; inv_some H; (split; [discriminate|]); repeat split; auto; intros; discriminate.
  - (* EPub *)
    destruct k as [k|]; [inv_some H; right; left; apply Hsame; [reflexivity|discriminate|intros; discriminate]|].
    destruct (nmem g (wl_procs t)) eqn:Eg.
    + inv_some H. right; left. apply Hsame; [reflexivity|discriminate|]. intros g0 m0 E. injection E as <- _. exact Eg.
    + destruct (wl_will t) as [w|] eqn:Ew; [|discriminate H].
      destruct (message_eqb w m && wl_setup t && negb (wl_disc t) && (wl_pubs t =? 0) && (wl_terms t =? 0)) eqn:C; [|discriminate H].
      inv_some H. right; right. exists g, m, w.
      apply andb_true_iff in C as [C _]. apply andb_true_iff in C as [C C4]. apply andb_true_iff in C as [C _].
      apply andb_true_iff in C as [C1 _]. apply N.eqb_eq in C4.
      repeat split; auto.
  - (* ETerm *) right; left. split; [discriminate|].
    destruct (wl_auth t && (wl_terms t =? 0)); [inv_some H|discriminate H]. repeat split; auto; intros; discriminate.
  - (* EClosed *) right; left. cbv zeta in H.
    match type of H with (if ?c then _ else _) = _ => destruct c end; [inv_some H|discriminate H].
    apply Hsame; [reflexivity|discriminate|intros; discriminate].
Qed.

Lemma after_end_neutral t e : after_end_ok e = true -> wl_step t e = Some t.
Proof. destruct e; cbn; intros H; try discriminate H; reflexivity. Qed.

(* ---- an invariant of will_link's state *)

Definition we_inv (x : we_st) : Prop :=
  (we_end x = true -> Bool.eqb (wl_due (we_wl x)) (wl_pubs (we_wl x) =? 1) = true) /\
  (wl_pubs (we_wl x) = 0 \/ wl_pubs (we_wl x) = 1) /\
  (wl_will (we_wl x) <> None -> wl_procs (we_wl x) <> []).

Lemma we_inv_new : we_inv we_new.
Proof. split; [intros H; discriminate H|split; [left; reflexivity|intros H; contradiction H; reflexivity]]. Qed.

Lemma we_inv_step x e x' : we_inv x -> we_step x e = Some x' -> we_inv x'.
Proof.
  intros (I1 & I2 & I3) H. destruct (we_step_inv _ _ _ H) as (E1 & _ & E3 & _ & E5).
  split; [|split].
  - rewrite E3. intros Hx.
    destruct e; cbn [ended_f] in Hx; try discriminate Hx;
      try (destruct (E5 Hx) as [Hc|Hc]; [discriminate Hc|];
           rewrite (after_end_neutral _ _ Hc) in E1; injection E1 as <-; apply I1, Hx; fail);
      try (destruct (E5 Hx) as [Hc|Hc]; discriminate Hc).
    (* EClosed *)
    clear Hx. cbn [wl_step] in E1. cbv zeta in E1. unfold wl_due.
    match type of E1 with (if ?c then _ else _) = _ => destruct c eqn:C end; [|discriminate E1].
    injection E1 as <-. apply andb_true_iff in C as [C _]. exact C.
  - destruct (wl_step_cases _ _ _ E1) as [[_ ->]|[(_ & -> & _)|(g & m & w & _ & _ & _ & _ & _ & -> & _)]];
      [left; reflexivity|exact I2|right; reflexivity].
  - destruct (wl_step_cases _ _ _ E1) as [[_ ->]|[(_ & _ & _ & Hp & Hw)|(g & m & w & _ & _ & _ & _ & _ & _ & -> & ->)]];
      [intros Hx; contradiction Hx; reflexivity| |exact I3].
    intros Hn. destruct Hw as [Hw|[_ Hw]]; [rewrite Hw in Hn; exact (Hp (I3 Hn))|exact Hw].
Qed.

Lemma we_run_after_will : forall es x x', we_run x es = Some x' -> wl_pubs (we_wl x) = 1 -> ~ In ENewConn es ->
  wl_pubs (we_wl x') = 1.
Proof.
  induction es as [|e es IH]; intros x x' H Hp Hn; cbn [Lts.run] in H; [inv_some H; exact Hp|].
  destruct (we_step x e) as [x1|] eqn:E; [|discriminate H].
  destruct (we_step_inv _ _ _ E) as (E1 & _).
  assert (Hne : e <> ENewConn) by (intros ->; apply Hn; left; reflexivity).
  assert (Hn' : ~ In ENewConn es) by (intros Hx; apply Hn; right; exact Hx).
  apply (IH x1 x' H); [|exact Hn'].
  destruct (wl_step_cases _ _ _ E1) as [[Hx _]|[(_ & -> & _)|(g & m & w & _ & _ & _ & _ & Hx & _)]];
    [contradiction|exact Hp|rewrite Hx in Hp; discriminate Hp].
Qed.

Lemma we_run_will_fixed : forall es x x', we_run x es = Some x' -> ~ In ENewConn es -> wl_procs (we_wl x) <> [] ->
  wl_will (we_wl x') = wl_will (we_wl x).
Proof.
  induction es as [|e es IH]; intros x x' H Hn Hp; cbn [Lts.run] in H; [inv_some H; reflexivity|].
  destruct (we_step x e) as [x1|] eqn:E; [|discriminate H].
  destruct (we_step_inv _ _ _ E) as (E1 & _).
  assert (Hne : e <> ENewConn) by (intros ->; apply Hn; left; reflexivity).
  assert (Hn' : ~ In ENewConn es) by (intros Hx; apply Hn; right; exact Hx).
  destruct (wl_step_cases _ _ _ E1) as [[Hx _]|[(_ & _ & _ & Hp1 & Hw)|(g & m & w & _ & _ & _ & _ & _ & _ & Hw & Hp1)]]; [contradiction| |].
  - destruct Hw as [Hw|[Hx _]]; [|contradiction]. rewrite <- Hw. apply (IH x1 x' H Hn' (Hp1 Hp)).
  - rewrite <- Hw. apply (IH x1 x' H Hn'). rewrite Hp1. exact Hp.
Qed.

(* ---- where the will's Publish sits *)
Lemma will_position : forall es x x', we_run x es = Some x' -> wl_pubs (we_wl x') = 1 ->
  (wl_pubs (we_wl x) = 1 /\ published es = [] /\ ~ In ENewConn es) \/
  (exists es1 g m es2 x1 w,
     es = es1 ++ EPub g m None :: es2 /\ we_run x es1 = Some x1 /\
     wl_pubs (we_wl x1) = 0 /\ nmem g (wl_procs (we_wl x1)) = false /\
     wl_will (we_wl x1) = Some w /\ message_eqb w m = true /\ cl_closed (we_cl x1) = true /\
     published es2 = [] /\ ~ In ENewConn es2).
Proof.
  induction es as [|e es IH]; intros x x' H Hp; cbn [Lts.run] in H.
  - inv_some H. left. split; [exact Hp|split; [reflexivity|intros []]].
  - destruct (we_step x e) as [x1|] eqn:E; [|discriminate H].
    destruct (IH x1 x' H Hp) as [(Hp1 & Hpub & Hn)|(es1 & g & m & es2 & x2 & w & -> & Hr & A)].
    + destruct (we_step_inv _ _ _ E) as (E1 & _ & _ & E4 & _).
      destruct (wl_step_cases _ _ _ E1) as [[_ Hx]|[(Hne & Hx & _)|(g & m & w & -> & Hg & Hw & Hm & Hp0 & _)]].
      * rewrite Hx in Hp1. discriminate Hp1.
      * left. rewrite Hx in Hp1. split; [exact Hp1|]. split.
        -- destruct e; try exact Hpub. destruct (E4 _ _ _ eq_refl) as (_ & Hy & _). rewrite Hy in Hp1. discriminate Hp1.
        -- intros [Hy|Hy]; [apply Hne; exact Hy|apply Hn, Hy].
      * right. exists [], g, m, es, x, w. destruct (E4 _ _ _ eq_refl) as (_ & _ & Hc).
        repeat split; auto.
    + right. exists (e :: es1), g, m, es2, x2, w. split; [reflexivity|]. split; [cbn [Lts.run]; rewrite E; exact Hr|exact A].
Qed.

(* an accepted trace begins with a connection *)
Lemma step_clo_nil s e : clos s = [] -> step_clo s e = None.
Proof.
  intros Hc. unfold step_clo. destruct e; try reflexivity; rewrite Hc; cbn [clo_find clo_del_find clo_stat_find]; try reflexivity.
  - destruct d; reflexivity.
  - destruct k; reflexivity.
Qed.

Lemma bc_run_head e es s : bc_run (e :: es) = Some s -> e = ENewConn.
Proof.
  unfold bc_run. cbn [Lts.run]. destruct (step bc_init e) as [s1|] eqn:E; [intros _|discriminate].
  assert (Hc : step_clo bc_init e = None) by (apply step_clo_nil; reflexivity).
  unfold step in E. change (conn_open bc_init) with false in E. cbn [negb] in E.
  destruct e; try reflexivity; try (rewrite Hc in E; discriminate E); try discriminate E.
Qed.

Lemma will_link_run es : will_link es = true ->
  exists x, we_run we_new es = Some x /\ we_inv x /\ we_wl x = obs es /\ we_end x = ended es.
Proof.
  intros H. destruct (proj1 (scan_run we_step es we_new) H) as (x & Hr). exists x.
  destruct (we_run_obs es we_new x Hr) as (O1 & O2 & _).
  split; [exact Hr|split; [exact (Lts.invariant_all_traces _ _ we_step we_inv we_new we_inv_new we_inv_step es x Hr)|split; [exact O1|exact O2]]].
Qed.

Lemma published_app es1 es2 : published (es1 ++ es2) = published es1 ++ published es2.
Proof. unfold published. apply flat_map_app. Qed.

(* (a): the connection hands a due will to the backend exactly once, when its transport has been closed, and
   nothing afterwards — from the clause will_link alone *)
Theorem will_once_conn es m :
  will_link es = true -> hd_error es = Some ENewConn -> will_due es = Some m ->
  exists es1 g es2, will_handed_once es m es1 g es2.
Proof.
  intros HL Hhd Hdue.
  destruct (will_link_run es HL) as (x & Hr & (I1 & I2 & I3) & Ow & Oe).
  unfold will_due, connect_accepted, ended_uncleanly, disconnected, will_of in Hdue. rewrite <- Ow, <- Oe in Hdue.
  destruct (wl_setup (we_wl x)) eqn:Es; [|discriminate Hdue].
  destruct (we_end x) eqn:Ee; [|discriminate Hdue].
  destruct (wl_disc (we_wl x)) eqn:Ed; [discriminate Hdue|]. cbn [andb negb] in Hdue.
  assert (Hp : wl_pubs (we_wl x) = 1).
  { specialize (I1 eq_refl). unfold wl_due in I1. rewrite Es, Ed, Hdue in I1. cbn [andb negb] in I1.
    destruct (wl_pubs (we_wl x) =? 1) eqn:C; [apply N.eqb_eq, C|discriminate I1]. }
  destruct (will_position es we_new x Hr Hp) as [(Hx & _)|(es1 & g & m' & es2 & x1 & w & -> & Hr1 & P0 & Pg & Pw & Pm & Pc & Pp & Pn)];
    [discriminate Hx|].
  apply message_eqb_eq in Pm. subst m'.
  destruct (Lts.run_prefix _ _ we_step _ _ _ _ Hr) as (x1' & Hr1' & Hr2). rewrite Hr1 in Hr1'. injection Hr1' as <-.
  destruct (we_run_obs es1 we_new x1 Hr1) as (O1 & _ & O3).
  (* the will of the books does not change after the Publish *)
  assert (Hprocs : wl_procs (we_wl x1) <> []).
  { destruct (Lts.invariant_all_traces _ _ we_step we_inv we_new we_inv_new we_inv_step es1 x1 Hr1) as (_ & _ & J3). apply J3. rewrite Pw. discriminate. }
  assert (Hwill : wl_will (we_wl x) = wl_will (we_wl x1)).
  { apply (we_run_will_fixed (EPub g w None :: es2) x1 x Hr2); [|exact Hprocs].
    intros [Hx|Hx]; [discriminate Hx|exact (Pn Hx)]. }
  rewrite Hwill, Pw in Hdue. injection Hdue as ->.
  exists es1, g, es2. unfold will_handed_once, will_pubs, by_cleanup.
  change (obs es1) with (fold_left wl_obs es1 (we_wl we_new)). rewrite <- O1, <- Ow, P0, Pg, Hp.
  repeat split; auto.
  (* the transport was closed on this connection: the leading ENewConn resets both flags *)
  destruct es1 as [|e0 es1]; [discriminate Hhd|]. cbn [hd_error app] in Hhd. injection Hhd as ->.
  rewrite <- Pc, O3. reflexivity.
Qed.

(* ... and when no will is due — no will announced, the CONNECT not accepted, or a DISCONNECT received — the
   connection that has ended has handed none: every Publish without closure on it was a processor's *)
Theorem will_never_conn es :
  will_link es = true -> ended es = true -> will_due es = None ->
  will_pubs es = 0 /\
  forall es1 g m' es2, es = es1 ++ EPub g m' None :: es2 -> ~ In ENewConn es2 -> by_cleanup es1 g = false.
Proof.
  intros HL He Hdue.
  destruct (will_link_run es HL) as (x & Hr & (I1 & I2 & I3) & Ow & Oe).
  assert (Hp : wl_pubs (we_wl x) = 0).
  { rewrite <- Oe in He. specialize (I1 He).
    unfold will_due, connect_accepted, ended_uncleanly, disconnected, will_of in Hdue. rewrite <- Ow, <- Oe, He in Hdue.
    assert (Hd : wl_due (we_wl x) = false).
    { unfold wl_due. destruct (wl_setup (we_wl x)); [|reflexivity]. destruct (wl_disc (we_wl x)); [reflexivity|].
      cbn [andb negb] in Hdue. rewrite Hdue. reflexivity. }
    rewrite Hd in I1. destruct I2 as [I2|I2]; [exact I2|]. rewrite I2 in I1. discriminate I1. }
  split; [unfold will_pubs; rewrite <- Ow; exact Hp|].
  intros es1 g m' es2 -> Hn.
  destruct (Lts.run_prefix _ _ we_step _ _ _ _ Hr) as (x1 & Hr1 & Hr2).
  destruct (we_run_obs es1 we_new x1 Hr1) as (O1 & _).
  cbn [Lts.run] in Hr2. destruct (we_step x1 (EPub g m' None)) as [x2|] eqn:E; [|discriminate Hr2].
  destruct (we_step_inv _ _ _ E) as (E1 & _).
  unfold by_cleanup. change (obs es1) with (fold_left wl_obs es1 (we_wl we_new)). rewrite <- O1.
  destruct (wl_step_cases _ _ _ E1) as [[Hx _]|[(_ & _ & Hg & _)|(g0 & m0 & w & _ & _ & _ & _ & _ & Hp2 & _)]].
  - discriminate Hx.
  - rewrite (Hg g m' eq_refl). reflexivity.
  - rewrite (we_run_after_will es2 x2 x Hr2 Hp2 Hn) in Hp. discriminate Hp.
Qed.

(* ================================================================ Part 3: the will's Publish in the backend == *)

Module MB.
Import Broker.Backend Broker.BackendSpec Broker.BackendProofs Broker.BackendProofsPublish Broker.BackendProofsSteps
  Broker.BackendOwn Broker.BackendProofsHist Broker.BackendLog.

Lemma trace_in_ops ops st s o r s' : In (s, o, r, s') (trace st ops) -> In o ops.
Proof.
  intros H. apply in_split in H as (l1 & l2 & E).
  destruct (trace_split ops st l1 _ l2 E) as (ops1 & o' & ops2 & -> & _ & Ex & _).
  injection Ex as _ -> _ _. apply in_elt.
Qed.

Lemma enq_event_publish k temp st c m got r s :
  get_session st k = Some s ->
  enq_event k temp st (OPublish c m got) r =
  if is_ok r && Bool.eqb (use_temp m) temp && has_match (s_subs s) (m_topic m) &&
     negb (is_full (st_cap st) (queue temp s))
  then [live m] else [].
Proof.
  intros G. unfold enq_event, live. rewrite G.
  destruct (Bool.eqb (use_temp m) temp), (has_match (s_subs s) (m_topic m)), (is_full (st_cap st) (queue temp s));
    destruct r; reflexivity.
Qed.

(* at most one copy, on one of the two queues *)
Lemma will_copies_publish_le1 k st c m got r st1 :
  (length (will_copies k (st, OPublish c m got, r, st1)) <= 1)%nat.
Proof.
  unfold will_copies. destruct (get_session st k) as [s|] eqn:G.
  - rewrite !(enq_event_publish k _ st c m got r s G).
    destruct (is_ok r), (use_temp m), (has_match (s_subs s) (m_topic m)),
      (is_full (st_cap st) (queue true s)), (is_full (st_cap st) (queue false s)); cbn; lia.
  - unfold enq_event. rewrite G. cbn. lia.
Qed.

Theorem will_step_holds cap ops st c m got r st1 :
  names_ok ops = true ->
  In (st, OPublish c m got, r, st1) (history cap ops) -> returned r = true ->
  will_step_spec m (st, OPublish c m got, r, st1).
Proof.
  intros Hnames Hin Hret. unfold history in Hin.
  destruct (trace_step_facts _ _ _ _ _ _ Hin) as (W & Ow & E). cbn [step] in E.
  pose proof (own_ownok st Ow) as O.
  assert (Hn : name_ok (m_topic m) = true).
  { pose proof (trace_in_ops _ _ _ _ _ _ Hin) as Ho. unfold names_ok in Hnames. rewrite forallb_forall in Hnames.
    exact (Hnames _ Ho). }
  pose proof E as E0. rewrite publish_unfold in E.
  exists st, c, got, r, st1. split; [reflexivity|].
  destruct (pub_stuck st c m) eqn:Hs.
  - (* refused by the pre-check (a waiting call has not returned) *)
    destruct (own_refused st c m) eqn:R; injection E as <- <-; [|discriminate Hret].
    split; [right; reflexivity|].
    split; [split; [intros _; rewrite <- (own_refused_own_full st c m Hn); exact R|reflexivity]|].
    split; [intros D; unfold own_refused in R; rewrite D in R; discriminate R|].
    split; [reflexivity|].
    split; [intros t; reflexivity|].
    intros k s G. exists s. split; [exact G|split; [reflexivity|]].
    split; [|split].
    + intros temp. rewrite (enq_event_publish k temp st c m got RQueueFull s G). cbn [is_ok andb]. rewrite app_nil_r. reflexivity.
    + intros temp. apply enq_event_publish, G.
    + intros Hx; discriminate Hx.
  - (* accepted *)
    unfold pub_stuck in Hs. apply orb_false_iff in Hs as [R Hb].
    pose proof (no_midway st c m W O R) as Herr. rewrite Herr in *. cbn [negb andb] in Hb.
    injection E as <- Est.
    split; [left; reflexivity|].
    split; [split; [intros Hx; discriminate Hx|intros Hx; rewrite <- (own_refused_own_full st c m Hn), R in Hx; discriminate Hx]|].
    split; [reflexivity|].
    split; [intros Hx; discriminate Hx|].
    split; [intros t; rewrite <- Est; cbn [st_retained is_ok]; apply alookup_retain_update|].
    intros k s G.
    assert (Hnb : pub_stuck st c m = false) by (unfold pub_stuck; rewrite R, Herr, Hb; reflexivity).
    pose proof (get_session_published st c m got k Hnb) as Gp. cbv zeta in Gp. rewrite E0, G in Gp. cbn [snd option_map] in Gp.
    eexists. split; [exact Gp|]. split; [apply deliver_subs|]. split; [|split].
    + intros temp. pose proof (publish_queue st c m got temp k s W O Hn G) as Q. rewrite E0 in Q.
      destruct Q as (s' & G' & Q). rewrite Gp in G'. injection G' as <-. exact Q.
    + intros temp. apply enq_event_publish, G.
    + intros _ Hm Hf. pose proof (get_sessions st k s G) as Hi.
      pose proof (pub_err_false_session st c m k s Herr Hi) as He.
      pose proof (pub_blk_false_session st c m k s Hb Hi) as Hbl.
      rewrite (classify_cases st c m s Hn) in He, Hbl. rewrite queue_of_queue, Hm, Hf in He, Hbl.
      destruct (s_act s) as [c'|]; [right; exists c'; split; [reflexivity|]|left; reflexivity].
      destruct (c' =? c) eqn:Ec.
      * apply N.eqb_eq in Ec. subst c'. destruct (mem_n c (st_dying st)); [reflexivity|discriminate He].
      * destruct (mem_n c' (st_dying st)); [reflexivity|discriminate Hbl].
Qed.

End MB.

(* ================================================================ Part 4: the composition == *)

(* ---- lists: sequences that list at most one item per element *)
Section OMap.
  Context {A B : Type}.
  Variable f : A -> option B.
  Definition omap (l : list A) : list B := flat_map (fun a => match f a with Some b => [b] | None => [] end) l.

  Lemma omap_split : forall l P1 b P2, omap l = P1 ++ b :: P2 ->
    exists l1 a l2, l = l1 ++ a :: l2 /\ f a = Some b /\ omap l1 = P1 /\ omap l2 = P2.
  Proof.
    induction l as [|a0 l IH]; intros P1 b P2 H; [destruct P1; discriminate H|].
    unfold omap in H. cbn [flat_map] in H. fold (omap l) in H. destruct (f a0) as [b0|] eqn:Ef.
    - destruct P1 as [|p P1]; cbn [app] in H.
      + injection H as -> H. exists [], a0, l. repeat split; auto.
      + injection H as -> H. destruct (IH P1 b P2 H) as (l1 & a & l2 & -> & Ha & H1 & H2).
        exists (a0 :: l1), a, l2. repeat split; auto. unfold omap. cbn [flat_map]. rewrite Ef. fold (omap l1). rewrite H1. reflexivity.
    - cbn [app] in H. destruct (IH P1 b P2 H) as (l1 & a & l2 & -> & Ha & H1 & H2).
      exists (a0 :: l1), a, l2. repeat split; auto. unfold omap. cbn [flat_map]. rewrite Ef. fold (omap l1). exact H1.
  Qed.
End OMap.

Definition ev_pub (e : event) : option message := match e with EPub _ m _ => Some m | _ => None end.

Lemma published_omap es : published es = omap ev_pub es.
Proof. unfold published, omap. apply flat_map_ext. intros e. destruct e; reflexivity. Qed.

Lemma pub_calls_omap cPs (tr : list bstep) : pub_calls cPs tr = omap (pub_call_of cPs) tr.
Proof.
  unfold pub_calls, omap. apply flat_map_ext. intros [[[st o] r] st1]. destruct o; try reflexivity.
  cbn [pub_call_of]. destruct (Backend.mem_n c cPs && returned r); reflexivity.
Qed.

Lemma pub_call_of_inv cPs (x : bstep) m : pub_call_of cPs x = Some m ->
  exists st c got r st1, x = (st, Backend.OPublish c m got, r, st1) /\ Backend.mem_n c cPs = true /\ returned r = true.
Proof.
  destruct x as [[[st o] r] st1]. destruct o; try discriminate. cbn [pub_call_of].
  destruct (Backend.mem_n c cPs && returned r) eqn:C; [|discriminate]. intros H. injection H as ->.
  apply andb_true_iff in C as [C1 C2]. exists st, c, got, r, st1. auto.
Qed.

Lemma prefix_snoc {A} (xs ys : list A) y : prefix_of xs (ys ++ [y]) -> xs = ys ++ [y] \/ prefix_of xs ys.
Proof.
  intros [rest H]. induction rest as [|z rest' _] using rev_ind.
  - left. rewrite app_nil_r in H. symmetry. exact H.
  - right. rewrite app_assoc in H. apply app_inj_tail in H as [H _]. exists rest'. exact H.
Qed.

Lemma count_key_le_length t p l : (count_key t p l <= length l)%nat.
Proof. unfold count_key. induction l as [|x l IH]; cbn [filter length]; [lia|]. destruct (_ && _); cbn [length]; lia. Qed.

Lemma enqueued_app k temp (tr1 tr2 : list bstep) : enqueued k temp (tr1 ++ tr2) = enqueued k temp tr1 ++ enqueued k temp tr2.
Proof. unfold enqueued. apply flat_map_app. Qed.

Lemma omap_app {A B} (f : A -> option B) l1 l2 : omap f (l1 ++ l2) = omap f l1 ++ omap f l2.
Proof. unfold omap. apply flat_map_app. Qed.

Lemma ev_pub_inv e m : ev_pub e = Some m -> exists g k, e = EPub g m k.
Proof. destruct e; try discriminate. cbn [ev_pub]. intros H. injection H as ->. eauto. Qed.

(* C12 end to end: a will that is due.

   esW is the trace of a session lifetime accepted by BC whose last connection has ended with a will m due
   (CONNECT with will accepted, EClosed, no DISCONNECT received); ops any backend history with legal topic
   names; cPs the backend's numbers of the connections of esW; esS a connection trace accepted by BC whose
   Dequeue calls are those on session k of the history.  Then, for some position es1 ++ [EPub g m None] ++ es2
   of esW:
   (a) the connection hands m to the backend exactly once: that event is the only Publish of the connection's
       cleanup (will_pubs: 0 before, 1 at the end), with exactly the message m, made when the connection's
       transport had been closed, and nothing is handed to the backend afterwards (published es2 = [], same
       connection): the will follows the connection's last ordinary Publish;
   (b) if the call has returned in the history, it is the LAST returned Publish x of the clients cPs there
       (pub_calls cPs tr1 = the connection's ordinary Publishes, pub_calls cPs tr2 = []), by a client in cPs with
       message m, and the backend treats it as will_step_spec says: never refused if the backend sees the
       publisher closing; one copy per session iff that session holds a matching filter then (and has room);
       retained store updated iff retain; the own-full-queue exception;
       if it has not returned, every returned Publish of cPs in the history is an ordinary one;
   (c) the subscriber's connection forwards a message with the will's topic and payload as a fresh PUBLISH at
       most as often as x enqueued it for session k (at most once) plus as often as the rest of the history
       enqueued that content for k (elsewhere: other Publishes of the same content, retained replays); and every
       fresh PUBLISH it sends is a message it dequeued, intact and QoS-capped from one enqueued for k. *)
Theorem will_e2e_once : forall cap ops cPs k esW esS sW sS m,
  bc_run esW = Some sW -> bc_run esS = Some sS ->
  BackendLog.names_ok ops = true ->
  glue_publish cPs esW (history cap ops) ->
  glue_dequeue k esS (history cap ops) ->
  will_due esW = Some m ->
  exists es1 g es2,
    will_handed_once esW m es1 g es2 /\
    (will_returned cPs esW (history cap ops) ->
       exists tr1 x tr2,
         history cap ops = tr1 ++ x :: tr2 /\
         pub_call_of cPs x = Some m /\ pub_calls cPs tr1 = published es1 /\ pub_calls cPs tr2 = [] /\
         will_step_spec m x /\
         (length (will_copies k x) <= 1)%nat /\
         (count_key (m_topic m) (m_payload m) (forwarded esS) <=
            length (will_copies k x) + elsewhere k (m_topic m) (m_payload m) tr1 tr2)%nat) /\
    (~ will_returned cPs esW (history cap ops) ->
       prefix_of (pub_calls cPs (history cap ops)) (published es1)) /\
    (forall y, In y (forwarded esS) ->
       In y (dequeued esS) /\ exists temp z, In z (enqueued k temp (history cap ops)) /\ capped y z).
Proof.
  intros cap ops cPs k esW esS sW sS m HW HS Hnames Gp Gd Hdue.
  pose proof (will_link_holds esW sW HW) as HL.
  assert (Hhd : hd_error esW = Some ENewConn).
  { destruct esW as [|e0 esW']; [discriminate Hdue|]. rewrite (bc_run_head e0 esW' sW HW). reflexivity. }
  destruct (will_once_conn esW m HL Hhd Hdue) as (es1 & g & es2 & Hh).
  exists es1, g, es2. split; [exact Hh|].
  destruct Hh as (Ees & _ & _ & _ & _ & Hp2 & _).
  assert (Hpub : published esW = published es1 ++ [m]).
  { rewrite Ees, published_app. change (published (EPub g m None :: es2)) with (m :: published es2). rewrite Hp2. reflexivity. }
  destruct (e2e_intact_once cap ops k esS sS HS Hnames Gd) as [Hin Hcount].
  split; [|split; [|exact Hin]].
  - (* the call has returned *)
    intros Hret. unfold will_returned in Hret.
    assert (Hall : pub_calls cPs (history cap ops) = published es1 ++ [m]).
    { destruct Gp as [rest Hr]. rewrite <- Hpub, Hr. rewrite Hr, app_length in Hret.
      destruct rest; [rewrite app_nil_r; reflexivity|cbn [length] in Hret; lia]. }
    rewrite pub_calls_omap in Hall.
    destruct (omap_split _ _ _ _ _ Hall) as (tr1 & x & tr2 & Etr & Hx & H1 & H2).
    rewrite <- pub_calls_omap in H1, H2.
    exists tr1, x, tr2. split; [exact Etr|split; [exact Hx|split; [exact H1|split; [exact H2|]]]].
    destruct (pub_call_of_inv cPs x m Hx) as (st & c & got & r & st1 & -> & Hc & Hr).
    assert (Hmem : In (st, Backend.OPublish c m got, r, st1) (history cap ops)) by (rewrite Etr; apply in_elt).
    split; [exact (MB.will_step_holds cap ops st c m got r st1 Hnames Hmem Hr)|].
    split; [apply MB.will_copies_publish_le1|].
    destruct (Hcount (m_topic m) (m_payload m)) as [C1 C2].
    rewrite Etr in C2. rewrite !enqueued_app, !EndToEndProofsBackend.enqueued_cons, !count_key_app in C2.
    pose proof (count_key_le_length (m_topic m) (m_payload m) (will_copies k (st, Backend.OPublish c m got, r, st1))) as C3.
    unfold will_copies in C3 |- *. rewrite count_key_app in C3. unfold elsewhere. lia.
  - (* the call has not returned: only ordinary Publishes so far *)
    intros Hnot. unfold glue_publish in Gp. rewrite Hpub in Gp.
    destruct (prefix_snoc _ _ _ Gp) as [E|P]; [|exact P].
    exfalso. apply Hnot. unfold will_returned. rewrite E, Hpub. reflexivity.
Qed.

(* ... in particular "at most once": when nothing else in the history brings the will's content to session k *)
Lemma enq_none k t p (l : list bstep) :
  (forall y, In y l -> enq_here k t p y = 0%nat) ->
  (count_key t p (enqueued k true l) + count_key t p (enqueued k false l) = 0)%nat.
Proof.
  induction l as [|y l IH]; intros H; [reflexivity|].
  change (y :: l) with ([y] ++ l). rewrite !enqueued_app, !count_key_app.
  pose proof (H y (or_introl eq_refl)) as Hy. unfold enq_here in Hy.
  assert (Hl : forall z, In z l -> enq_here k t p z = 0%nat) by (intros z Hz; apply H; right; exact Hz).
  specialize (IH Hl). lia.
Qed.

Lemma will_fresh_elsewhere cPs k m (tr tr1 tr2 : list bstep) x :
  will_fresh cPs k m tr = true -> tr = tr1 ++ x :: tr2 -> pub_call_of cPs x = Some m ->
  elsewhere k (m_topic m) (m_payload m) tr1 tr2 = 0%nat.
Proof.
  intros Hf -> Hx. unfold will_fresh in Hf. apply andb_true_iff in Hf as [H1 H2]. apply Nat.eqb_eq in H1.
  assert (Hw : is_will_call cPs m x = true) by (unfold is_will_call; rewrite Hx; apply message_eqb_refl).
  rewrite filter_app in H1. cbn [filter] in H1. rewrite Hw, app_length in H1. cbn [length] in H1.
  assert (F1 : filter (is_will_call cPs m) tr1 = []) by (apply length_zero_iff_nil; lia).
  assert (F2 : filter (is_will_call cPs m) tr2 = []) by (apply length_zero_iff_nil; lia).
  rewrite forallb_app in H2. apply andb_true_iff in H2 as [G1 G2]. cbn [forallb] in G2. apply andb_true_iff in G2 as [_ G2].
  rewrite forallb_forall in G1, G2.
  assert (Z : forall l, filter (is_will_call cPs m) l = [] ->
              (forall y, In y l -> is_will_call cPs m y || Nat.eqb (enq_here k (m_topic m) (m_payload m) y) 0 = true) ->
              forall y, In y l -> enq_here k (m_topic m) (m_payload m) y = 0%nat).
  { intros l Fl Gl y Hy. specialize (Gl y Hy). rewrite (proj1 (filter_nil_iff _ l) Fl y Hy) in Gl. apply Nat.eqb_eq, Gl. }
  pose proof (enq_none k _ _ tr1 (Z tr1 F1 G1)) as E1. pose proof (enq_none k _ _ tr2 (Z tr2 F2 G2)) as E2.
  unfold elsewhere. lia.
Qed.

Theorem will_e2e_at_most_once : forall cap ops cPs k esW esS sW sS m,
  bc_run esW = Some sW -> bc_run esS = Some sS ->
  BackendLog.names_ok ops = true ->
  glue_publish cPs esW (history cap ops) ->
  glue_dequeue k esS (history cap ops) ->
  will_due esW = Some m ->
  will_returned cPs esW (history cap ops) ->
  will_fresh cPs k m (history cap ops) = true ->
  (count_key (m_topic m) (m_payload m) (forwarded esS) <= 1)%nat.
Proof.
  intros cap ops cPs k esW esS sW sS m HW HS Hnames Gp Gd Hdue Hret Hfresh.
  destruct (will_e2e_once cap ops cPs k esW esS sW sS m HW HS Hnames Gp Gd Hdue) as (es1 & g & es2 & _ & Hb & _).
  destruct (Hb Hret) as (tr1 & x & tr2 & Etr & Hx & _ & _ & _ & L1 & L2).
  rewrite (will_fresh_elsewhere cPs k m _ tr1 tr2 x Hfresh Etr Hx) in L2. lia.
Qed.

(* C12 end to end: no will.  When the connection has ended after a received DISCONNECT, or its CONNECT was not
   accepted (authentication denied or failed, Setup failed), its cleanup has handed nothing to the backend:
   every Publish without acknowledgement closure on that connection was made by a goroutine that had received
   (the processor, for the QoS 0 PUBLISH it received last: arrival_link) — and so, with the glue, every returned
   Publish operation of the clients cPs in a history IS one EPub event of the trace, and none of those of the
   last connection is a Publish of the cleanup: no operation of the history publishes the will. *)
Theorem will_e2e_never : forall esW sW,
  bc_run esW = Some sW -> ended esW = true ->
  disconnected esW = true \/ connect_accepted esW = false ->
  will_due esW = None /\ will_pubs esW = 0 /\
  (forall es1 g m' es2, esW = es1 ++ EPub g m' None :: es2 -> ~ In ENewConn es2 -> by_cleanup es1 g = false) /\
  (forall cap ops cPs, glue_publish cPs esW (history cap ops) ->
     forall tr1 x tr2 m', history cap ops = tr1 ++ x :: tr2 -> pub_call_of cPs x = Some m' ->
       exists es1 g ko es2, esW = es1 ++ EPub g m' ko :: es2 /\ published es1 = pub_calls cPs tr1 /\
         (~ In ENewConn es2 -> ko = None -> by_cleanup es1 g = false)).
Proof.
  intros esW sW HW He Hc.
  pose proof (will_link_holds esW sW HW) as HL.
  assert (Hdue : will_due esW = None).
  { unfold will_due, ended_uncleanly. destruct Hc as [-> | ->]; [cbn [negb]; rewrite !andb_false_r|]; reflexivity. }
  destruct (will_never_conn esW HL He Hdue) as [Hp Hproc].
  split; [exact Hdue|split; [exact Hp|split; [exact Hproc|]]].
  intros cap ops cPs Gp tr1 x tr2 m' Etr Hx.
  destruct Gp as [rest Hr]. rewrite Etr, pub_calls_omap, omap_app in Hr.
  change (omap (pub_call_of cPs) (x :: tr2)) with
    ((match pub_call_of cPs x with Some b => [b] | None => [] end) ++ omap (pub_call_of cPs) tr2) in Hr.
  rewrite Hx, published_omap in Hr. rewrite <- !app_assoc in Hr. cbn [app] in Hr.
  destruct (omap_split _ _ _ _ _ Hr) as (es1 & a & es2 & Ees & Ha & H1 & _).
  destruct (ev_pub_inv a m' Ha) as (g & ko & ->).
  exists es1, g, ko, es2. split; [exact Ees|]. split; [rewrite published_omap, pub_calls_omap; exact H1|].
  intros Hn ->. exact (Hproc es1 g m' es2 Ees Hn).
Qed.

(* the exception in the backend model, spelled out for the publisher's own session: at the will's Publish the
   publisher c still holds session k, k holds a filter matching the will's topic and its queue for the will's QoS
   class is full.  If the backend sees c as closing (st_dying: after a takeover or the backend's Close; in the Go
   code also client.Closing() of a connection dying by itself) the call returns nil and c's own session gets
   nothing (the fix d814c38 / 25be3de: skipped, not refused) while every other session is served as usual.  If it does
   not, the call is refused (ErrQueueFull) and NOTHING happens: no session gets the will, the retained store is
   untouched. *)
Theorem will_own_queue_full : forall cap ops st c m got r st1 k s,
  BackendLog.names_ok ops = true ->
  In (st, Backend.OPublish c m got, r, st1) (history cap ops) -> returned r = true ->
  Backend.session_of st c = Some (k, s) ->
  BackendSpec.has_match (Backend.s_subs s) (m_topic m) = true ->
  Backend.is_full (Backend.st_cap st) (BackendLog.queue (Backend.use_temp m) s) = true ->
  (Backend.mem_n c (Backend.st_dying st) = true ->
     r = Backend.ROk /\ will_copies k (st, Backend.OPublish c m got, r, st1) = []) /\
  (Backend.mem_n c (Backend.st_dying st) = false -> r = Backend.RQueueFull /\ st1 = st).
Proof.
  intros cap ops st c m got r st1 k s Hnames Hin Hret Hs Hm Hf.
  destruct (MB.will_step_holds cap ops st c m got r st1 Hnames Hin Hret) as
    (st' & c' & got' & r' & st1' & E & Hr & Hfull & Hdy & Hsame & _ & Hsess).
  injection E as <- <- <- <- <-.
  assert (G : Backend.get_session st k = Some s).
  { unfold Backend.session_of in Hs. destruct (Backend.alookup N.eqb c (Backend.st_sess st)) as [k0|]; [|discriminate Hs].
    destruct (Backend.get_session st k0) as [s0|] eqn:G0; [|discriminate Hs]. injection Hs as <- <-. exact G0. }
  split.
  - intros D. split; [exact (Hdy D)|]. destruct (Hsess k s G) as (s1 & _ & _ & _ & Hq & _).
    unfold will_copies. rewrite !Hq.
    destruct (Backend.use_temp m); cbn [Bool.eqb]; rewrite ?Hf, ?andb_false_r; cbn [negb andb app]; rewrite ?andb_false_r; reflexivity.
  - intros D. assert (Ho : BackendSpec.own_full st c m = true).
    { unfold BackendSpec.own_full. rewrite D, Hs, Hm. cbn [negb andb]. exact Hf. }
    apply Hfull in Ho. split; [exact Ho|exact (Hsame Ho)].
Qed.
