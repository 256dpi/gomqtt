(* ConnProofsC2.v — C08: c08_no_second_new, c08_store_before_send and c08_kept_until_acked hold of every
   accepted trace (c08_resend is in ConnProofsC3.v). *)
From Coq Require Import List NArith Bool Lia ZArith ZifyN ZifyBool.
From GM Require Import Base.Lts Codec.Packet Session.Ids Session.Store Session.StoreProofs
  Broker.Conn Broker.ConnSpec Broker.ConnBase Broker.ConnProofsA_lib Broker.ConnProofsC0 Broker.ConnProofsC1.
Import ListNotations.
Open Scope N_scope.

(* the packet the dequeuer is working on *)
Definition dp_pkt (d : dpc) : option packet :=
  match d with DSave p _ | DBackAck p | DSend p => Some p | _ => None end.

(* ======================================================= c08_no_second_new *)

(* the id of the fresh QoS>0 PUBLISH the dequeuer is about to send was allocated
   and has not been used for a fresh send since *)
Definition R_ns (s : bc) (t : list (N * N)) : Prop :=
  forall m id, dp_pkt (dp s) = Some (Publish false m id) -> (m_qos m =? 0) = false -> aget t id = Some 0.

Lemma ns_step_tx_other t g p a ok : not_fresh p -> ns_step t (ETx g p a ok) = Some t.
Proof. destruct p; try reflexivity. destruct dup; [reflexivity|contradiction]. Qed.

Lemma ns_dull t e : dull e = true -> ns_step t e = Some t.
Proof. intros H. by_dull e H. Qed.

Lemma ns_proc s t e s' : R_ns s t -> step_proc s e = Some s' -> exists t', ns_step t e = Some t' /\ R_ns s' t'.
Proof.
  intros HR H. exists t. split.
  - destruct (step_proc_inv _ _ _ H); subst; try reflexivity.
    + apply ns_step_tx_other, set_dup_not_fresh.
    + eapply ns_step_tx_other, own_reply_not_fresh, Hp.
    + apply ns_dull, He.
  - destruct (step_proc_dp _ _ _ H) as [_ [E|[_ E]]]; unfold R_ns; rewrite E; [exact HR|discriminate].
Qed.

Lemma ns_deq s t e s' : INV s -> R_ns s t -> step_deq s e = Some s' -> exists t', ns_step t e = Some t' /\ R_ns s' t'.
Proof.
  intros HI HR H. unfold R_ns in *.
  destruct (step_deq_inv _ _ _ (I_shape _ HI) H); subst; rewrite Hdp in HR; cbn [dp_pkt] in HR.
  - exists t. split; [reflexivity|discriminate].
  - exists t. split; [reflexivity|discriminate].
  - (* DeqRet: a QoS 0 message needs no id *)
    exists t. split; [destruct r; reflexivity|]. destruct r as [| |m ba]; bcs; cbn [deq_ret_pc]; try discriminate.
    destruct (m_qos m =? 0) eqn:Eq; [|discriminate]. destruct ba; intros m0 id E Hq; injection E as <- <-; congruence.
  - (* NextId *)
    eexists. split; [reflexivity|]. bcs. cbn [dp_pkt]. intros m0 id0 E _. injection E as <- <-. apply aget_aput_eq.
  - exists t. split; [reflexivity|]. destruct ok; [destruct ba|]; bcs; cbn [dp_pkt]; first [exact HR|discriminate].
  - exists t. split; [reflexivity|exact HR].
  - (* Send: the id is used up *)
    cbn [ns_step]. destruct (m_qos m =? 0) eqn:Eq; [|rewrite (HR m id eq_refl Eq)];
      (eexists; split; [reflexivity|]); destruct ok; bcs; cbn [dp_pkt]; discriminate.
  - exists t. split; [reflexivity|discriminate].
  - exists t. split; [reflexivity|discriminate].
Qed.

Lemma ns_step_ok s t e s' : INV s -> R_ns s t -> step s e = Some s' ->
  exists t', ns_step t e = Some t' /\ R_ns s' t'.
Proof.
  apply (sweep_pd1 ns_step INV R_ns (fun _ H => H) INV_learned).
  - intros s0 s1 t0 Hs HR. unfold R_ns. rewrite (sp_dp _ _ Hs). exact HR.
  - intros s0 s1 t0 _ Hl HR. destruct Hl as (p & d & a & c & -> & _). exact HR.
  - intros s0 s1 t0 _ Hf _. unfold R_ns. rewrite (fz_dp _ _ Hf). destruct (dp s0); discriminate.
  - intros s0 t0 e0 _ _ _ _. apply ns_dull.
  - intros s0 t0 g p ok _ _ _ Hk. apply ns_step_tx_other, ack_not_fresh, Hk.
  - intros s0 t0 _ _. exists t0. split; [reflexivity|]. unfold R_ns. bcs. discriminate.
  - intros s0 t0 e0 s1 g _ HR _ _. apply ns_proc, HR.
  - intros s0 t0 e0 s1 g HI HR _ _ _. apply ns_deq; assumption.
Qed.

Theorem c08_no_second_new_holds : forall es s, bc_run es = Some s -> c08_no_second_new es = true.
Proof.
  apply (scan_sound_inv ns_step INV R_ns INV_init INV_step ns_step_ok).
  unfold R_ns. cbn. discriminate.
Qed.

(* =================================================== c08_store_before_send *)

(* the scanner's entry for the dequeuer's goroutine mirrors the dequeuer's program counter *)
Definition R_sb (s : bc) (t : list (N * (message * option packet))) : Prop :=
  match dp s with
  | DNextId m _ => exists g o, gdeq s = Some g /\ aget t g = Some (m, o)
  | DSave p _ => exists g m id o, gdeq s = Some g /\ p = Publish false m id /\ aget t g = Some (m, o)
  | DBackAck p | DSend p =>
      exists g m id, gdeq s = Some g /\ p = Publish false m id /\
                     ((m_qos m =? 0) = true \/ aget t g = Some (m, Some p))
  | _ => True
  end.

Lemma sb_step_tx_other t g p a ok : not_fresh p -> sb_step t (ETx g p a ok) = Some t.
Proof. destruct p; try reflexivity. destruct dup; [reflexivity|contradiction]. Qed.

Lemma sb_dull t e : dull e = true -> sb_step t e = Some t.
Proof. intros H. by_dull e H. Qed.

Lemma sb_frame s s' t t' :
  dp s' = dp s -> (forall g, gdeq s = Some g -> gdeq s' = Some g /\ aget t' g = aget t g) ->
  R_sb s t -> R_sb s' t'.
Proof.
  intros Ed Ht HR. unfold R_sb in *. rewrite Ed. destruct (dp s); try exact I.
  - destruct HR as (g & o & G & A). destruct (Ht g G) as [G' E]. exists g, o. split; [exact G'|rewrite E; exact A].
  - destruct HR as (g & m0 & id & o & G & E0 & A). destruct (Ht g G) as [G' E]. exists g, m0, id, o. repeat split; try assumption. rewrite E; exact A.
  - destruct HR as (g & m0 & id & G & E0 & A). destruct (Ht g G) as [G' E]. exists g, m0, id. repeat split; try assumption. rewrite E; exact A.
  - destruct HR as (g & m0 & id & G & E0 & A). destruct (Ht g G) as [G' E]. exists g, m0, id. repeat split; try assumption. rewrite E; exact A.
Qed.

(* the processor's events touch the processor's entry only; the dequeuer is another goroutine *)
Lemma sb_proc s t e s' g : INV s -> R_sb s t -> ev_g e = Some g -> gproc s = Some g -> step_proc s e = Some s' ->
  exists t', sb_step t e = Some t' /\ R_sb s' t'.
Proof.
  intros HI HR Hg Hr H.
  assert (Ht : exists t', sb_step t e = Some t' /\ forall gd, gd <> g -> aget t' gd = aget t gd).
  { destruct (step_proc_inv _ _ _ H); subst; try (exists t; split; reflexivity).
    - exists t. split; [apply sb_step_tx_other, set_dup_not_fresh|reflexivity].
    - cbn [ev_g] in Hg. injection Hg as ->. cbn [sb_step].
      destruct ok; [|exists t; split; reflexivity]. destruct (aget t g) as [[m o]|]; eexists; (split; [reflexivity|]); [|reflexivity].
      intros gd Hd. apply aget_aput_ne, Hd.
    - exists t. split; [eapply sb_step_tx_other, own_reply_not_fresh, Hp|reflexivity].
    - exists t. split; [apply sb_dull, He|reflexivity]. }
  destruct Ht as (t' & Et & Hk). exists t'. split; [exact Et|].
  destruct (step_proc_dp _ _ _ H) as [Eg [Ed|[_ Ed]]]; [|unfold R_sb; rewrite Ed; exact I].
  apply (sb_frame s s' t t' Ed); [|exact HR]. intros gd Hd. rewrite Eg. split; [exact Hd|].
  apply Hk. intros ->. exact (I_roles _ HI _ Hr Hd).
Qed.

Lemma sb_deq s t e s' g : INV s -> R_sb s t -> ev_g e = Some g -> gdeq s = Some g -> step_deq s e = Some s' ->
  exists t', sb_step t e = Some t' /\ R_sb s' t'.
Proof.
  intros HI HR Hg Hr H. unfold R_sb in *.
  destruct (step_deq_inv _ _ _ (I_shape _ HI) H); subst; rewrite Hdp in HR; cbn [ev_g] in Hg; injection Hg as ->.
  - exists t. split; [reflexivity|exact I].
  - exists t. split; [reflexivity|exact I].
  - (* DeqRet: the message enters g's entry *)
    destruct r as [| |m ba]; try (exists t; split; [reflexivity|exact I]).
    eexists. split; [reflexivity|]. bcs. cbn [deq_ret_pc]. destruct (m_qos m =? 0) eqn:Eq.
    + destruct ba; (exists g; exists m; exists 0; split; [exact Hr|split; [reflexivity|left; exact Eq]]).
    + exists g, None. split; [exact Hr|apply aget_aput_eq].
  - exists t. split; [reflexivity|]. bcs. destruct HR as (g' & o & G & A). exists g', m, id, o. repeat split; assumption.
  - (* Save: the packet enters g's entry *)
    destruct HR as (g' & m' & id' & o & G & E & A). injection E as <- <-. rewrite Hr in G. injection G as <-.
    cbn [sb_step]. destruct ok; [rewrite A|]; (eexists; split; [reflexivity|]); [|exact I].
    destruct ba; bcs; (exists g; exists m; exists id; split; [exact Hr|split; [reflexivity|right; apply aget_aput_eq]]).
  - exists t. split; [reflexivity|exact HR].
  - (* Send: the packet is the one recorded for g *)
    destruct HR as (g' & m' & id' & G & E & A). injection E as <- <-. rewrite Hr in G. injection G as <-.
    exists t. split; [|destruct ok; exact I]. cbn [sb_step]. destruct A as [A|A]; [rewrite A; reflexivity|].
    rewrite A, packet_eqb_refl, message_eqb_refl. destruct (m_qos m =? 0); reflexivity.
  - exists t. split; [reflexivity|exact I].
  - exists t. split; [reflexivity|exact I].
Qed.

Lemma sb_step_ok s t e s' : INV s -> R_sb s t -> step s e = Some s' ->
  exists t', sb_step t e = Some t' /\ R_sb s' t'.
Proof.
  apply (sweep_pd1 sb_step INV R_sb (fun _ H => H) INV_learned).
  - intros s0 s1 t0 Hs. apply sb_frame; [apply (sp_dp _ _ Hs)|]. intros g G. rewrite (sp_gdeq _ _ Hs). split; [exact G|reflexivity].
  - intros s0 s1 t0 _ Hl. destruct Hl as (p & d & a & c & -> & _ & Kd & _).
    apply sb_frame; [reflexivity|]. intros g G. split; [apply Kd, G|reflexivity].
  - intros s0 s1 t0 _ Hf _. unfold R_sb. rewrite (fz_dp _ _ Hf). destruct (dp s0); exact I.
  - intros s0 t0 e0 _ _ _ _. apply sb_dull.
  - intros s0 t0 g p ok _ _ _ Hk. apply sb_step_tx_other, ack_not_fresh, Hk.
  - intros s0 t0 _ _. exists []. split; [reflexivity|exact I].
  - intros s0 t0 e0 s1 g. apply (sb_proc s0 t0 e0 s1 g).
  - intros s0 t0 e0 s1 g HI HR Hg Hr _. apply (sb_deq s0 t0 e0 s1 g); assumption.
Qed.

Theorem c08_store_before_send_holds : forall es s, bc_run es = Some s -> c08_store_before_send es = true.
Proof.
  apply (scan_sound_inv sb_step INV R_sb INV_init INV_step sb_step_ok).
  unfold R_sb. cbn. exact I.
Qed.

(* ==================================================== c08_kept_until_acked *)

(* while the processor is about to delete / replace an outgoing entry, the packet
   it received last is the acknowledgement that justifies it; while the dequeuer
   is about to save, its goroutine has dequeued a message *)
Definition R_ku (s : bc) (t : ku_st) : Prop :=
  (match pp s with
   | PAckDel id => exists g, gproc s = Some g /\
                     (aget (ku_last t) g = Some (Puback id) \/ aget (ku_last t) g = Some (Pubcomp id))
   | PRecSave id => exists g, gproc s = Some g /\ aget (ku_last t) g = Some (Pubrec id)
   | _ => True
   end) /\
  (match dp s with
   | DNextId _ _ | DSave _ _ => exists g, gdeq s = Some g /\ nmem g (ku_deq t) = true
   | _ => True
   end).

Lemma ku_dull t e : dull e = true -> ku_step t e = Some t.
Proof. intros H. by_dull e H. Qed.

Lemma ku_frame s s' t t' :
  pp s' = pp s -> dp s' = dp s ->
  (forall g, gproc s = Some g -> gproc s' = Some g /\ aget (ku_last t') g = aget (ku_last t) g) ->
  (forall g, gdeq s = Some g -> nmem g (ku_deq t) = true -> gdeq s' = Some g /\ nmem g (ku_deq t') = true) ->
  R_ku s t -> R_ku s' t'.
Proof.
  intros Ep Ed Hl Hd [H1 H2]. unfold R_ku. rewrite Ep, Ed. split.
  - destruct (pp s); try exact I; destruct H1 as (g & G & A); destruct (Hl g G) as [G' E]; exists g; (split; [exact G'|rewrite E; exact A]).
  - destruct (dp s); try exact I; destruct H2 as (g & G & A); exists g; apply Hd; assumption.
Qed.

Lemma ku_plain s t :
  match pp s with PAckDel _ | PRecSave _ => False | _ => True end ->
  match dp s with DNextId _ _ | DSave _ _ => False | _ => True end -> R_ku s t.
Proof. intros Hp Hd. split; [destruct (pp s)|destruct (dp s)]; try exact I; contradiction. Qed.

Lemma ku_proc s t e s' g : R_ku s t -> ev_g e = Some g -> gproc s = Some g -> step_proc s e = Some s' ->
  exists t', ku_step t e = Some t' /\ R_ku s' t'.
Proof.
  intros [H1 H2] Hg Hr H. destruct (step_proc_dp _ _ _ H) as [Eg Ed].
  (* the dequeuer's half: its list only grows *)
  assert (K2 : forall t', (forall x, nmem x (ku_deq t) = true -> nmem x (ku_deq t') = true) ->
            match dp s' with DNextId _ _ | DSave _ _ => exists g, gdeq s' = Some g /\ nmem g (ku_deq t') = true | _ => True end).
  { intros t' Ht. destruct Ed as [Ed|[_ Ed]]; rewrite Ed; [|exact I]. rewrite Eg.
    destruct (dp s); try exact I; destruct H2 as (gd & G & A); exists gd; (split; [exact G|apply Ht, A]). }
  (* the processor's half: trivial unless it comes to delete or to save a PUBREL *)
  assert (Kp : forall t', ku_step t e = Some t' -> ku_deq t' = ku_deq t ->
            match pp s' with PAckDel _ | PRecSave _ => False | _ => True end ->
            exists t'', ku_step t e = Some t'' /\ R_ku s' t'').
  { intros t' Et Ed' Hp. exists t'. split; [exact Et|]. split; [destruct (pp s'); try exact I; contradiction|].
    apply K2. rewrite Ed'. auto. }
  destruct (step_proc_inv _ _ _ H); subst; rewrite ?Hpp in H1; cbn [ev_g] in Hg; try injection Hg as ->.
  all: try (eapply Kp; [reflexivity|reflexivity|]; try destruct ok; exact I).
  - eapply Kp; [reflexivity|reflexivity|destruct p; exact I].
  - eapply Kp; [reflexivity|reflexivity|destruct r; exact I].
  - eapply Kp; [reflexivity|reflexivity|]. bcs. unfold resend_next. destruct (store_all (s_out (sess s))); exact I.
  - eapply Kp; [reflexivity|reflexivity|]. destruct ok; [|exact I]. bcs. destruct rest; exact I.
  - (* a packet received in the main loop is recorded *)
    eexists. split; [reflexivity|]. split; [|apply K2; auto]. assert (Eg0 : gproc s0 = Some g) by (destruct H0 as [->| ->]; exact Hr).
    bcs. rewrite Eg0. cbn [ku_last]. destruct p; cbn [rx_pc] in Hx; try rewrite Hx; try (destruct x; try exact I; discriminate Hx).
    + exists g. split; [reflexivity|left; apply aget_aput_eq].
    + exists g. split; [reflexivity|apply aget_aput_eq].
    + exists g. split; [reflexivity|right; apply aget_aput_eq].
  - (* AckDel: the delete is justified *)
    destruct H1 as (g' & G & A). rewrite Hr in G. injection G as <-.
    eapply Kp; [|reflexivity|destruct ok; exact I]. cbn [ku_step]. destruct A as [A|A]; rewrite A, N.eqb_refl; reflexivity.
  - (* RecSave: so is the PUBREL *)
    destruct H1 as (g' & G & A). rewrite Hr in G. injection G as <-.
    eapply Kp; [|reflexivity|destruct ok; exact I]. cbn [ku_step]. rewrite A, N.eqb_refl. reflexivity.
  - eapply Kp; [apply ku_dull, He|reflexivity|]. destruct (pp s'); try exact I; discriminate Hx.
Qed.

Lemma ku_deq' s t e s' g : INV s -> R_ku s t -> ev_g e = Some g -> gdeq s = Some g -> step_deq s e = Some s' ->
  exists t', ku_step t e = Some t' /\ R_ku s' t'.
Proof.
  intros HI [H1 H2] Hg Hr H. destruct (step_deq_proc_view _ _ _ H (I_shape _ HI)) as (Ep & Egp & _).
  (* the processor's half: no packet is received *)
  assert (K1 : forall t', ku_last t' = ku_last t ->
            match pp s' with
            | PAckDel id => exists g, gproc s' = Some g /\ (aget (ku_last t') g = Some (Puback id) \/ aget (ku_last t') g = Some (Pubcomp id))
            | PRecSave id => exists g, gproc s' = Some g /\ aget (ku_last t') g = Some (Pubrec id)
            | _ => True
            end).
  { intros t' ->. rewrite Ep, Egp. exact H1. }
  destruct (step_deq_inv _ _ _ (I_shape _ HI) H); subst; rewrite Hdp in H2; cbn [ev_g] in Hg; injection Hg as ->;
    try (exists t; split; [reflexivity|split; [apply K1; reflexivity|exact I]]).
  - (* DeqRet: g has dequeued *)
    destruct r as [| |m ba]; try (exists t; split; [reflexivity|split; [apply K1; reflexivity|exact I]]).
    eexists. split; [reflexivity|]. split; [apply K1; reflexivity|]. bcs. cbn [deq_ret_pc ku_deq].
    destruct (m_qos m =? 0); [destruct ba; exact I|]. exists g. split; [exact Hr|]. cbn [nmem existsb]. rewrite N.eqb_refl. reflexivity.
  - exists t. split; [reflexivity|]. split; [apply K1; reflexivity|]. bcs. exact H2.
  - (* Save *)
    destruct H2 as (g' & G & A). rewrite Hr in G. injection G as <-.
    exists t. split; [cbn [ku_step]; rewrite A, Hq; reflexivity|]. split; [apply K1; reflexivity|destruct ok; [destruct ba|]; exact I].
  - exists t. split; [reflexivity|]. split; [apply K1; reflexivity|destruct ok; exact I].
Qed.

Lemma ku_step_ok s t e s' : INV s -> R_ku s t -> step s e = Some s' ->
  exists t', ku_step t e = Some t' /\ R_ku s' t'.
Proof.
  apply (sweep_pd1 ku_step INV R_ku (fun _ H => H) INV_learned).
  - intros s0 s1 t0 Hs. apply ku_frame; [apply (sp_pp _ _ Hs)|apply (sp_dp _ _ Hs)| |].
    + intros g G. rewrite (sp_gproc _ _ Hs). split; [exact G|reflexivity].
    + intros g G A. rewrite (sp_gdeq _ _ Hs). split; assumption.
  - intros s0 s1 t0 _ Hl. destruct Hl as (p & d & a & c & -> & Kp & Kd & _).
    apply ku_frame; try reflexivity.
    + intros g G. split; [apply Kp, G|reflexivity].
    + intros g G A. split; [apply Kd, G|exact A].
  - intros s0 s1 t0 _ Hf _. apply ku_plain; [rewrite (fz_pp _ _ Hf); exact I|rewrite (fz_dp _ _ Hf); destruct (dp s0); exact I].
  - intros s0 t0 e0 _ _ _ _. apply ku_dull.
  - intros s0 t0 g p ok _ _ _ _. reflexivity.
  - intros s0 t0 _ _. eexists. split; [reflexivity|]. apply ku_plain; exact I.
  - intros s0 t0 e0 s1 g _. apply (ku_proc s0 t0 e0 s1 g).
  - intros s0 t0 e0 s1 g HI HR Hg Hr _. apply (ku_deq' s0 t0 e0 s1 g); assumption.
Qed.

Theorem c08_kept_until_acked_holds : forall es s, bc_run es = Some s -> c08_kept_until_acked es = true.
Proof.
  apply (scan_sound_inv ku_step INV R_ku INV_init INV_step ku_step_ok).
  apply ku_plain; exact I.
Qed.
