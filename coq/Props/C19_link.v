(* C19 (link) — what one connection sends is what the peer connection receives.
   Only statements, `exact`, Print Assumptions, and Examples with the evaluations they rest on.

   LK (Transport/Link.v) composes the two halves that C19 / C03 prove separately:
     connection A  = CN (Transport/BaseConn.v): Send / Close / flush timer over mercury + bufio
                     over a failing carrier; a Send's bytes are what the REAL encoder produces
                     (Enc.encoder_write on a pooled buffer with arbitrary earlier content);
     the wire      = the Write calls A's carrier accepted (link_chunks), re-cut by the network
                     in ANY way: every cs with `rechunk cs (link_chunks sA)`;
     connection B  = the stream decoder of C03 (Stream/Stream.v) with the REAL codec
                     (detect_impl = DetectPacket, codec_decode = Type.New() + Dec.decode_go),
                     alone (b_recv) or inside a BaseConn (b_receives).
   A `lev` script is any interleaving of events of any number of goroutines; `who` in LSend is the
   sending goroutine; the order of the script's Send events is the order in which the Sends got
   sendMutex (atomicity of Send / Close under the mutex: trusted + race detector, as in C19).

   Hypotheses, and why each is there (Examples below show them met, and needed):
     lquiet / lev_wf   every packet handed to Send is well-formed (WF.wf, C01) — otherwise Encode may
                       fail (Send closes the connection) or produce bytes Decode refuses;
     lflushing last    the script ends with Close, a timer firing or a flushed Send — otherwise
                       accepted packets may still sit in A's write buffer;
     within limB       every packet fits B's read limit (0 = none) — otherwise B answers
                       ErrReadLimitExceeded;
     wl = None, no LFailWrites / LClose inside (link_delivers only): A's carrier does not fail.
   No hypothesis on sizes beyond wf (which bounds the remaining length by 268435455).           *)
From Coq Require Import List NArith Bool.
From Coq.Strings Require Import Byte.
From GM Require Import Codec.Packet Codec.WF Codec.WireSpec Stream.Stream Stream.EncStream Stream.EncStreamProofs
  Stream.FramesProofs Stream.StreamCodec Stream.StreamTotal Transport.BaseConn Transport.BaseConnProofs
  Transport.Link Transport.LinkProofs.
Import ListNotations.
Open Scope N_scope.

(* A's carrier does not fail; any interleaving of buffered and flushed Sends of well-formed
   packets by any goroutines, timer firings, delay / timeout changes, ended by Close, a timer
   firing or a flushed Send.  Every Send (and the Close) returned nil, nothing is left in A's
   buffer, and for EVERY re-chunking of A's wire B decodes exactly the packets sent — each equal
   to the packet sent, with exactly its encoding as byte range, in the order of the Send events,
   one allocation request of its size each — and then sees a clean end (EOF for io.EOF):
   nothing lost, nothing invented, nothing reordered *)
Theorem C19_link_delivers :
  forall d0 csA eA limA dl dlc script last sA rsA cs limB eB,
    Forall lquiet script -> lflushing last ->
    Forall (within limB) (map snd (offered (script ++ [last]))) ->
    a_run (a_init d0 None csA eA limA dl dlc false) (script ++ [last]) = (sA, rsA) ->
    rechunk cs (link_chunks sA) ->
    let ps := map snd (offered (script ++ [last])) in
    let b := b_recv limB cs eB in
    Forall (fun r => r = CROk \/ r = CRNone) rsA /\
    laccepted (script ++ [last]) rsA = offered (script ++ [last]) /\
    e_buf (c_enc sA) = [] /\
    a_frames b = map (frame_of wire_spec) ps /\
    b_packets b = ps /\
    a_err b = end_err eB 0 /\ (eB = SEof -> a_err b = EEof) /\
    a_allocs b = map (alloc_of wire_spec) ps.
Proof. exact link_delivers. Qed.
Print Assumptions C19_link_delivers.

(* … in particular the packets of one sender goroutine arrive in the order that goroutine sent
   them: label the i-th packet B received with the goroutine of the i-th Send event; for every
   goroutine g the packets labelled g are exactly those g sent, in g's own order *)
Theorem C19_link_per_sender_order :
  forall d0 csA eA limA dl dlc script last sA rsA cs limB eB,
    Forall lquiet script -> lflushing last ->
    Forall (within limB) (map snd (offered (script ++ [last]))) ->
    a_run (a_init d0 None csA eA limA dl dlc false) (script ++ [last]) = (sA, rsA) ->
    rechunk cs (link_chunks sA) ->
    let received := b_packets (b_recv limB cs eB) in
    let senders := map fst (offered (script ++ [last])) in
    length received = length senders /\
    forall g, map snd (filter (fun x => fst x =? g) (combine senders received)) = sent_by g (script ++ [last]).
Proof. exact link_per_sender_order. Qed.
Print Assumptions C19_link_per_sender_order.

(* the same with B a BaseConn: n+1 Receive calls return the n packets, then the clean end *)
Theorem C19_link_delivers_conn :
  forall d0 csA eA limA dl dlc script last sA rsA cs limB eB,
    Forall lquiet script -> lflushing last ->
    Forall (within limB) (map snd (offered (script ++ [last]))) ->
    a_run (a_init d0 None csA eA limA dl dlc false) (script ++ [last]) = (sA, rsA) ->
    rechunk cs (link_chunks sA) ->
    let ps := map snd (offered (script ++ [last])) in
    b_receives limB cs eB (S (length ps)) =
    map (fun p => CRPacket (wire_spec p) p) ps ++ [CRRecvErr (end_err eB 0)].
Proof. exact link_delivers_conn. Qed.
Print Assumptions C19_link_delivers_conn.

(* … and with the decoder side's own model of DetectPacket (Dec.detect_go, C02) *)
Theorem C19_link_delivers_detect_go :
  forall d0 csA eA limA dl dlc script last sA rsA cs limB eB,
    Forall lquiet script -> lflushing last ->
    Forall (within limB) (map snd (offered (script ++ [last]))) ->
    a_run (a_init d0 None csA eA limA dl dlc false) (script ++ [last]) = (sA, rsA) ->
    rechunk cs (link_chunks sA) ->
    let ps := map snd (offered (script ++ [last])) in
    let b := dec_all detect_go_view codec_decode limB cs eB in
    a_frames b = map (frame_of wire_spec) ps /\ a_err b = end_err eB 0.
Proof. exact link_delivers_detect_go. Qed.
Print Assumptions C19_link_delivers_detect_go.

(* everything accepted by Sends — the buffered (async) ones included — before a Close reaches B,
   whole and in order, before B sees the end of the stream; Close returns nil
   (C19_close_loses_nothing composed with C03_frames_codec) *)
Theorem C19_link_close_loses_nothing :
  forall d0 csA eA limA dl dlc script sA rsA cs limB eB,
    Forall lquiet script ->
    Forall (within limB) (map snd (offered script)) ->
    a_run (a_init d0 None csA eA limA dl dlc false) (script ++ [LClose]) = (sA, rsA) ->
    rechunk cs (link_chunks sA) ->
    let b := b_recv limB cs eB in
    last rsA CRNone = CROk /\
    b_packets b = map snd (offered script) /\
    (forall p, In p (buffered script) -> In p (b_packets b)) /\
    a_err b = end_err eB 0 /\ (eB = SEof -> a_err b = EEof).
Proof. exact link_close_loses_nothing. Qed.
Print Assumptions C19_link_close_loses_nothing.

(* the same after ANY history (any Sends, A's own Receives, timeouts, timer firings, any carrier
   script) provided A's carrier has not failed when Close is called (C19_close_flushes composed):
   B receives exactly the packets whose Send returned nil, in order, then the clean end *)
Theorem C19_link_close_flushes :
  forall d0 wl csA eA limA dl dlc cf script s1 rs1 sA r cs limB eB,
    Forall lev_wf script ->
    Forall (within limB) (map snd (offered script)) ->
    a_run (a_init d0 wl csA eA limA dl dlc cf) script = (s1, rs1) ->
    healthy (c_enc s1) ->
    cn_step detect_impl codec_decode s1 CClose = (sA, r) ->
    rechunk cs (link_chunks sA) ->
    let b := b_recv limB cs eB in
    b_packets b = map snd (laccepted script rs1) /\
    a_frames b = map (frame_of wire_spec) (map snd (laccepted script rs1)) /\
    a_err b = end_err eB 0 /\
    (c_clfail s1 = false -> r = CROk).
Proof. exact link_close_flushes. Qed.
Print Assumptions C19_link_close_flushes.

(* ANY script on A (Sends of well-formed packets, timer, Receives, Close anywhere, Sends after
   Close) over ANY failing carrier, ANY re-chunking: B decodes a prefix of [the packets whose Send
   returned nil, in order, then possibly the packet of the one Send that reported the failure] —
   and that last one never whole (lost <> []) — and stops at a packet boundary (j = 0) or j bytes
   into the next packet of that list: never a packet that was not sent, never a reordering, never
   a packet made from partial bytes *)
Theorem C19_link_prefix_on_failure :
  forall d0 wl csA eA limA dl dlc cf script sA rsA cs limB eB,
    Forall lev_wf script ->
    Forall (within limB) (map snd (offered script)) ->
    a_run (a_init d0 wl csA eA limA dl dlc cf) script = (sA, rsA) ->
    rechunk cs (link_chunks sA) ->
    let b := b_recv limB cs eB in
    exists extra lost j,
      (extra = [] \/
       exists x, extra = [snd x] /\ In x (offered script) /\ e_berr (c_enc sA) <> None /\ lost <> []) /\
      b_packets b ++ lost = map snd (laccepted script rsA) ++ extra /\
      a_frames b = map (frame_of wire_spec) (b_packets b) /\
      a_err b = end_err eB j /\
      match lost with
      | [] => j = 0 /\ concat cs = concat (map wire_spec (b_packets b))
      | p :: _ => j < len (wire_spec p) /\
                  concat cs = concat (map wire_spec (b_packets b)) ++ takeN j (wire_spec p)
      end.
Proof. exact link_prefix_on_failure. Qed.
Print Assumptions C19_link_prefix_on_failure.

(* hence: what B receives is a prefix of the packets A's Sends accepted (returned nil for), with
   their encodings as byte ranges, followed by EOF or ErrUnexpectedEOF (source ending with io.EOF) *)
Theorem C19_link_prefix_of_accepted :
  forall d0 wl csA eA limA dl dlc cf script sA rsA cs limB eB,
    Forall lev_wf script ->
    Forall (within limB) (map snd (offered script)) ->
    a_run (a_init d0 wl csA eA limA dl dlc cf) script = (sA, rsA) ->
    rechunk cs (link_chunks sA) ->
    let b := b_recv limB cs eB in
    prefix_of (b_packets b) (map snd (laccepted script rsA)) /\
    prefix_of (a_frames b) (map (frame_of wire_spec) (map snd (laccepted script rsA))) /\
    a_frames b = map (frame_of wire_spec) (b_packets b) /\
    (exists j, a_err b = end_err eB j) /\
    (eB = SEof -> a_err b = EEof \/ a_err b = EUnexpectedEof).
Proof. exact link_prefix_of_accepted. Qed.
Print Assumptions C19_link_prefix_of_accepted.

(* ---------------------------------------------------------------- non-vacuity *)

Definition lk_connect : packet := Connect (Conn [x63; x31] 30 [x75] [x70] true (Some (Msg [x77] [x21] 1 false)) 4).
Definition lk_mid : packet := Publish false (Msg [x61] (repeat x41 (N.to_nat 300)) 0 false) 0.
Definition lk_big : packet := Publish false (Msg [x61; x2f; x62] (repeat x5a (N.to_nat 5000)) 1 true) 258.
Definition lk_sub : packet := Subscribe 9 [([x61], 1)].

(* goroutines 1 and 2; five packet types, sizes 2 .. 5010 bytes (one > 4096: split by bufio
   between two carrier writes); dirty pooled buffers; buffered sends, a timer firing, a flushed
   send, then a buffered DISCONNECT directly followed by Close *)
Definition lk_body : list lev :=
  [LSend 1 lk_connect [xee; xee] true; LSend 2 lk_mid [] true; LSend 1 lk_big [x01] true; LTimer;
   LSend 2 (Puback 7) [] false; LSend 1 lk_sub [] true; LSend 2 Disconnect [xff; xff; xff] true].
Definition lk_script : list lev := lk_body ++ [LClose].
Definition lk_packets : list packet := [lk_connect; lk_mid; lk_big; Puback 7; lk_sub; Disconnect].
Definition lk_a0 : cstate := a_init false None [] SEof 0 None false false.

(* the hypotheses of C19_link_delivers / per_sender_order / close_loses_nothing are met *)
Example C19_link_hypotheses_met :
  Forall lquiet lk_body /\ lflushing LClose /\
  Forall (within 0) (map snd (offered lk_script)) /\ Forall (within 8192) (map snd (offered lk_script)) /\
  map snd (offered lk_script) = lk_packets /\ forallb wf lk_packets = true.
Proof.
  split; [repeat (apply Forall_cons; [vm_compute; try reflexivity; exact I|]); apply Forall_nil|].
  split; [exact I|].
  split; [repeat (apply Forall_cons; [left; reflexivity|]); apply Forall_nil|].
  split; [repeat (apply Forall_cons; [right; apply N.leb_le; vm_compute; reflexivity|]); apply Forall_nil|].
  split; vm_compute; reflexivity.
Qed.

Definition lk_bytes : list byte := concat (map wire_spec lk_packets).
Definition lk_wire : list (list byte) :=
  [takeN 4096 lk_bytes; takeN 1248 (dropN 4096 lk_bytes); takeN 4 (dropN 5344 lk_bytes); dropN 5348 lk_bytes].

Lemma lk_a_run :
  let '(sA, rsA) := a_run lk_a0 lk_script in
  rsA = [CROk; CROk; CROk; CRNone; CROk; CROk; CROk; CROk] /\ link_chunks sA = lk_wire.
Proof. vm_compute. split; reflexivity. Qed.

(* B on any re-chunking of that wire: C19_link_delivers and C19_link_delivers_conn at this script *)
Lemma lk_b lim cs :
  Forall (within lim) lk_packets -> rechunk cs lk_wire ->
  let b := b_recv lim cs SEof in
  a_frames b = map (frame_of wire_spec) lk_packets /\ b_packets b = lk_packets /\ a_err b = EEof /\
  a_allocs b = map (alloc_of wire_spec) lk_packets /\
  b_receives lim cs SEof 7 = map (fun p => CRPacket (wire_spec p) p) lk_packets ++ [CRRecvErr EEof].
Proof.
  intros L RC. pose proof lk_a_run as A. destruct (a_run lk_a0 lk_script) as [sA rsA] eqn:RUN.
  destruct A as [_ EW]. rewrite <- EW in RC.
  destruct C19_link_hypotheses_met as (Q & Fl & _).
  destruct (C19_link_delivers _ _ _ _ _ _ lk_body LClose _ _ _ _ SEof Q Fl L RUN RC) as (_ & _ & _ & F & P & E & _ & Al).
  pose proof (C19_link_delivers_conn _ _ _ _ _ _ lk_body LClose _ _ _ _ SEof Q Fl L RUN RC) as R.
  repeat split; assumption.
Qed.

Lemma concat_singletons : forall (l : list byte), concat (map (fun b => [b]) l) = l.
Proof. induction l as [|b l IH]; [reflexivity|]. cbn [map concat app]. now rewrite IH. Qed.

(* the whole link on one script: A's results, the carrier writes (the 5010-byte PUBLISH is cut at
   bufio's 4096), and B's view under the byte-by-byte and the one-chunk re-chunking *)
Example C19_link_example :
  let '(rsA, w, b1) := link_run lk_a0 lk_script bytewise 0 SEof in
  let '(_, _, b2) := link_run lk_a0 lk_script one_chunk 8192 SEof in
  rsA = [CROk; CROk; CROk; CRNone; CROk; CROk; CROk; CROk] /\
  map len w = [4096; 1248; 4; 10] /\
  len (bytewise w) = 5358 /\ len (one_chunk w) = 1 /\
  rechunk (bytewise w) w /\ rechunk (one_chunk w) w /\
  (b_packets b1 = lk_packets /\ a_err b1 = EEof /\ a_allocs b1 = [28; 306; 5010; 4; 8; 2]) /\
  (b_packets b2 = lk_packets /\ a_err b2 = EEof /\ map fst (a_frames b2) = map wire_spec lk_packets) /\
  b_receives 0 (bytewise w) SEof 7 =
    map (fun p => CRPacket (wire_spec p) p) lk_packets ++ [CRRecvErr EEof] /\
  (* per sender *)
  map fst (offered lk_script) = [1; 2; 1; 2; 1; 2] /\
  sent_by 1 lk_script = [lk_connect; lk_big; lk_sub] /\ sent_by 2 lk_script = [lk_mid; Puback 7; Disconnect] /\
  map snd (filter (fun x => fst x =? 1) (combine (map fst (offered lk_script)) (b_packets b1))) = sent_by 1 lk_script /\
  map snd (filter (fun x => fst x =? 2) (combine (map fst (offered lk_script)) (b_packets b1))) = sent_by 2 lk_script /\
  (* the buffered sends, the final DISCONNECT included, arrived *)
  buffered lk_script = [lk_connect; lk_mid; lk_big; lk_sub; Disconnect].
Proof.
  unfold link_run. pose proof lk_a_run as A.
  destruct (a_run lk_a0 lk_script) as [sA rsA]. destruct A as [-> ->].
  destruct C19_link_hypotheses_met as (_ & _ & L0 & L8 & _).
  destruct (lk_b 0 (bytewise lk_wire) L0 (concat_singletons _)) as (_ & P1 & E1 & A1 & R1).
  destruct (lk_b 8192 (one_chunk lk_wire) L8 (app_nil_r _)) as (F2 & P2 & E2 & _).
  split; [reflexivity|].
  split; [vm_compute; reflexivity|].
  split; [vm_compute; reflexivity|].
  split; [reflexivity|].
  split; [apply concat_singletons|].
  split; [apply app_nil_r|].
  split; [split; [exact P1 | split; [exact E1 | rewrite A1; vm_compute; reflexivity]]|].
  split; [split; [exact P2 | split; [exact E2 | rewrite F2; apply map_map]]|].
  split; [exact R1|].
  rewrite P1. repeat split.
Qed.

(* failure: A's carrier takes one Write and then refuses.  CONNECT and the big PUBLISH are
   accepted (buffered; bufio's fill-and-flush is the one write that succeeds: 4096 bytes), the
   flushed PUBACK reports the error.  B gets CONNECT, then ErrUnexpectedEOF 4068 bytes into the
   PUBLISH: a prefix of the accepted packets, nothing else *)
Definition lk_fail_script : list lev :=
  [LSend 1 lk_connect [] true; LSend 2 lk_big [] true; LSend 1 (Puback 7) [] false; LSend 2 Pingreq [] true].

Definition lk_fail_a0 : cstate := a_init false (Some 1) [] SEof 0 None false false.
Definition lk_fail_wire : list (list byte) := [takeN 4096 (wire_spec lk_connect ++ wire_spec lk_big)].

Lemma lk_fail_a_run :
  let '(sA, rsA) := a_run lk_fail_a0 lk_fail_script in
  rsA = [CROk; CROk; CRErr 4; CRErr 4] /\ link_chunks sA = lk_fail_wire.
Proof. vm_compute. split; reflexivity. Qed.

Lemma lk_fail_b :
  let b := b_recv 0 (bytewise lk_fail_wire) SEof in b_packets b = [lk_connect] /\ a_err b = EUnexpectedEof.
Proof. vm_compute. split; reflexivity. Qed.

Example C19_link_failure_example :
  Forall lev_wf lk_fail_script /\
  let '(rsA, w, b) := link_run (a_init false (Some 1) [] SEof 0 None false false) lk_fail_script bytewise 0 SEof in
  rsA = [CROk; CROk; CRErr 4; CRErr 4] /\ map len w = [4096] /\
  map snd (laccepted lk_fail_script rsA) = [lk_connect; lk_big] /\
  b_packets b = [lk_connect] /\ a_err b = EUnexpectedEof /\
  concat w = wire_spec lk_connect ++ takeN 4068 (wire_spec lk_big).
Proof.
  split; [repeat (apply Forall_cons; [vm_compute; reflexivity|]); apply Forall_nil|].
  unfold link_run. pose proof lk_fail_a_run as A. fold lk_fail_a0.
  destruct (a_run lk_fail_a0 lk_fail_script) as [sA rsA]. destruct A as [-> ->].
  split; [reflexivity|].
  split; [vm_compute; reflexivity|].
  split; [reflexivity|].
  split; [exact (proj1 lk_fail_b)|].
  split; [exact (proj2 lk_fail_b)|].
  vm_compute; reflexivity.
Qed.

(* C19_link_close_flushes after a history with A's own traffic in the other direction (a PINGREQ
   received, a timeout set) between two buffered Sends: the state before Close is healthy,
   Close returns nil, B receives both packets *)
Example C19_link_close_flushes_example :
  let '(s1, rs1) := a_run (a_init false None [[xc0]; [x00]] SEof 0 None false false)
                      [LSend 1 lk_connect [] true; LReceive; LSetTimeout; LSend 2 lk_mid [] true] in
  let '(sA, r) := cn_step detect_impl codec_decode s1 CClose in
  let b := b_recv 0 (bytewise (link_chunks sA)) SEof in
  healthy (c_enc s1) /\ rs1 = [CROk; CRPacket [xc0; x00] Pingreq; CRNone; CROk] /\ r = CROk /\
  map snd (laccepted [LSend 1 lk_connect [] true; LReceive; LSetTimeout; LSend 2 lk_mid [] true] rs1) = [lk_connect; lk_mid] /\
  b_packets b = [lk_connect; lk_mid] /\ a_err b = EEof.
Proof. vm_compute. repeat split. Qed.

(* the hypotheses are needed.
   (a) no flush at the end: accepted buffered packets are still in A's buffer, B sees nothing;
   (b) a packet beyond B's read limit: ErrReadLimitExceeded after the packets before it;
   (c) a packet that is not well-formed (SUBSCRIBE without subscriptions): Encode and Send
       succeed, B's Decode refuses the bytes *)
Example C19_link_hypotheses_needed :
  (let '(rsA, w, b) := link_run lk_a0 [LSend 1 lk_connect [] true; LSend 2 Disconnect [] true] one_chunk 0 SEof in
   rsA = [CROk; CROk] /\ w = [] /\ b_packets b = [] /\ a_err b = EEof) /\
  (let '(_, _, b) := link_run lk_a0 lk_script bytewise 1000 SEof in
   b_packets b = [lk_connect; lk_mid] /\ a_err b = EReadLimit) /\
  (let '(rsA, _, b) := link_run lk_a0 [LSend 1 Pingreq [] true; LSend 1 (Subscribe 5 []) [] false] one_chunk 0 SEof in
   wf (Subscribe 5 []) = false /\ rsA = [CROk; CROk] /\ b_packets b = [Pingreq] /\ a_err b = EDecode).
Proof. vm_compute. repeat split. Qed.
