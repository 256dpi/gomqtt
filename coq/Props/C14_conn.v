(* C14 — No client can crash or stall the broker or disturb any other client: the part
   that one broker connection (/repo/broker/client.go) contributes, "Every connection,
   however it ends, releases its resources: the backend is told about the termination
   exactly once for every connection it set up, and the connection's closed signal
   fires", stated over the connection model BC (Broker/Conn.v).  Only statements,
   `exact`, Print Assumptions.

   C14_lifecycle,       (trace clauses c14_lifecycle of Broker/ConnSpec2.v and, the official
   C14_lifecycle2       one, c14_lifecycle2 of Broker/ConnSpec5.v, for every trace the model accepts)  Per connection Terminate is called at
                        most once, only after authentication succeeded, and exactly once
                        before Closed for every connection the backend set up; nothing
                        of the connection (no receive, send, backend call) happens after
                        Closed; a new connection of the session starts only after Closed.

   C14_cleanup_enabled  "the closed signal fires", as quiescence safety of the model: in
                        every reachable state in which the three coroutines of the
                        connection have stopped (all_stopped) and the cleanup has not
                        begun, the first cleanup event is accepted from any goroutine
                        number new to the connection (such a number always exists): the
                        will's Publish when a will is due, else Terminate (whatever its
                        result), else -- the client never passed authentication --
                        Closed.  While the cleanup is under way its goroutine is known,
                        and unless that goroutine is still inside an acknowledgement
                        closure the backend invoked on it, its next event (return of the
                        will's Publish, the die-log after a failed call, Terminate,
                        Closed) is accepted, whatever the results.  Hence from every such
                        state EClosed is reachable within four further events.  The
                        model never refuses the cleanup, so an implementation trace in
                        which the cleanup does not happen is not explained by the model
                        "waiting for something".

   C14_dying_stops      Once the connection is dying (conn.Close was called) and no
                        goroutine is inside an acknowledgement closure, each of the
                        three coroutines is at one of three kinds of control points
                        (proc_kind / deq_kind / ack_kind, below):
                          KStop  it may have returned (proc_can_stop / deq_can_stop /
                                 ack_can_stop hold): done, or blocked in Receive /
                                 waiting for a token / idle, all of which the dying tomb
                                 interrupts;
                          KRet   it is inside a backend call (Authenticate, Setup,
                                 Restore, Subscribe, Unsubscribe, Publish; Dequeue) and
                                 its next event is the return of that call, which the
                                 model accepts (with either result where the result is
                                 a flag);
                          KOwn   its next event is an action of its own -- a send, a
                                 receive that fails on the closed connection, a session
                                 operation, issuing the next backend call, the die-log,
                                 closing the connection -- and the model accepts it,
                                 succeeding or failing (flag ok).
                        No control point waits for a packet from the peer or for a NEW
                        call by the backend.  (A coroutine waiting for a token is a KStop
                        point once dying; its "timeout" event is enabled only when no
                        token is free and is not needed here.) *)
From Coq Require Import List NArith Bool.
From Coq.Strings Require Import Byte.
From GM Require Import Base.Lts Codec.Packet Session.Store Broker.Conn Broker.ConnSpec Broker.ConnSpec2
  Broker.ConnSpec5 Broker.ConnProofsD0 Broker.ConnProofsD1 Broker.ConnProofsD2 Broker.ConnProofsD3 Broker.ConnProofsDTraces.
Import ListNotations.
Open Scope N_scope.

Theorem C14_lifecycle : forall es s, bc_run es = Some s -> c14_lifecycle es = true.
Proof. exact c14_lifecycle_holds. Qed.
Print Assumptions C14_lifecycle.

(* the official life-cycle clause: c14_lifecycle2 (Broker/ConnSpec5.v) is c14_lifecycle
   with "nothing of the connection happens after Closed" applied to a successful
   Authenticate / Setup as well -- in lc_step their patterns precede that line and
   escape it.  It implies the clause above on every trace. *)
Theorem C14_lifecycle2 : forall es s, bc_run es = Some s -> c14_lifecycle2 es = true.
Proof. exact c14_lifecycle2_holds. Qed.
Print Assumptions C14_lifecycle2.

Example C14_lifecycle2_differs :
  c14_lifecycle [EAuth 2 AOk] = true /\ c14_lifecycle2 [EAuth 2 AOk] = false /\
  c14_lifecycle2 (td_life ++ [ESetup 2 (SOk false false 1 1 1)]) = false /\
  c14_lifecycle2 td_life = true.
Proof. vm_compute. repeat split; reflexivity. Qed.

(* definitions used below (Broker/ConnProofsD2.v):
   cl_only s g       g is the cleanup goroutine of s, has no other role, is in no closure
   cl_next_start s g the first cleanup event by g is accepted:
                       ph = Connecting            EClosed                 -> lp = LEnd
                       ph = Connected, will = w   EPub g w None           -> lp = LWillR
                       otherwise                  ETerm g ok (any ok)     -> lp = LClosed / LTermDie
   cl_next_cont s g  the next cleanup event of g is accepted:
                       LWillR    EPubRet g ok (any ok)  -> LTerm / LWillDie
                       LWillDie  EDie g KBackend        -> LTerm
                       LTerm     ETerm g ok (any ok)    -> LClosed / LTermDie
                       LTermDie  EDie g KBackend        -> LClosed
   cl_ready s        LNone: all_stopped; LWillR..LTermDie: the cleanup goroutine is in no
                     closure; LClosed: always; LEnd: never *)
Theorem C14_cleanup_enabled : forall es s, bc_run es = Some s ->
  (exists g, role_free s g = true /\ in_closure s g = false) /\
  (lp s = LNone -> all_stopped s = true ->
   forall g, role_free s g = true -> in_closure s g = false -> cl_next_start s g) /\
  (match lp s with LWillR | LWillDie | LTerm | LTermDie => exists g, gcl s = Some g | _ => True end) /\
  (forall g, gcl s = Some g -> in_closure s g = false -> cl_next_cont s g) /\
  (lp s = LClosed -> exists s', step s EClosed = Some s' /\ lp s' = LEnd) /\
  (cl_ready s ->
   exists es' s', (length es' <= 3)%nat /\ Lts.run step s (es' ++ [EClosed]) = Some s' /\ lp s' = LEnd).
Proof. exact cleanup_enabled. Qed.
Print Assumptions C14_cleanup_enabled.

(* definitions used below (Broker/ConnProofsD2.v):
   clos_idle s         every closure is unregistered-or-done: no goroutine is inside one
   proc_next s g k ok  the processor's next event at its control point pp s (g its
                       goroutine, k an unused closure key, ok the outcome), None at a
                       stopping point;  deq_next, ack_next likewise
   proc_g s            the processor's goroutine (an unused number before its first event)
   ret_event e         e is the return of a backend call
   own_event e         e is an action of a goroutine of the connection itself *)
Theorem C14_dying_stops : forall es s, bc_run es = Some s ->
  dying s = true -> lp s = LNone -> clos_idle s = true ->
  forall ok,
  match proc_next s (proc_g s) (fresh_k s) ok with
  | Some e => ev_g e = Some (proc_g s) /\ (ret_event e = true <-> proc_kind (pp s) = KRet) /\
              (ret_event e = false -> own_event e = true) /\
              exists s', step s e = Some s' /\ gproc s' = Some (proc_g s)
  | None => proc_kind (pp s) = KStop /\ proc_can_stop s = true
  end /\
  match deq_next s (og (gdeq s)) ok with
  | Some e => ev_g e = Some (og (gdeq s)) /\ (ret_event e = true <-> deq_kind (dp s) = KRet) /\
              (ret_event e = false -> own_event e = true) /\
              exists s', step s e = Some s' /\ gdeq s' = Some (og (gdeq s))
  | None => deq_kind (dp s) = KStop /\ deq_can_stop s = true
  end /\
  match ack_next s (og (gack s)) with
  | Some e => ev_g e = Some (og (gack s)) /\ ret_event e = false /\ own_event e = true /\
              exists s', step s e = Some s' /\ gack s' = Some (og (gack s))
  | None => ack_kind (ap s) = KStop /\ ack_can_stop s = true
  end.
Proof. exact dying_stops. Qed.
Print Assumptions C14_dying_stops.

(* the same, read off per kind of control point *)
Theorem C14_dying_stops_summary : forall es s, bc_run es = Some s ->
  dying s = true -> lp s = LNone -> clos_idle s = true ->
  (proc_kind (pp s) = KStop -> proc_can_stop s = true) /\
  (deq_kind (dp s) = KStop -> deq_can_stop s = true) /\
  (ack_kind (ap s) = KStop -> ack_can_stop s = true) /\
  (proc_kind (pp s) <> KStop -> exists e s', step s e = Some s' /\ ev_g e = Some (proc_g s) /\
      (if ret_event e then proc_kind (pp s) = KRet else own_event e = true /\ proc_kind (pp s) = KOwn)) /\
  (deq_kind (dp s) <> KStop -> exists e s', step s e = Some s' /\ ev_g e = Some (og (gdeq s)) /\
      (if ret_event e then deq_kind (dp s) = KRet else own_event e = true /\ deq_kind (dp s) = KOwn)) /\
  (ack_kind (ap s) <> KStop -> exists e s', step s e = Some s' /\ ev_g e = Some (og (gack s)) /\
      ret_event e = false /\ own_event e = true).
Proof. exact dying_stops_summary. Qed.
Print Assumptions C14_dying_stops_summary.

(* the model invariant behind both progress statements: a goroutine has at most one
   role; the cleanup goroutine is known exactly while the cleanup is under way; a
   coroutine that is past its first step is known; the resend list is never empty *)
Theorem C14_model_invariant : forall es s, bc_run es = Some s -> inv s.
Proof. exact inv_reachable. Qed.
Print Assumptions C14_model_invariant.

(* ------------------------------------------------------------ non-vacuity *)

(* complete life cycles, accepted by the model: a lost client with a will (will
   published, Terminate, Closed), a first packet that is not CONNECT (Closed only), a
   failed Setup (Terminate once, its failure logged, Closed), a clean DISCONNECT *)
Example C14_witness_life :
  (exists s, bc_run td_life = Some s /\ lp s = LEnd) /\ c14_lifecycle td_life = true /\
  count_ev is_term td_life = 3%nat /\ count_ev is_closed td_life = 4%nat.
Proof.
  split; [eexists; split; [vm_compute; reflexivity|reflexivity]|].
  split; [apply td_clauses; do 4 right; left; reflexivity|]. destruct td_counts as (_ & _ & _ & _ & H). exact H.
Qed.

Example C14_lifecycle_rejects :
  c14_lifecycle td_bad_life1 = false /\ c14_lifecycle td_bad_life2 = false /\ c14_lifecycle td_bad_life3 = false.
Proof. destruct td_mutants_rejected as (_ & _ & _ & _ & _ & _ & H). exact H. Qed.

(* a reachable state that meets the hypotheses of C14_cleanup_enabled (all coroutines
   stopped, cleanup not begun, will due) and the run to EClosed from it *)
Definition td_stopped : list event :=
  td_open td_connw 2 2 false [] ++ [EDeqCall 3; ERxErr 2; EDie 2 KTransport; EConnClose 2; EDeqRet 3 QNone].

Example C14_witness_stopped :
  exists s, bc_run td_stopped = Some s /\ lp s = LNone /\ all_stopped s = true /\
            ph s = Connected /\ will s = Some td_will /\ role_free s 4 = true /\ in_closure s 4 = false /\
            exists s', Lts.run step s [EPub 4 td_will None; EPubRet 4 true; ETerm 4 true; EClosed] = Some s' /\ lp s' = LEnd.
Proof.
  eexists. split; [vm_compute; reflexivity|]. vm_compute. repeat split. eexists. split; reflexivity.
Qed.

(* reachable states that meet the hypotheses of C14_dying_stops: (1) Close() from outside
   while the processor is about to send PUBREC (KOwn) and the dequeuer is inside Dequeue
   (KRet); (2) the processor has died and closed the connection, the dequeuer is inside
   Dequeue, the acker idle (KStop) *)
Definition td_dying1 : list event :=
  td_open td_conn 2 2 false [] ++
  [EDeqCall 3; ERx 2 (Publish false td_q2 1); ESave 2 Incoming (Publish false td_q2 1) true; EConnClose 9].
Definition td_dying2 : list event :=
  td_open td_conn 2 2 false [] ++ [EDeqCall 3; ERxErr 2; EDie 2 KTransport; EConnClose 2].

Example C14_witness_dying :
  (exists s, bc_run td_dying1 = Some s /\ dying s = true /\ lp s = LNone /\ clos_idle s = true /\
             proc_kind (pp s) = KOwn /\ deq_kind (dp s) = KRet /\ ack_kind (ap s) = KStop /\
             proc_next s (proc_g s) (fresh_k s) true = Some (ETx 2 (Pubrec 1) true true)) /\
  (exists s, bc_run td_dying2 = Some s /\ dying s = true /\ lp s = LNone /\ clos_idle s = true /\
             proc_kind (pp s) = KStop /\ deq_kind (dp s) = KRet /\
             deq_next s (og (gdeq s)) true = Some (EDeqRet 3 QNone)).
Proof. split; (eexists; split; [vm_compute; reflexivity|]; vm_compute; repeat split). Qed.
