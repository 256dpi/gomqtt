(* C07 — "the publisher's handshake always terminates", the part one broker connection
   contributes, as statements about the state of the connection model BC (Broker/Conn.v)
   at quiescence (the model-state counterpart of the trace clause c07_pubrel_answered).
   Only statements, `exact`, Print Assumptions.

   pending_pubrels es   (Broker/ConnSpec5.v) the ids of the PUBRELs received on the
                        current connection for which no PUBCOMP has been sent yet, read
                        off the trace alone.
   awaits_ack s id c    (Broker/ConnProofsD4.v) c is a closure in the table of s, of the
                        current connection, of kind KPubcomp id, with status CReg:
                        handed to the backend with the Publish that PUBREL id
                        triggered, and not invoked yet.

   C07_pubrel_waits_for_ack   In every state in which the model accepts the quiescence
                        marker (the connection is alive, the processor is back in
                        Receive, the acker has nothing to send, no closure is running),
                        every pending PUBREL id has such a closure: the ONLY thing
                        standing between the publisher and its PUBCOMP is the backend's
                        acknowledgement of the publish (no lost PUBREL, no PUBCOMP stuck
                        in the connection).  Stated over traces (bc_run (es ++
                        [EQuiescent])) and over states (quiescent s = true).

   C07_ack_leads_to_pubcomp   ... and once the backend acknowledges -- on any goroutine
                        g -- nothing else is needed: the acknowledgement, the release
                        (delete) of the stored PUBLISH, the closure's return and the
                        acker's PUBCOMP id are accepted in a row, after which the ack
                        queue is empty again and id has left the pending list (once). *)
From Coq Require Import List NArith Bool.
From Coq.Strings Require Import Byte.
From GM Require Import Base.Lts Codec.Packet Session.Store Broker.Conn Broker.ConnSpec Broker.ConnSpec2
  Broker.ConnSpec5 Broker.ConnProofsD4 Broker.ConnProofsDTraces.
Import ListNotations.
Open Scope N_scope.

Theorem C07_pubrel_waits_for_ack : forall es s, bc_run (es ++ [EQuiescent]) = Some s ->
  forall id, In id (pending_pubrels es) ->
  exists c, In c (clos s) /\ c_conn c = conn_no s /\ c_kind c = KPubcomp id /\ c_stat c = CReg.
Proof. exact pubrel_waits_for_ack. Qed.
Print Assumptions C07_pubrel_waits_for_ack.

Theorem C07_pubrel_waits_for_ack_state : forall es s, bc_run es = Some s -> quiescent s = true ->
  forall id, In id (pending_pubrels es) -> exists c, awaits_ack s id c.
Proof. exact pubrel_waits_for_ack_state. Qed.
Print Assumptions C07_pubrel_waits_for_ack_state.

Theorem C07_ack_leads_to_pubcomp : forall es s, bc_run es = Some s -> quiescent s = true ->
  forall id c, awaits_ack s id c -> forall g,
  let tail := [EAckCall (c_k c) g; EDelete g Incoming id true; EAckRet (c_k c) g;
               ETx (ack_g s) (Pubcomp id) true true] in
  (exists s', Lts.run step s tail = Some s' /\ ackq s' = []) /\
  pending_pubrels (es ++ tail) = nremove1 id (pending_pubrels es).
Proof. exact ack_leads_to_pubcomp. Qed.
Print Assumptions C07_ack_leads_to_pubcomp.

(* ------------------------------------------------------------ non-vacuity *)

(* two QoS 2 handshakes have reached PUBREL and the backend withholds both
   acknowledgements: the state is quiescent, both ids are pending, their closures (keys
   11 and 12) are registered and not invoked; then the backend acknowledges id 2 on a
   goroutine of its own (9) and the PUBCOMP leaves; id 1 is still pending *)
Example C07_witness_withheld :
  exists s, bc_run (td_withheld ++ [EQuiescent]) = Some s /\ quiescent s = true /\
    pending_pubrels td_withheld = [2; 1] /\
    In (Clo 11 1 (KPubcomp 1) CReg) (clos s) /\ In (Clo 12 1 (KPubcomp 2) CReg) (clos s) /\ conn_no s = 1 /\
    ack_g s = 4 /\
    (exists s', Lts.run step s [EAckCall 12 9; EDelete 9 Incoming 2 true; EAckRet 12 9; ETx 4 (Pubcomp 2) true true] = Some s'
                /\ quiescent s' = true) /\
    pending_pubrels (td_withheld ++ [EAckCall 12 9; EDelete 9 Incoming 2 true; EAckRet 12 9; ETx 4 (Pubcomp 2) true true]) = [1].
Proof.
  eexists. split; [vm_compute; reflexivity|]. vm_compute. repeat split; try tauto. eexists. split; reflexivity.
Qed.

(* the complete flow td_in_q2 (backend acknowledges inside Publish): nothing pending at
   its quiescence marker *)
Example C07_witness_none_pending :
  pending_pubrels (td_open td_conn 2 10 false [] ++
    [EDeqCall 3; ERx 2 (Publish false td_q2 1); ESave 2 Incoming (Publish false td_q2 1) true; ETx 2 (Pubrec 1) true true;
     ERx 2 (Pubrel 1); ELookup 2 Incoming 1 (LRes (Some (Publish false td_q2 1)));
     EPub 2 td_q2 (Some 1); EAckCall 1 2; EDelete 2 Incoming 1 true; EAckRet 1 2; EPubRet 2 true;
     ETx 4 (Pubcomp 1) true true]) = [].
Proof. vm_compute. reflexivity. Qed.
