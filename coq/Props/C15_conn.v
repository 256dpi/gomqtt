(* C15 — Per-publisher message order is preserved end to end, including
   retransmissions: the part that one broker connection (/repo/broker/client.go)
   contributes, stated over the traces of the connection model BC (Broker/Conn.v)
   by the clauses of Broker/ConnSpec2.v.  Only statements, `exact`, Print Assumptions.

   What each clause means for C15:

   C15_in_order        Inbound direction.  One processor goroutine per connection
                       handles the packets in arrival order; every backend Publish it
                       issues is for the packet it received LAST (a QoS 0/1 PUBLISH
                       with exactly that message, or the PUBREL releasing a stored
                       QoS 2 message), and at most one per received packet.  Hence the
                       messages of one publisher at one QoS level reach the backend
                       (whose global mutex orders the fan-out, Broker/Backend.v) in
                       the order in which they were published.

   C15_release_intact  The message handed to the backend for PUBREL id is exactly the
                       message of the PUBLISH stored under id (topic, payload, qos,
                       retain as stored): the QoS 2 detour through the session store
                       neither reorders nor alters what is delivered.

   C15_dequeue_order   Outbound direction.  The single dequeuer goroutine forwards in
                       dequeue order: between two dequeues it sends exactly one fresh
                       PUBLISH, carrying the dequeued message; so a subscriber is sent
                       the messages in the order of its session queue.

   C15_resend_order    "Packets retransmitted after a session is resumed are sent in
                       the order of their original transmission": what the session
                       lists on resume is in the order in which the ids were first
                       saved; a PUBREL that replaced its PUBLISH keeps the place.
                       (c08_resend, property C08, says the list is then re-sent in
                       exactly that order before anything new is dequeued.)  The
                       theorem is about the model's list store (Session/Store.v,
                       first-save order); that the Go PacketStore lists in this order
                       is what the session check (C18) and the brokerconn check
                       compare on the implementation. *)
From Coq Require Import List NArith Bool.
From Coq.Strings Require Import Byte.
From GM Require Import Base.Lts Codec.Packet Session.Store Broker.Conn Broker.ConnSpec Broker.ConnSpec2
  Broker.ConnSpec5 Broker.ConnProofsD0 Broker.ConnProofsD1 Broker.ConnProofsD5 Broker.ConnProofsDTraces.
Import ListNotations.
Open Scope N_scope.

Theorem C15_in_order : forall es s, bc_run es = Some s -> c15_in_order es = true.
Proof. exact c15_in_order_holds. Qed.
Print Assumptions C15_in_order.

Theorem C15_release_intact : forall es s, bc_run es = Some s -> c15_release_intact es = true.
Proof. exact c15_release_intact_holds. Qed.
Print Assumptions C15_release_intact.

Theorem C15_resend_order : forall es s, bc_run es = Some s -> c15_resend_order es = true.
Proof. exact c15_resend_order_holds. Qed.
Print Assumptions C15_resend_order.

Theorem C15_dequeue_order : forall es s, bc_run es = Some s -> c15_dequeue_order es = true.
Proof. exact c15_dequeue_order_holds. Qed.
Print Assumptions C15_dequeue_order.

(* C15_resend_first (clause c15_resend_first of Broker/ConnSpec5.v): retransmissions come
   first.  On every connection, from the successful Setup until Restore -- while the stored
   outgoing packets are listed and re-sent -- nothing is dequeued (no EDeqCall / EDeqRet) and
   nothing is sent except, by the processor, the CONNACK and then exactly the listed packets
   (PUBLISH with dup set, PUBREL) in listing order; Restore only when the list is exhausted.
   With C15_resend_order (the list is in original-transmission order) and C15_dequeue_order
   this is "packets retransmitted after a session is resumed are sent in the order of their
   original transmission", ahead of anything published while the subscriber was offline. *)
Theorem C15_resend_first : forall es s, bc_run es = Some s -> c15_resend_first es = true.
Proof. exact c15_resend_first_holds. Qed.
Print Assumptions C15_resend_first.

(* the resume witness satisfies it; a fresh PUBLISH overtaking the retransmission, a
   re-send out of listing order and an early Restore are rejected (by the model too) *)
Example C15_resend_first_witness :
  (exists s, bc_run td_resume = Some s) /\ c15_resend_first td_resume = true /\
  c15_resend_first td_bad_rf_overtake = false /\ c15_resend_first td_bad_rf_order = false /\
  c15_resend_first td_bad_rf_early = false /\ c15_dequeue_order td_bad_rf_overtake = true.
Proof. split; [apply td_accepted; do 3 right; left; reflexivity|]. vm_compute. repeat split; reflexivity. Qed.

(* ------------------------------------------------------------ non-vacuity *)

(* inbound QoS 0 / QoS 1 / QoS 1 flows, each ending in a backend Publish: accepted,
   three Publish calls *)
Example C15_witness_qos1 :
  (exists s, bc_run td_in_q1 = Some s) /\ count_ev is_pub td_in_q1 = 3%nat /\ c15_in_order td_in_q1 = true.
Proof.
  split; [apply td_accepted; left; reflexivity|]. split; [apply td_counts|apply td_clauses; left; reflexivity].
Qed.

(* inbound QoS 2 flow (PUBLISH, duplicate PUBLISH, PUBREL, release, PUBCOMP; a second
   PUBREL for the released id): accepted, exactly one backend Publish *)
Example C15_witness_qos2 :
  (exists s, bc_run td_in_q2 = Some s) /\ count_ev is_pub td_in_q2 = 1%nat /\
  c15_in_order td_in_q2 = true /\ c15_release_intact td_in_q2 = true.
Proof.
  split; [apply td_accepted; right; left; reflexivity|]. split; [vm_compute; reflexivity|].
  split; apply td_clauses; right; left; reflexivity.
Qed.

(* three deliveries (QoS 1, 0, 2) in dequeue order *)
Example C15_witness_dequeue :
  (exists s, bc_run td_deq = Some s) /\ count_ev is_deqmsg td_deq = 3%nat /\ c15_dequeue_order td_deq = true.
Proof.
  split; [apply td_accepted; do 2 right; left; reflexivity|].
  split; [apply td_counts|apply td_clauses; do 2 right; left; reflexivity].
Qed.

(* a resume that lists two stored packets in first-save order, the first one a PUBREL
   that replaced its PUBLISH; what is listed is exactly [PUBREL 1; PUBLISH 2] *)
Example C15_witness_resume :
  (exists s, bc_run td_resume = Some s) /\ c15_resend_order td_resume = true /\
  In (EAll 5 Outgoing (Some [Pubrel 1; Publish false td_q1 2])) td_resume /\
  In (ESave 3 Outgoing (Publish false td_q2 1) true) td_resume /\
  In (ESave 2 Outgoing (Pubrel 1) true) td_resume.
Proof.
  split; [apply td_accepted; do 3 right; left; reflexivity|].
  split; [apply td_clauses; do 3 right; left; reflexivity|].
  unfold td_resume. repeat split; repeat (apply in_or_app; first [left; cbn; tauto|right]); cbn; tauto.
Qed.

(* the clauses do reject: wrong message, two Publishes for one packet, altered release,
   listing out of first-save order, a dequeue before the previous message was sent, a
   PUBLISH carrying another message *)
Example C15_clauses_reject :
  c15_in_order td_bad_order = false /\ c15_in_order td_bad_twice = false /\
  c15_release_intact td_bad_release = false /\ c15_resend_order td_bad_resend = false /\
  c15_dequeue_order td_bad_deq = false /\ c15_dequeue_order td_bad_deq2 = false.
Proof. destruct td_mutants_rejected as (A & B & C & D & E & F & _). repeat split; assumption. Qed.
