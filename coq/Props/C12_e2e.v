(* C12 — Will is published exactly once iff an accepted client ends without DISCONNECT — END TO END:
   the connection clause (Props/C12.v: c12_will, "the connection hands the will to the backend exactly once iff ...")
   and the backend theorems (Props/C06.v, Props/C11.v: a Publish is delivered to the sessions matching at that moment,
   the retained store is updated; a closing publisher is never refused) composed over a whole run

       will owner's connection esW (model BC) -> backend history ops (model MB) -> subscriber's connection esS (model BC)

   with the glue of Props/C15_e2e.v (glue_publish, glue_dequeue: the backend calls seen in the connection traces ARE
   the operations of the history).  Definitions: Broker/WillE2E.v; proofs: Broker/WillE2EProofs.v.  Only statements,
   `exact`, Print Assumptions, and non-vacuity examples.

   Read off the connection trace, in the vocabulary of c12_will (wl_st), for the LAST connection of the trace:
     will_of, connect_accepted (Setup succeeded), disconnected (DISCONNECT received), ended (EClosed),
     ended_uncleanly = ended and not disconnected, will_due = the will if accepted and ended uncleanly,
     will_pubs = number of Publish calls of the connection's cleanup, closing = its transport was closed.

   C12_e2e_will_once    a will m is due.  Then for a position esW = es1 ++ [EPub g m None] ++ es2:
       (a) will_handed_once: that event is the ONLY Publish of the connection's cleanup (will_pubs 0 before, 1 at the
           end), with exactly the message m; it happens when the transport has been closed (the connection is dying)
           and after the connection's last ordinary Publish: nothing is handed to the backend afterwards;
       (b) if the call has returned in the history (will_returned), it is the last returned Publish x of the clients
           cPs there, by a client of cPs with message m, and will_step_spec m x holds: the call returns nil or
           ErrQueueFull; on nil every session gets on the queue of the will's QoS class exactly one copy — topic,
           payload, QoS as published, retain flag cleared (capped to the granted QoS when dequeued: C06_qos) — iff it
           holds a matching filter AT THAT STEP and that queue has room, and the retained store is updated iff m is
           retained (ret_spec).  If it has not returned, all returned Publishes of cPs are ordinary ones.
           THE EXCEPTIONS, as the backend model has them:
           - a session with a matching filter whose queue is FULL gets nothing, and that happens on nil only if the
             session is offline or its connection is closing (st_dying) — including the dying publisher's OWN session
             (fix d814c38 / 25be3de, DESIGN.md 12.4 D22: a closing publisher's own full queue is skipped, not refused);
           - ErrQueueFull is returned exactly when own_full: the backend does NOT see the publisher as closing, its
             own session matches and its own queue is full — then nothing at all happens: no delivery, no retained
             update.  MB marks a connection as closing (st_dying) only when the backend itself closes it (takeover,
             backend Close); it has no operation for a connection that dies by itself, although in the Go code
             client.Closing() has fired whenever the cleanup publishes the will.  So "the will is never refused" needs
             the further glue condition "mem_n c (st_dying st) = true at the will's step", which will_step_spec
             offers as a premise (then r = ROk): see C12_e2e_own_queue_full and the two example histories;
       (c) the subscriber's connection forwards the will's content as a fresh PUBLISH at most as often as x enqueued it
           for session k (at most once) plus as often as the rest of the history did (elsewhere: the same content
           published otherwise, retained replays to k); every fresh PUBLISH it sends is one it dequeued, intact and
           QoS-capped from one enqueued for k.
   C12_e2e_will_at_most_once   (c) when nothing else brings that content to k (will_fresh, decidable): at most ONE
                        fresh PUBLISH with the will's topic and payload on the subscriber's wire.
   C12_e2e_will_never   the connection has ended after a received DISCONNECT, or its CONNECT was not accepted
                        (authentication denied or failed, Setup failed): no will is due, the cleanup has handed nothing
                        to the backend (every Publish without closure on the connection was the processor's), and — with
                        the glue — every returned Publish of the clients cPs in the history IS one EPub of the trace,
                        none of which (on that connection) is the cleanup's: no operation publishes the will.
   C12_will_link        the clause will_link (c12_will + c20_closes + "a Publish only before the cleanup's", "the
                        cleanup publishes only after the transport was closed", "after EClosed only closures run") holds
                        of every trace BC accepts; C12_e2e_conn_once / C12_e2e_conn_never are (a) and "never" from the
                        clause alone, so that they apply to traces observed on the implementation.
   C12_e2e_backend_step the backend part (b) for any returned Publish of any history. *)
From Coq Require Import List NArith Bool.
From Coq.Strings Require Import Byte.
From GM Require Import Base.Lts Codec.Packet Session.Store Broker.Conn Broker.ConnSpec Broker.ConnSpec6
  Broker.ConnProofsDTraces
  Broker.EndToEnd Broker.WillE2E Broker.WillE2EProofs.
(* the backend model is used qualified (Backend.v and Conn.v both define step / state / session) *)
From GM Require Broker.Backend Broker.BackendSpec Broker.BackendProofsHist Broker.BackendLog.
Import ListNotations.
Open Scope N_scope.

Theorem C12_e2e_will_once : forall cap ops cPs k esW esS sW sS m,
  bc_run esW = Some sW -> bc_run esS = Some sS ->
  BackendLog.names_ok ops = true ->
  glue_publish cPs esW (history cap ops) ->
  glue_dequeue k esS (history cap ops) ->
  will_due esW = Some m ->
  exists es1 g es2,
    will_handed_once esW m es1 g es2 /\
    (will_returned cPs esW (history cap ops) ->
       exists tr1 x tr2,
         history cap ops = tr1 ++ x :: tr2 /\
         pub_call_of cPs x = Some m /\ pub_calls cPs tr1 = published es1 /\ pub_calls cPs tr2 = [] /\
         will_step_spec m x /\
         (length (will_copies k x) <= 1)%nat /\
         (count_key (m_topic m) (m_payload m) (forwarded esS) <=
            length (will_copies k x) + elsewhere k (m_topic m) (m_payload m) tr1 tr2)%nat) /\
    (~ will_returned cPs esW (history cap ops) ->
       prefix_of (pub_calls cPs (history cap ops)) (published es1)) /\
    (forall y, In y (forwarded esS) ->
       In y (dequeued esS) /\ exists temp z, In z (enqueued k temp (history cap ops)) /\ capped y z).
Proof. exact will_e2e_once. Qed.
Print Assumptions C12_e2e_will_once.

Theorem C12_e2e_will_at_most_once : forall cap ops cPs k esW esS sW sS m,
  bc_run esW = Some sW -> bc_run esS = Some sS ->
  BackendLog.names_ok ops = true ->
  glue_publish cPs esW (history cap ops) ->
  glue_dequeue k esS (history cap ops) ->
  will_due esW = Some m ->
  will_returned cPs esW (history cap ops) ->
  will_fresh cPs k m (history cap ops) = true ->
  (count_key (m_topic m) (m_payload m) (forwarded esS) <= 1)%nat.
Proof. exact will_e2e_at_most_once. Qed.
Print Assumptions C12_e2e_will_at_most_once.

Theorem C12_e2e_will_never : forall esW sW,
  bc_run esW = Some sW -> ended esW = true ->
  disconnected esW = true \/ connect_accepted esW = false ->
  will_due esW = None /\ will_pubs esW = 0 /\
  (forall es1 g m' es2, esW = es1 ++ EPub g m' None :: es2 -> ~ In ENewConn es2 -> by_cleanup es1 g = false) /\
  (forall cap ops cPs, glue_publish cPs esW (history cap ops) ->
     forall tr1 x tr2 m', history cap ops = tr1 ++ x :: tr2 -> pub_call_of cPs x = Some m' ->
       exists es1 g ko es2, esW = es1 ++ EPub g m' ko :: es2 /\ published es1 = pub_calls cPs tr1 /\
         (~ In ENewConn es2 -> ko = None -> by_cleanup es1 g = false)).
Proof. exact will_e2e_never. Qed.
Print Assumptions C12_e2e_will_never.

(* the own-full-queue exception of the backend model, for the publisher's own session *)
Theorem C12_e2e_own_queue_full : forall cap ops st c m got r st1 k s,
  BackendLog.names_ok ops = true ->
  In (st, Backend.OPublish c m got, r, st1) (history cap ops) -> returned r = true ->
  Backend.session_of st c = Some (k, s) ->
  BackendSpec.has_match (Backend.s_subs s) (m_topic m) = true ->
  Backend.is_full (Backend.st_cap st) (BackendLog.queue (Backend.use_temp m) s) = true ->
  (Backend.mem_n c (Backend.st_dying st) = true ->
     r = Backend.ROk /\ will_copies k (st, Backend.OPublish c m got, r, st1) = []) /\
  (Backend.mem_n c (Backend.st_dying st) = false -> r = Backend.RQueueFull /\ st1 = st).
Proof. exact will_own_queue_full. Qed.
Print Assumptions C12_e2e_own_queue_full.

(* the stages *)
Theorem C12_will_link : forall es s, bc_run es = Some s -> will_link es = true.
Proof. exact will_link_holds. Qed.
Print Assumptions C12_will_link.

Theorem C12_e2e_conn_once : forall es m,
  will_link es = true -> hd_error es = Some ENewConn -> will_due es = Some m ->
  exists es1 g es2, will_handed_once es m es1 g es2.
Proof. exact will_once_conn. Qed.
Print Assumptions C12_e2e_conn_once.

Theorem C12_e2e_conn_never : forall es,
  will_link es = true -> ended es = true -> will_due es = None ->
  will_pubs es = 0 /\
  forall es1 g m' es2, es = es1 ++ EPub g m' None :: es2 -> ~ In ENewConn es2 -> by_cleanup es1 g = false.
Proof. exact will_never_conn. Qed.
Print Assumptions C12_e2e_conn_never.

Theorem C12_e2e_backend_step : forall cap ops st c m got r st1,
  BackendLog.names_ok ops = true ->
  In (st, Backend.OPublish c m got, r, st1) (history cap ops) -> returned r = true ->
  will_step_spec m (st, Backend.OPublish c m got, r, st1).
Proof. exact MB.will_step_holds. Qed.
Print Assumptions C12_e2e_backend_step.

(* ------------------------------------------------------------ non-vacuity: a composed run with a will *)

(* The will: topic "w/1", payload "x", QoS 1, retain.  Its owner (client 3 of the backend, client id "c") publishes a
   QoS 0 message on "t", then its peer vanishes: the cleanup publishes the will, terminates, closes. *)
Definition ex_w : message := Msg [x77; x2f; x31] [x78] 1 true.
Definition ex_cw : connect := Conn [x63] 0 [] [] true (Some ex_w) 4.
Definition ex_will_conn : list event :=
  [ENewConn; ERx 2 (Connect ex_cw); EAuth 2 AOk; ESetup 2 (SOk false false 10 10 10);
   ETx 2 (Connack false 0) false true; EAll 2 Outgoing (Some []); ERestore 2 true; EDeqCall 3;
   ERx 2 (Publish false td_q0 0); EPub 2 td_q0 None; EPubRet 2 true;
   ERxErr 2; EDie 2 KTransport; EConnClose 2; EDeqRet 3 QNone;
   EPub 4 ex_w None; EPubRet 4 true; ETerm 4 true; EClosed].

(* The backend: session "s" (client 1) holds "w/#" at QoS 0, session "o" (client 2) holds "t" at QoS 1 — it does not
   match the will's topic; client 3's two Publishes; then the Dequeues of the two sessions. *)
Definition ex_will_ops : list Backend.op :=
  [Backend.OSetup 1 [x73] false; Backend.OSubscribe 1 [([x77; x2f; x23], 0)] [[]];
   Backend.OSetup 2 [x6f] false; Backend.OSubscribe 2 [([x74], 1)] [[]];
   Backend.OSetup 3 [x63] true;
   Backend.OPublish 3 td_q0 []; Backend.OPublish 3 ex_w []; Backend.OTerminate 3;
   Backend.ODequeue 1 false; Backend.ODequeue 1 false; Backend.ODequeue 2 true; Backend.ODequeue 2 false].
Definition ex_kA : Backend.skey := Backend.KStored [x73].
Definition ex_kB : Backend.skey := Backend.KStored [x6f].

(* The subscriber "s": it dequeues the will — retain flag cleared, QoS capped to the granted 0 — and forwards it. *)
Definition ex_w0 : message := Msg [x77; x2f; x31] [x78] 0 false.
Definition ex_will_sub : list event :=
  td_open td_conn 2 10 false [] ++
  [EDeqCall 3; EDeqRet 3 (QMsg ex_w0 false); ETx 3 (Publish false ex_w0 0) true true;
   EDeqCall 3; EQuiescent] ++ td_lost 2 3 4.

(* the composed run satisfies every hypothesis of C12_e2e_will_once and of C12_e2e_will_at_most_once *)
Example C12_e2e_witness :
  (exists s, bc_run ex_will_conn = Some s) /\ (exists s, bc_run ex_will_sub = Some s) /\
  BackendLog.names_ok ex_will_ops = true /\
  glue_publish [3] ex_will_conn (history 10 ex_will_ops) /\
  glue_dequeue ex_kA ex_will_sub (history 10 ex_will_ops) /\
  will_due ex_will_conn = Some ex_w /\
  will_returned [3] ex_will_conn (history 10 ex_will_ops) /\
  will_fresh [3] ex_kA ex_w (history 10 ex_will_ops) = true /\
  will_of ex_will_conn = Some ex_w /\ connect_accepted ex_will_conn = true /\ disconnected ex_will_conn = false /\
  ended_uncleanly ex_will_conn = true /\ will_pubs ex_will_conn = 1 /\
  published ex_will_conn = [td_q0; ex_w] /\ pub_calls [3] (history 10 ex_will_ops) = [td_q0; ex_w] /\
  forwarded ex_will_sub = [ex_w0].
Proof.
  split; [vm_compute; eexists; reflexivity|]. split; [vm_compute; eexists; reflexivity|].
  split; [vm_compute; reflexivity|].
  split; [exists []; vm_compute; reflexivity|]. split; [exists []; vm_compute; reflexivity|].
  vm_compute. repeat split; reflexivity.
Qed.

(* ... and so the theorems apply: at most one fresh PUBLISH with the will's content on the subscriber's wire *)
Example C12_e2e_witness_once :
  (count_key (m_topic ex_w) (m_payload ex_w) (forwarded ex_will_sub) <= 1)%nat /\
  exists es1 g es2, will_handed_once ex_will_conn ex_w es1 g es2.
Proof.
  destruct C12_e2e_witness as ((sW & HW) & (sS & HS) & Hn & Gp & Gd & Hd & Hr & Hf & _).
  split.
  - exact (C12_e2e_will_at_most_once 10 ex_will_ops [3] ex_kA ex_will_conn ex_will_sub sW sS ex_w HW HS Hn Gp Gd Hd Hr Hf).
  - destruct (C12_e2e_will_once 10 ex_will_ops [3] ex_kA ex_will_conn ex_will_sub sW sS ex_w HW HS Hn Gp Gd Hd)
      as (es1 & g & es2 & Ha & _).
    exists es1, g, es2. exact Ha.
Qed.

(* what the run shows, computed: (a) the position of the will's Publish — after the transport was closed, the last
   thing handed to the backend; (b) the will's step is the 7th of the history: it returns nil, session "s" (matching
   filter) gets exactly one copy on the stored queue, session "o" (no matching filter) and the owner's own session
   (no subscription) get none, the retained store holds the will afterwards; (c) the subscriber forwards it once,
   capped to QoS 0, and the copy count bounds it: 1 <= 1 + 0 *)
Example C12_e2e_witness_values :
  will_handed_once ex_will_conn ex_w (firstn 15 ex_will_conn) 4 (skipn 16 ex_will_conn) /\
  closing (firstn 13 ex_will_conn) = false /\ closing (firstn 14 ex_will_conn) = true /\
  match nth_error (history 10 ex_will_ops) 6 with
  | Some (st, o, r, st1) =>
      o = Backend.OPublish 3 ex_w [] /\ r = Backend.ROk /\
      will_copies ex_kA (st, o, r, st1) = [live ex_w] /\
      BackendLog.enq_event ex_kA false st o r = [live ex_w] /\ BackendLog.enq_event ex_kA true st o r = [] /\
      will_copies ex_kB (st, o, r, st1) = [] /\ will_copies (Backend.KTemp 3) (st, o, r, st1) = [] /\
      Backend.mem_n 3 (Backend.st_dying st) = false /\ BackendSpec.own_full st 3 ex_w = false /\
      Backend.st_retained st = [] /\ Backend.st_retained st1 = [([x77; x2f; x31], ex_w)] /\
      elsewhere ex_kA (m_topic ex_w) (m_payload ex_w) (firstn 6 (history 10 ex_will_ops)) (skipn 7 (history 10 ex_will_ops)) = 0%nat
  | None => False
  end /\
  deq_results ex_kA (history 10 ex_will_ops) = [ex_w0] /\ capped ex_w0 ex_w /\
  deq_results ex_kB (history 10 ex_will_ops) = [td_q0] /\
  count_key (m_topic ex_w) (m_payload ex_w) (forwarded ex_will_sub) = 1%nat.
Proof.
  split.
  - unfold will_handed_once. split; [vm_compute; reflexivity|].
    split; [vm_compute; reflexivity|]. split; [vm_compute; reflexivity|]. split; [vm_compute; reflexivity|].
    split; [vm_compute; reflexivity|]. split; [vm_compute; reflexivity|].
    vm_compute. intros H. repeat (destruct H as [H|H]; [discriminate H|]). exact H.
  - vm_compute. repeat split; try reflexivity; discriminate.
Qed.

(* ------------------------------------------------------------ non-vacuity: DISCONNECT, authentication denied *)

(* the same client sends DISCONNECT: no will, although one was announced; the backend history of its connection shows
   no Publish of client 3 at all *)
Definition ex_disc_conn : list event :=
  [ENewConn; ERx 2 (Connect ex_cw); EAuth 2 AOk; ESetup 2 (SOk false false 10 10 10);
   ETx 2 (Connack false 0) false true; EAll 2 Outgoing (Some []); ERestore 2 true; EDeqCall 3;
   ERx 2 (Publish false td_q0 0); EPub 2 td_q0 None; EPubRet 2 true;
   ERx 2 Disconnect; EConnClose 2; EDeqRet 3 QNone; ETerm 4 true; EClosed].
Definition ex_disc_ops : list Backend.op :=
  [Backend.OSetup 1 [x73] false; Backend.OSubscribe 1 [([x77; x2f; x23], 0)] [[]];
   Backend.OSetup 3 [x63] true; Backend.OPublish 3 td_q0 []; Backend.OTerminate 3;
   Backend.ODequeue 1 false; Backend.ODequeue 1 true].
(* the CONNECT is refused: not authorised *)
Definition ex_deny_conn : list event :=
  [ENewConn; ERx 2 (Connect ex_cw); EAuth 2 ADeny; ETx 2 (Connack false 5) false true; EDie 2 KClient; EConnClose 2; EClosed].

Example C12_e2e_witness_never :
  (exists s, bc_run ex_disc_conn = Some s) /\ ended ex_disc_conn = true /\ disconnected ex_disc_conn = true /\
  will_of ex_disc_conn = Some ex_w /\ connect_accepted ex_disc_conn = true /\
  BackendLog.names_ok ex_disc_ops = true /\ glue_publish [3] ex_disc_conn (history 10 ex_disc_ops) /\
  published ex_disc_conn = [td_q0] /\ pub_calls [3] (history 10 ex_disc_ops) = [td_q0] /\
  deq_results ex_kA (history 10 ex_disc_ops) = [] /\
  Backend.st_retained (Backend.run_state (Backend.init 10) ex_disc_ops) = [] /\
  (exists s, bc_run ex_deny_conn = Some s) /\ ended ex_deny_conn = true /\ connect_accepted ex_deny_conn = false /\
  will_of ex_deny_conn = Some ex_w /\ published ex_deny_conn = [].
Proof.
  split; [vm_compute; eexists; reflexivity|]. split; [vm_compute; reflexivity|]. split; [vm_compute; reflexivity|].
  split; [vm_compute; reflexivity|]. split; [vm_compute; reflexivity|]. split; [vm_compute; reflexivity|].
  split; [exists []; vm_compute; reflexivity|].
  split; [vm_compute; reflexivity|]. split; [vm_compute; reflexivity|]. split; [vm_compute; reflexivity|].
  split; [vm_compute; reflexivity|].
  split; [vm_compute; eexists; reflexivity|]. vm_compute. repeat split; reflexivity.
Qed.

(* ... and so C12_e2e_will_never applies to both: no will is due, the cleanup published nothing *)
Example C12_e2e_witness_never_applies :
  will_due ex_disc_conn = None /\ will_pubs ex_disc_conn = 0 /\
  will_due ex_deny_conn = None /\ will_pubs ex_deny_conn = 0.
Proof.
  destruct C12_e2e_witness_never as ((s1 & H1) & E1 & D1 & _ & _ & _ & _ & _ & _ & _ & _ & (s2 & H2) & E2 & A2 & _).
  destruct (C12_e2e_will_never ex_disc_conn s1 H1 E1 (or_introl D1)) as (X1 & X2 & _).
  destruct (C12_e2e_will_never ex_deny_conn s2 H2 E2 (or_intror A2)) as (Y1 & Y2 & _).
  repeat split; assumption.
Qed.

(* ------------------------------------------------------------ the own-full-queue exception, on two histories *)

(* SessionQueueSize 1.  The will's owner (client 3, id "c") itself holds "w/#", and so does session "s" (client 1).
   A message on "w/0" fills both stored queues; "s" drains its queue, the owner does not.  Then the will.
   (1) The connection died by itself: MB does not see client 3 as closing, the pre-check refuses the will with
       ErrQueueFull and nothing happens — "s" does not get it, it is not retained.  (In the Go code client.Closing()
       has fired by then and the call is accepted as in (2): MB has no operation for a connection closing itself.)
   (2) The connection was taken over (Setup of client 4 with the same id closes client 3: st_dying): the will is
       accepted, the owner's own full queue is skipped, "s" gets its copy, the will is retained. *)
Definition ex_y : message := Msg [x77; x2f; x30] [x79] 1 false.
Definition ex_full_ops (takeover : bool) : list Backend.op :=
  [Backend.OSetup 3 [x63] false; Backend.OSubscribe 3 [([x77; x2f; x23], 1)] [[]];
   Backend.OSetup 1 [x73] false; Backend.OSubscribe 1 [([x77; x2f; x23], 1)] [[]];
   Backend.OPublish 9 ex_y []; Backend.ODequeue 1 false] ++
  (if takeover then [Backend.OSetup 4 [x63] false] else []) ++
  [Backend.OPublish 3 ex_w []; Backend.OTerminate 3; Backend.OMarkClosed 3] ++
  (if takeover then [Backend.OSetupEnd false] else []) ++
  [Backend.ODequeue 1 false].
Definition ex_kC : Backend.skey := Backend.KStored [x63].

Example C12_e2e_own_queue_full_refused :
  BackendLog.names_ok (ex_full_ops false) = true /\
  match nth_error (history 1 (ex_full_ops false)) 6 with
  | Some (st, o, r, st1) =>
      o = Backend.OPublish 3 ex_w [] /\
      (exists s, Backend.session_of st 3 = Some (ex_kC, s) /\
                 BackendSpec.has_match (Backend.s_subs s) (m_topic ex_w) = true /\
                 Backend.is_full (Backend.st_cap st) (BackendLog.queue (Backend.use_temp ex_w) s) = true) /\
      Backend.mem_n 3 (Backend.st_dying st) = false /\
      r = Backend.RQueueFull /\ st1 = st /\
      will_copies ex_kA (st, o, r, st1) = [] /\ will_copies ex_kC (st, o, r, st1) = []
  | None => False
  end /\
  Backend.st_retained (Backend.run_state (Backend.init 1) (ex_full_ops false)) = [] /\
  deq_results ex_kA (history 1 (ex_full_ops false)) = [ex_y].
Proof.
  split; [vm_compute; reflexivity|]. split; [|vm_compute; split; reflexivity].
  (* only the step is evaluated: under the binder of s, has_match would be left as its normal form, the byte tables unfolded *)
  vm_compute (nth_error _ _). cbv beta iota.
  split; [reflexivity|]. split; [eexists; repeat split; reflexivity|]. repeat split; reflexivity.
Qed.

Example C12_e2e_own_queue_full_skipped :
  BackendLog.names_ok (ex_full_ops true) = true /\
  match nth_error (history 1 (ex_full_ops true)) 7 with
  | Some (st, o, r, st1) =>
      o = Backend.OPublish 3 ex_w [] /\
      (exists s, Backend.session_of st 3 = Some (ex_kC, s) /\
                 BackendSpec.has_match (Backend.s_subs s) (m_topic ex_w) = true /\
                 Backend.is_full (Backend.st_cap st) (BackendLog.queue (Backend.use_temp ex_w) s) = true) /\
      Backend.mem_n 3 (Backend.st_dying st) = true /\
      r = Backend.ROk /\
      will_copies ex_kA (st, o, r, st1) = [live ex_w] /\ will_copies ex_kC (st, o, r, st1) = []
  | None => False
  end /\
  Backend.st_retained (Backend.run_state (Backend.init 1) (ex_full_ops true)) = [([x77; x2f; x31], ex_w)] /\
  deq_results ex_kA (history 1 (ex_full_ops true)) = [ex_y; live ex_w].
Proof.
  split; [vm_compute; reflexivity|]. split; [|vm_compute; split; reflexivity].
  vm_compute (nth_error _ _). cbv beta iota.
  split; [reflexivity|]. split; [eexists; repeat split; reflexivity|]. repeat split; reflexivity.
Qed.

(* the clause will_link rejects what it should: a will published while the transport is open; an ordinary Publish after
   the will; anything of the connection after EClosed — and a second will, a will after DISCONNECT (c12_will);
   it holds of the observed life cycles *)
Example C12_e2e_clause_discriminates :
  let pro := [ENewConn; ERx 2 (Connect ex_cw); EAuth 2 AOk; ESetup 2 (SOk false false 10 10 10)] in
  will_link (pro ++ [EPub 4 ex_w None]) = false /\
  will_link (pro ++ [EConnClose 5; EPub 4 ex_w None; EPub 2 td_q0 None]) = false /\
  c12_will (pro ++ [EConnClose 5; EPub 4 ex_w None; EPub 2 td_q0 None]) = true /\
  will_link (pro ++ [EConnClose 5; EPub 4 ex_w None; EPubRet 4 true; ETerm 4 true; EClosed; ERx 2 Pingreq]) = false /\
  will_link (pro ++ [EConnClose 5; EPub 4 ex_w None; EPub 4 ex_w None]) = false /\
  will_link (pro ++ [ERx 2 Disconnect; EConnClose 2; EPub 4 ex_w None]) = false /\
  will_link (pro ++ [EConnClose 5; EPub 4 ex_w None; EPubRet 4 true; ETerm 4 true; EClosed; EAckCall 1 2]) = true /\
  forallb will_link [ex_will_conn; ex_disc_conn; ex_deny_conn; td_life; td_resume; td_in_q1; td_in_q2] = true.
Proof. vm_compute. repeat split; reflexivity. Qed.
