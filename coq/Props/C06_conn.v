(* C06 — delivery clause "topic and payload unchanged, retain flag as queued, QoS as
   dequeued": the half contributed by the subscriber's broker connection
   (/repo/broker/client.go, dequeuer), stated over the traces of the connection model BC
   (Broker/Conn.v) by the clause c06_forward_intact of Broker/ConnSpec5.v.  Only
   statements, `exact`, Print Assumptions.

   C06_forward_intact   Every message the dequeuer takes from the backend queue
                        (EDeqRet g (QMsg m _)) is forwarded by that goroutine as exactly
                        one PUBLISH whose message equals m field for field -- topic,
                        payload, QoS as dequeued (the backend has already lowered it to
                        the granted QoS), retain flag as queued -- with dup = false and,
                        for QoS > 0, under the packet id that ENextId g id allocated for
                        it (id 0 for QoS 0); it is forwarded before the next message is
                        taken, and the dequeuer sends no other fresh (dup = false)
                        PUBLISH.  Together with the backend half (what is queued for a
                        subscriber is the published message with QoS = min(published,
                        granted), Broker/Backend*.v) this gives C06's "delivered
                        unchanged".  (c15_dequeue_order already gives "message equal";
                        this clause adds the id, the dup flag and the QoS 0 / id 0 case.) *)
From Coq Require Import List NArith Bool.
From Coq.Strings Require Import Byte.
From GM Require Import Base.Lts Codec.Packet Session.Store Broker.Conn Broker.ConnSpec Broker.ConnSpec2
  Broker.ConnSpec5 Broker.ConnProofsD3 Broker.ConnProofsDTraces.
Import ListNotations.
Open Scope N_scope.

Theorem C06_forward_intact : forall es s, bc_run es = Some s -> c06_forward_intact es = true.
Proof. exact c06_forward_intact_holds. Qed.
Print Assumptions C06_forward_intact.

(* ------------------------------------------------------------ non-vacuity *)

(* four deliveries accepted by the model -- QoS 1 (id 1), QoS 0 (id 0), QoS 2 (id 2),
   QoS 1 with the retain flag set (id 3) -- each forwarded once, unchanged *)
Example C06_witness_forward :
  (exists s, bc_run td_fwd = Some s) /\ c06_forward_intact td_fwd = true /\
  count_ev is_deqmsg td_fwd = 4%nat /\ count_ev is_fresh_pub td_fwd = 4%nat /\
  In (ETx 3 (Publish false td_q0 0) true true) td_fwd /\
  In (ETx 3 (Publish false td_q1r 3) true true) td_fwd /\ m_retain td_q1r = true.
Proof.
  destruct td_fwd_ok as (A & F & N & _).
  split; [exact (accepted_run _ A)|]. split; [exact F|]. split; [vm_compute; reflexivity|]. split; [exact N|].
  unfold td_fwd. repeat split; repeat (apply in_or_app; first [left; cbn; tauto|right]); cbn; tauto.
Qed.

(* the clause rejects: another id than the allocated one, dup set, retain flag altered,
   QoS altered, QoS 1 without an id, QoS 0 with an id, a message forwarded twice, a
   message never forwarded before the next dequeue; the model accepts none of them *)
Example C06_clause_rejects :
  forallb (fun es => negb (c06_forward_intact es)) td_fw_mutants = true /\
  forallb (fun es => negb (accepted es)) td_fw_mutants = true /\ length td_fw_mutants = 8%nat.
Proof. destruct td_fw_mutants_rejected as (A & B). repeat split; assumption. Qed.
